(* C15 — PTLC / HTLC locks authorise exactly what their builders document, at the level of the emitted bytes.
   ptlc_lock / htlc_sha256_lock / htlc_shake256_lock are the byte strings of model/Builders.v (tied to
   tapescript.tools.make_ptlc_lock / make_htlc_*_lock by the correspondence run, command BLD); the witnesses
   are  PUSH1 sig ; TRUE  (claim),  PUSH1 sig ; FALSE  (refund)  and  PUSH1 sig ; PUSH1 preimage  (HTLC).
   For every oracle (hashes and signature verification are NOT modelled), every cache and every configuration
   with room for 4 items of 65 bytes, run_auth_scripts on [witness; lock]:
     - PTLC claim:   True  <->  sig verifies under the receiver key (flag-selected message), at any time;
     - PTLC refund:  True  <->  timestamp constraint met (C16 verdict) and sig verifies under the refund key;
     - HTLC:         True  <->  hash(preimage) = digest and sig verifies under the receiver key,
                            or  hash(preimage) <> digest, constraint met and sig verifies under the refund key.
   Never out of fuel; outside the model (AuthUnmod) only if the PVerify oracle answers with a list that is not
   exactly one item.  [sig_accepts] is spelled out in C15_sig_accepts_meaning. *)
From Coq Require Import ZArith List Bool Lia.
From Coq.Strings Require Import Byte String.
From TS Require Import Bytes State Prog Ops Interp Asm Builders SigSpec TimeSpec TapeLemmas BuilderSpec
  BuilderSpecC15 BuilderSpecC15b TablesCheck.
From TS Require BuilderSourcesProofs.
Import ListNotations.
Local Open Scope nat_scope.

(* the emitted bytes, opcode by opcode: 2c = IF_ELSE, 03 = PUSH1, 26 = CHECK_TIMESTAMP_VERIFY, 23 = CHECK_SIG,
   1e = SHA256, 1f = SHAKE256, 21 = EQUAL; two-byte big-endian body lengths *)
Theorem C15_ptlc_lock_bytes :
  forall rcv c refund fl,
  ptlc_lock rcv c refund fl =
    [x2c] ++ (len2 (x03 :: z2b (blen rcv) :: rcv) ++ (x03 :: z2b (blen rcv) :: rcv) ++
              len2 ((x03 :: z2b (blen c) :: c) ++ x26 :: x03 :: z2b (blen refund) :: refund) ++
              ((x03 :: z2b (blen c) :: c) ++ x26 :: x03 :: z2b (blen refund) :: refund)) ++ [x23; fl].
Proof. exact ptlc_lock_bytes. Qed.

Theorem C15_htlc_sha256_lock_bytes :
  forall digest rcv c refund fl,
  htlc_sha256_lock digest rcv c refund fl =
    (x1e :: (x03 :: z2b (blen digest) :: digest) ++ [x21; x2c]) ++
    ifelse_ops (claim_arm rcv) (refund_arm_bytes c refund) ++ [x23; fl].
Proof. exact htlc_sha256_lock_bytes. Qed.

Theorem C15_htlc_shake256_lock_bytes :
  forall n digest rcv c refund fl,
  htlc_shake256_lock n digest rcv c refund fl =
    (x1f :: n :: (x03 :: z2b (blen digest) :: digest) ++ [x21; x2c]) ++
    ifelse_ops (claim_arm rcv) (refund_arm_bytes c refund) ++ [x23; fl].
Proof. exact htlc_shake256_lock_bytes. Qed.

(* OP_IF_ELSE executed by the interpreter, pointer just behind the opcode: reads both length-prefixed bodies,
   pops the condition, runs the selected body as a NEW tape object (id = number of tape objects so far) with
   a NEW copy of the current definition table and the same call count, from offset 0; then propagates the
   control flag; the pointer ends behind the second body *)
Theorem C15_if_else_exec :
  forall orc cfg (run : nat -> state -> outcome unit) tid st ptr (pre b1 b2 tail : bytes) cond s,
  tdata st tid = pre ++ (Z_to_be 2 (blen b1) ++ b1 ++ Z_to_be 2 (blen b2) ++ b2) ++ tail ->
  ptr = List.length pre ->
  (blen b1 < 65536)%Z -> (blen b2 < 65536)%Z ->
  st_stack st = cond :: s ->
  interp orc cfg run OP_IF_ELSE {| fr_tid := tid; fr_ptr := ptr |} st =
    let fr' := {| fr_tid := tid; fr_ptr := ptr + (2 + List.length b1 + 2 + List.length b2) |} in
    let body := if bytes_to_bool cond then b1 else b2 in
    let c := nth_tape st tid in
    let st2 :=
      {| st_stack := s; st_cache := st_cache st;
         st_tapes := st_tapes st ++ [{| to_data := body; to_count := to_count c; to_defs := List.length (st_defs st) |}];
         st_defs := st_defs st ++ [nth_defs st (to_defs c)];
         st_log := st_log st; st_rand := st_rand st |} in
    match run (List.length (st_tapes st)) st2 with
    | Done _ _ st' => interp orc cfg run propagate_return fr' st'
    | Raised e _ st' => Raised e fr' st'
    | OutOfFuel => OutOfFuel
    | Unmodelled w => Unmodelled w
    end.
Proof.
  intros orc cfg run tid st ptr pre b1 b2 tail cond s Hd Hp H1 H2 Hs.
  rewrite (if_else_exec orc cfg run tid st ptr pre b1 b2 tail cond s Hd Hp H1 H2 Hs).
  cbv zeta. unfold ifelse_ops. rewrite !app_length, !length_len2.
  replace (ptr + (2 + (List.length b1 + (2 + List.length b2))))
    with (ptr + (2 + List.length b1 + 2 + List.length b2)) by lia.
  reflexivity.
Qed.

Theorem C15_sig_accepts_meaning :
  forall orc cfg pk sig allowed c,
  sig_accepts orc cfg pk sig allowed c <->
  (flags_permitted (sig_flag sig) allowed = true /\
   exists m x, msg_of (sig_flag sig) c = Some m /\ List.length m <= c_max_item_size cfg /\
               orc PVerify [pk; m; firstn 64 sig] = OOk [x] /\ bytes_to_bool x = true).
Proof. reflexivity. Qed.

Theorem C15_ptlc_claim_exact :
  forall (orc : oracle) (cfg : config), 65 <= c_max_item_size cfg -> 4 <= c_max_items cfg ->
  forall f rcv c refund sig fl vals,
  List.length rcv = 32 -> List.length refund = 32 -> List.length c <= 255 ->
  (List.length sig = 64 \/ List.length sig = 65) ->
  match run_auth_scripts orc cfg (S (S (S (S (S f)))))
          [ptlc_claim_witness sig; ptlc_lock rcv c refund fl] vals with
  | AuthVerdict b _ => b = true <-> sig_accepts orc cfg rcv sig (b2z fl) (init_cache cfg vals)
  | AuthFuel => False
  | AuthUnmod _ => exists m l, msg_of (sig_flag sig) (init_cache cfg vals) = Some m /\
                               orc PVerify [rcv; m; firstn 64 sig] = OOk l /\ List.length l <> 1
  end.
Proof. exact ptlc_claim_exact. Qed.

Theorem C15_ptlc_refund_exact :
  forall (orc : oracle) (cfg : config), 65 <= c_max_item_size cfg -> 4 <= c_max_items cfg ->
  forall f rcv c refund sig fl vals ts thr,
  List.length rcv = 32 -> List.length refund = 32 ->
  2 <= List.length c <= 255 -> List.length c <= c_max_item_size cfg ->
  (List.length sig = 64 \/ List.length sig = 65) ->
  cache_get (init_cache cfg vals) (KStr (str "timestamp")) = Some (VOne (AInt ts)) ->
  flag_get (c_flags cfg) (FKStr (str "ts_threshold")) = Some (FVInt thr) ->
  match run_auth_scripts orc cfg (S (S (S (S (S f)))))
          [ptlc_refund_witness sig; ptlc_lock rcv c refund fl] vals with
  | AuthVerdict b _ =>
      b = true <-> ts_verdict cfg (be_to_Z c) ts thr = true /\
                   sig_accepts orc cfg refund sig (b2z fl) (init_cache cfg vals)
  | AuthFuel => False
  | AuthUnmod _ => ts_verdict cfg (be_to_Z c) ts thr = true /\
                   exists m l, msg_of (sig_flag sig) (init_cache cfg vals) = Some m /\
                               orc PVerify [refund; m; firstn 64 sig] = OOk l /\ List.length l <> 1
  end.
Proof. exact ptlc_refund_exact. Qed.

Theorem C15_htlc_sha256_exact :
  forall (orc : oracle) (cfg : config), 65 <= c_max_item_size cfg -> 4 <= c_max_items cfg ->
  forall f digest rcv c refund sig preimage h fl vals ts thr,
  List.length rcv = 32 -> List.length refund = 32 ->
  2 <= List.length c <= 255 -> List.length c <= c_max_item_size cfg ->
  (List.length sig = 64 \/ List.length sig = 65) ->
  List.length digest = 32 -> List.length h = 32 ->
  List.length preimage < 256 -> List.length preimage <= c_max_item_size cfg ->
  orc PSha256 [preimage] = OOk [h] ->
  cache_get (init_cache cfg vals) (KStr (str "timestamp")) = Some (VOne (AInt ts)) ->
  flag_get (c_flags cfg) (FKStr (str "ts_threshold")) = Some (FVInt thr) ->
  match run_auth_scripts orc cfg (S (S (S (S (S (S (S (S f))))))))
          [htlc_witness sig preimage; htlc_sha256_lock digest rcv c refund fl] vals with
  | AuthVerdict b _ =>
      b = true <->
      (h = digest /\ sig_accepts orc cfg rcv sig (b2z fl) (init_cache cfg vals)) \/
      (h <> digest /\ ts_verdict cfg (be_to_Z c) ts thr = true /\
       sig_accepts orc cfg refund sig (b2z fl) (init_cache cfg vals))
  | AuthFuel => False
  | AuthUnmod _ =>
      (h = digest /\
       exists m l, msg_of (sig_flag sig) (init_cache cfg vals) = Some m /\
                   orc PVerify [rcv; m; firstn 64 sig] = OOk l /\ List.length l <> 1) \/
      (h <> digest /\ ts_verdict cfg (be_to_Z c) ts thr = true /\
       exists m l, msg_of (sig_flag sig) (init_cache cfg vals) = Some m /\
                   orc PVerify [refund; m; firstn 64 sig] = OOk l /\ List.length l <> 1)
  end.
Proof. exact htlc_sha256_exact. Qed.

(* n: the digest size byte *)
Theorem C15_htlc_shake256_exact :
  forall (orc : oracle) (cfg : config), 65 <= c_max_item_size cfg -> 4 <= c_max_items cfg ->
  forall f n digest rcv c refund sig preimage h fl vals ts thr,
  List.length rcv = 32 -> List.length refund = 32 ->
  2 <= List.length c <= 255 -> List.length c <= c_max_item_size cfg ->
  (List.length sig = 64 \/ List.length sig = 65) ->
  List.length digest < 256 -> List.length digest <= c_max_item_size cfg ->
  List.length h <= c_max_item_size cfg ->
  List.length preimage < 256 -> List.length preimage <= c_max_item_size cfg ->
  orc PShake256 [preimage; [n]] = OOk [h] ->
  cache_get (init_cache cfg vals) (KStr (str "timestamp")) = Some (VOne (AInt ts)) ->
  flag_get (c_flags cfg) (FKStr (str "ts_threshold")) = Some (FVInt thr) ->
  match run_auth_scripts orc cfg (S (S (S (S (S (S (S (S f))))))))
          [htlc_witness sig preimage; htlc_shake256_lock n digest rcv c refund fl] vals with
  | AuthVerdict b _ =>
      b = true <->
      (h = digest /\ sig_accepts orc cfg rcv sig (b2z fl) (init_cache cfg vals)) \/
      (h <> digest /\ ts_verdict cfg (be_to_Z c) ts thr = true /\
       sig_accepts orc cfg refund sig (b2z fl) (init_cache cfg vals))
  | AuthFuel => False
  | AuthUnmod _ =>
      (h = digest /\
       exists m l, msg_of (sig_flag sig) (init_cache cfg vals) = Some m /\
                   orc PVerify [rcv; m; firstn 64 sig] = OOk l /\ List.length l <> 1) \/
      (h <> digest /\ ts_verdict cfg (be_to_Z c) ts thr = true /\
       exists m l, msg_of (sig_flag sig) (init_cache cfg vals) = Some m /\
                   orc PVerify [refund; m; firstn 64 sig] = OOk l /\ List.length l <> 1)
  end.
Proof. exact htlc_shake256_exact. Qed.

(* non-vacuity: a toy oracle, the default configuration, concrete bytes *)
Module Toy.
  (* "verification" accepts iff key and signature start with the same byte; "hashes" repeat the first byte *)
  Definition orc : oracle := fun p args =>
    match p, args with
    | PVerify, [pk; _; s] => OOk [[if Byte.eqb (hd x00 pk) (hd x00 s) then x01 else x00]]
    | PSha256, [d] => OOk [repeat (hd x00 d) 32]
    | PShake256, [d; [n]] => OOk [repeat (hd x00 d) (Z.to_nat (b2z n))]
    | _, _ => OErr OtherError
    end.
  Definition cfg : config := default_config 1000.
  Definition vals : cache := [(KStr (str "sigfield1"), VOne (ABytes [x42]))].
  Definition RCV : bytes := repeat x01 32.
  Definition REF : bytes := repeat x02 32.
  Definition SIG_RCV : bytes := repeat x01 64.
  Definition SIG_REF : bytes := repeat x02 64.
  Definition C_PAST : bytes := [x03; x84].      (* 900  <= 1000 *)
  Definition C_FUTURE : bytes := [x07; xd0].    (* 2000 >  1000 *)
  Definition DIGEST : bytes := repeat xaa 32.
  Definition verdict (r : auth_result) : option bool :=
    match r with AuthVerdict b _ => Some b | _ => None end.
End Toy.
Import Toy.

Example C15_premises_satisfiable :
  65 <= c_max_item_size cfg /\ 4 <= c_max_items cfg /\
  cache_get (init_cache cfg vals) (KStr (str "timestamp")) = Some (VOne (AInt 1000)) /\
  flag_get (c_flags cfg) (FKStr (str "ts_threshold")) = Some (FVInt 60) /\
  orc PSha256 [[xaa; x01]] = OOk [DIGEST] /\ orc PShake256 [[xaa; x01]; [x20]] = OOk [DIGEST] /\
  ts_verdict cfg (be_to_Z C_PAST) 1000 60 = true /\ ts_verdict cfg (be_to_Z C_FUTURE) 1000 60 = false /\
  sig_accepts orc cfg RCV SIG_RCV 0 (init_cache cfg vals) /\
  sig_accepts orc cfg REF SIG_REF 0 (init_cache cfg vals) /\
  ~ sig_accepts orc cfg RCV SIG_REF 0 (init_cache cfg vals) /\
  ~ sig_accepts orc cfg REF SIG_RCV 0 (init_cache cfg vals).
Proof.
  assert (A : forall pk s, sig_accepts orc cfg pk s 0 (init_cache cfg vals) ->
                           List.length s = 64 -> Byte.eqb (hd x00 pk) (hd x00 (firstn 64 s)) = true).
  { intros pk s (_ & m & x & _ & _ & Ho & Hb) _. unfold orc in Ho. injection Ho as <-.
    destruct (Byte.eqb _ _); [reflexivity|discriminate Hb]. }
  repeat split; try (vm_compute; reflexivity); try (apply Nat.leb_le; vm_compute; reflexivity).
  - exists [x42], [x01]. repeat split; try (vm_compute; reflexivity). apply Nat.leb_le. vm_compute. reflexivity.
  - exists [x42], [x01]. repeat split; try (vm_compute; reflexivity). apply Nat.leb_le. vm_compute. reflexivity.
  - intro H. apply A in H; [|reflexivity]. vm_compute in H. discriminate H.
  - intro H. apply A in H; [|reflexivity]. vm_compute in H. discriminate H.
Qed.

(* the verdict computed by the model on the concrete bytes agrees with the right-hand sides above *)
Example C15_ptlc_computed :
  verdict (run_auth_scripts orc cfg 5 [ptlc_claim_witness SIG_RCV; ptlc_lock RCV C_FUTURE REF x00] vals) = Some true /\
  verdict (run_auth_scripts orc cfg 5 [ptlc_claim_witness SIG_REF; ptlc_lock RCV C_FUTURE REF x00] vals) = Some false /\
  verdict (run_auth_scripts orc cfg 5 [ptlc_refund_witness SIG_REF; ptlc_lock RCV C_PAST REF x00] vals) = Some true /\
  verdict (run_auth_scripts orc cfg 5 [ptlc_refund_witness SIG_REF; ptlc_lock RCV C_FUTURE REF x00] vals) = Some false /\
  verdict (run_auth_scripts orc cfg 5 [ptlc_refund_witness SIG_RCV; ptlc_lock RCV C_PAST REF x00] vals) = Some false.
Proof. vm_compute. repeat split; reflexivity. Qed.

Example C15_htlc_computed :
  (* right preimage, receiver's signature *)
  verdict (run_auth_scripts orc cfg 8 [htlc_witness SIG_RCV [xaa; x01]; htlc_sha256_lock DIGEST RCV C_FUTURE REF x00] vals) = Some true /\
  (* right preimage, refund key's signature: the refund arm is not taken *)
  verdict (run_auth_scripts orc cfg 8 [htlc_witness SIG_REF [xaa; x01]; htlc_sha256_lock DIGEST RCV C_PAST REF x00] vals) = Some false /\
  (* wrong preimage: refund arm, after / before the timeout, and with the receiver's signature *)
  verdict (run_auth_scripts orc cfg 8 [htlc_witness SIG_REF [xbb; x01]; htlc_sha256_lock DIGEST RCV C_PAST REF x00] vals) = Some true /\
  verdict (run_auth_scripts orc cfg 8 [htlc_witness SIG_REF [xbb; x01]; htlc_sha256_lock DIGEST RCV C_FUTURE REF x00] vals) = Some false /\
  verdict (run_auth_scripts orc cfg 8 [htlc_witness SIG_RCV [xbb; x01]; htlc_sha256_lock DIGEST RCV C_PAST REF x00] vals) = Some false /\
  (* shake256, 32-byte digest *)
  verdict (run_auth_scripts orc cfg 8 [htlc_witness SIG_RCV [xaa; x01]; htlc_shake256_lock x20 DIGEST RCV C_FUTURE REF x00] vals) = Some true /\
  verdict (run_auth_scripts orc cfg 8 [htlc_witness SIG_REF [xbb; x01]; htlc_shake256_lock x20 DIGEST RCV C_PAST REF x00] vals) = Some true /\
  verdict (run_auth_scripts orc cfg 8 [htlc_witness SIG_REF [xbb; x01]; htlc_shake256_lock x20 DIGEST RCV C_FUTURE REF x00] vals) = Some false.
Proof. vm_compute. repeat split; reflexivity. Qed.

(* the theorems instantiated at the toy data: every premise is discharged by computation *)
Example C15_ptlc_refund_instance :
  match run_auth_scripts orc cfg 5 [ptlc_refund_witness SIG_REF; ptlc_lock RCV C_PAST REF x00] vals with
  | AuthVerdict b _ =>
      b = true <-> ts_verdict cfg (be_to_Z C_PAST) 1000 60 = true /\
                   sig_accepts orc cfg REF SIG_REF (b2z x00) (init_cache cfg vals)
  | AuthFuel => False
  | AuthUnmod _ => ts_verdict cfg (be_to_Z C_PAST) 1000 60 = true /\
                   exists m l, msg_of (sig_flag SIG_REF) (init_cache cfg vals) = Some m /\
                               orc PVerify [REF; m; firstn 64 SIG_REF] = OOk l /\ List.length l <> 1
  end.
Proof.
  apply (C15_ptlc_refund_exact orc cfg); try (vm_compute; reflexivity);
    try (apply Nat.leb_le; vm_compute; reflexivity).
  - split; apply Nat.leb_le; vm_compute; reflexivity.
  - left. reflexivity.
Qed.

(* second HTLC layout: keys committed by hash (proofs/BuilderSpecC15b.v).
   witness = PUSH1 sig ; PUSH1 key ; PUSH1 preimage.  [verdict_spec r P U]: r is a verdict b with b = true <-> P,
   never out of fuel, and outside the model only if U (the PVerify oracle answered with a list of length <> 1). *)
Theorem C15_htlc2_sha256_exact :
  forall orc cfg, 65 <= c_max_item_size cfg -> 4 <= c_max_items cfg ->
  forall fuel digest hr c hf sig key preimage h hk fl vals ts thr,
  10 <= fuel ->
  List.length key = 32 -> (List.length sig = 64 \/ List.length sig = 65) ->
  List.length hr < 256 -> List.length hr <= c_max_item_size cfg ->
  List.length hf < 256 -> List.length hf <= c_max_item_size cfg ->
  2 <= List.length c <= 255 -> List.length c <= c_max_item_size cfg ->
  List.length digest = 32 -> List.length h = 32 ->
  List.length preimage < 256 -> List.length preimage <= c_max_item_size cfg ->
  orc PSha256 [preimage] = OOk [h] ->
  orc PShake256 [key; [x14]] = OOk [hk] ->
  cache_get (init_cache cfg vals) ts_key = Some (VOne (AInt ts)) ->
  flag_get (c_flags cfg) thr_key = Some (FVInt thr) ->
  let c0 := init_cache cfg vals in
  verdict_spec
    (run_auth_scripts orc cfg fuel [htlc2_witness sig key preimage; htlc2_sha256_lock digest hr c hf fl] vals)
    ((h = digest /\ hk = hr /\ sig_accepts orc cfg key sig (b2z fl) c0) \/
     (h <> digest /\ ts_verdict cfg (be_to_Z c) ts thr = true /\ hk = hf /\
      sig_accepts orc cfg key sig (b2z fl) c0))
    ((h = digest /\ hk = hr /\ bad_arity orc key sig c0) \/
     (h <> digest /\ ts_verdict cfg (be_to_Z c) ts thr = true /\ hk = hf /\ bad_arity orc key sig c0)).
Proof. exact htlc2_sha256_exact. Qed.

Theorem C15_htlc2_shake256_exact :
  forall orc cfg, 65 <= c_max_item_size cfg -> 4 <= c_max_items cfg ->
  forall fuel n digest hr c hf sig key preimage h hk fl vals ts thr,
  10 <= fuel ->
  List.length key = 32 -> (List.length sig = 64 \/ List.length sig = 65) ->
  List.length hr < 256 -> List.length hr <= c_max_item_size cfg ->
  List.length hf < 256 -> List.length hf <= c_max_item_size cfg ->
  2 <= List.length c <= 255 -> List.length c <= c_max_item_size cfg ->
  List.length digest < 256 -> List.length digest <= c_max_item_size cfg ->
  List.length h <= c_max_item_size cfg ->
  List.length preimage < 256 -> List.length preimage <= c_max_item_size cfg ->
  orc PShake256 [preimage; [n]] = OOk [h] ->
  orc PShake256 [key; [n]] = OOk [hk] ->
  cache_get (init_cache cfg vals) ts_key = Some (VOne (AInt ts)) ->
  flag_get (c_flags cfg) thr_key = Some (FVInt thr) ->
  let c0 := init_cache cfg vals in
  verdict_spec
    (run_auth_scripts orc cfg fuel [htlc2_witness sig key preimage; htlc2_shake256_lock n digest hr c hf fl] vals)
    ((h = digest /\ hk = hr /\ sig_accepts orc cfg key sig (b2z fl) c0) \/
     (h <> digest /\ ts_verdict cfg (be_to_Z c) ts thr = true /\ hk = hf /\
      sig_accepts orc cfg key sig (b2z fl) c0))
    ((h = digest /\ hk = hr /\ bad_arity orc key sig c0) \/
     (h <> digest /\ ts_verdict cfg (be_to_Z c) ts thr = true /\ hk = hf /\ bad_arity orc key sig c0)).
Proof. exact htlc2_shake256_exact. Qed.

Print Assumptions C15_htlc2_sha256_exact.
Print Assumptions C15_htlc2_shake256_exact.
(* the PTLC / HTLC builders as SOURCE (proofs/BuilderSourcesProofs.v): the template text of tools.py, mirrored token for token in
   model/BuilderSources.v, compiles, for all arguments, to the bytes of model/Builders.v that the theorems above are about *)
Definition C15_src_ptlc_lock_compiles := @BuilderSourcesProofs.ptlc_lock_compiles.
Definition C15_src_htlc_sha256_lock_compiles := @BuilderSourcesProofs.htlc_sha256_lock_compiles.
Definition C15_src_htlc_shake256_lock_compiles := @BuilderSourcesProofs.htlc_shake256_lock_compiles.
Definition C15_src_htlc2_sha256_lock_compiles := @BuilderSourcesProofs.htlc2_sha256_lock_compiles.
Definition C15_src_htlc2_shake256_lock_compiles := @BuilderSourcesProofs.htlc2_shake256_lock_compiles.
Definition C15_src_htlc_witness_compiles := @BuilderSourcesProofs.htlc_witness_compiles.
Definition C15_src_htlc2_witness_compiles := @BuilderSourcesProofs.htlc2_witness_compiles.
Definition C15_src_sig_then_compiles := @BuilderSourcesProofs.sig_then_compiles.
Definition C15_src_ptlc_witness_tweak_compiles := @BuilderSourcesProofs.ptlc_witness_tweak_compiles.
Check C15_src_ptlc_lock_compiles.
Check C15_src_htlc_sha256_lock_compiles.
Check C15_src_htlc_shake256_lock_compiles.
Print Assumptions C15_src_ptlc_lock_compiles.
Print Assumptions C15_src_htlc_sha256_lock_compiles.
Print Assumptions C15_src_htlc_shake256_lock_compiles.
Print Assumptions C15_src_htlc2_sha256_lock_compiles.
Print Assumptions C15_src_htlc2_shake256_lock_compiles.
Print Assumptions C15_src_htlc_witness_compiles.
Print Assumptions C15_src_htlc2_witness_compiles.
Print Assumptions C15_src_sig_then_compiles.
Print Assumptions C15_src_ptlc_witness_tweak_compiles.

Print Assumptions C15_ptlc_lock_bytes.
Print Assumptions C15_htlc_sha256_lock_bytes.
Print Assumptions C15_htlc_shake256_lock_bytes.
Print Assumptions C15_if_else_exec.
Print Assumptions C15_sig_accepts_meaning.
Print Assumptions C15_ptlc_claim_exact.
Print Assumptions C15_ptlc_refund_exact.
Print Assumptions C15_htlc_sha256_exact.
Print Assumptions C15_htlc_shake256_exact.
Print Assumptions C15_premises_satisfiable.
Print Assumptions C15_ptlc_computed.
Print Assumptions C15_htlc_computed.
Print Assumptions C15_ptlc_refund_instance.
