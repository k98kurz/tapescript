(* C10 — Integer and float encodings are exact inverses at every magnitude.
   Integer part: proved for every n : Z. [fl2] stands for Python's floor(math.log2(a)), a float
   computation; the only thing assumed about it (fl2_ok) is that it never under-estimates and
   over-estimates by at most one — checked against the platform's math.log2 on every run.
   Float part: struct.pack('!f') / struct.unpack('!f') are modelled by Flocq's binary32 (model/FloatCodec.v). *)
From Coq Require Import ZArith List Lia.
From Coq.Strings Require Import Byte.
From Flocq Require Import IEEE754.Binary IEEE754.Bits.
From TS Require Import Bytes Codec BytesLemmas CodecProofs FloatCodec FloatCodecProofs.
Import ListNotations.
Open Scope Z_scope.

Theorem C10_int_roundtrip :
  forall fl2, fl2_ok fl2 -> forall n : Z,
    exists b, int_to_bytes fl2 n = Some b /\ bytes_to_int b = Some n /\ b <> [] /\ (top_bit b = true <-> n < 0).
Proof. exact int_roundtrip. Qed.

Theorem C10_bytes_to_int_total :
  forall b, b <> [] ->
    exists z, bytes_to_int b = Some z /\ - 2 ^ (8 * blen b - 1) <= z < 2 ^ (8 * blen b - 1)
              /\ z mod 2 ^ (8 * blen b) = be_to_Z b.
Proof. exact bytes_to_int_total. Qed.

Theorem C10_decode_injective :
  forall a b, List.length a = List.length b -> bytes_to_int a = bytes_to_int b -> a <> [] -> a = b.
Proof.
  intros a b Hlen Heq Ha.
  assert (Hb : b <> []) by (intros ->; destruct a; [congruence|discriminate]).
  assert (Hbl : blen a = blen b) by (unfold blen; now rewrite Hlen).
  destruct (bytes_to_int_total a Ha) as (za & Ea & _ & Ma).
  destruct (bytes_to_int_total b Hb) as (zb & Eb & _ & Mb).
  rewrite Ea, Eb in Heq. injection Heq as Heq. subst zb.
  apply be_to_Z_inj; [exact Hlen|].
  rewrite <- Ma, <- Mb, Hbl. reflexivity.
Qed.

Theorem C10_exact_log2_is_ok : fl2_ok fl2_exact.
Proof. intros a Ha. unfold fl2_exact. lia. Qed.

(* non-vacuity: the hypotheses are met and the statement computes on concrete values *)
Example C10_example :
  int_to_bytes fl2_exact (-129) = Some [xff; x7f] /\ bytes_to_int [xff; x7f] = Some (-129)
  /\ int_to_bytes fl2_exact 128 = Some [x00; x80] /\ int_to_bytes fl2_exact (-128) = Some [x80].
Proof. vm_compute. repeat split; reflexivity. Qed.

(* float_to_bytes x = the 32 bits of x, big endian (struct.pack('!f')); bytes_to_float = struct.unpack('!f').
   These four theorems depend on the axioms of the standard library's real numbers and classical logic through Flocq
   (listed by Print Assumptions below and named in the trusted base); the integer theorems above depend on none. *)
Theorem C10_float_roundtrip : forall x : binary32, bytes_to_float (float_to_bytes x) = Some x.
Proof. exact float_roundtrip. Qed.

Theorem C10_float_bytes_roundtrip :
  forall b : bytes, List.length b = 4%nat -> exists x, bytes_to_float b = Some x /\ float_to_bytes x = b.
Proof. exact bytes_roundtrip. Qed.

Theorem C10_float_decoding_total_exactly_on_4_bytes :
  forall b : bytes, bytes_to_float b <> None <-> List.length b = 4%nat.
Proof.
  intro b. unfold bytes_to_float. destruct (Nat.eqb (List.length b) 4) eqn:E.
  - apply Nat.eqb_eq in E. split; [intros _; exact E|discriminate].
  - apply Nat.eqb_neq in E. split; [intro H; exfalso; apply H; reflexivity|intro H; contradiction].
Qed.

Theorem C10_float_encoding_injective : forall x y : binary32, float_to_bytes x = float_to_bytes y -> x = y.
Proof.
  intros x y H. assert (E : bytes_to_float (float_to_bytes x) = bytes_to_float (float_to_bytes y)) by (rewrite H; reflexivity).
  rewrite !float_roundtrip in E. injection E as E. exact E.
Qed.

Print Assumptions C10_float_roundtrip.
Print Assumptions C10_float_bytes_roundtrip.
Print Assumptions C10_float_decoding_total_exactly_on_4_bytes.
Print Assumptions C10_float_encoding_injective.
Print Assumptions C10_int_roundtrip.
Print Assumptions C10_bytes_to_int_total.
Print Assumptions C10_decode_injective.
