(* C17 — adapter signatures are algebraically correct, for every commutative ring of scalars
   acting on an abelian group of points, every base point G and every challenge function chal.
   Each theorem is closed: the ring / group / module laws it needs appear as explicit premises
   (only the laws actually used by its proof).  All sensitivity statements are exact
   characterisations (iff); no hardness assumption is made anywhere.
   Proofs are in proofs/Algebra.v. *)
From Coq Require Import ZArith List Ring Ring_theory.
From Coq Require Import Bool.
From Coq.Strings Require Import Byte.
From TS Require Import Bytes State Prog Ops Interp Algebra AdapterLink.
From TS Require BuilderSourcesProofs.
Import ListNotations.

(* the definitions the statements are about (mirror of tapescript/functions.py) *)
Example C17_def_pub : forall (scalar point : Type) (act : scalar -> point -> point) (G : point) x,
  pub act G x = act x G.
Proof. reflexivity. Qed.
Example C17_def_sig_valid : forall (scalar point msg : Type) (padd : point -> point -> point)
    (act : scalar -> point -> point) (G : point) (chal : point -> point -> msg -> scalar) X m R s,
  sig_valid padd act G chal X m R s = (act s G = padd R (act (chal R X m) X)).
Proof. reflexivity. Qed.
(* OP_MAKE_ADAPTER_SIG_PUBLIC: (R, sa) = (r G, r + c(R + T, X, m) x) *)
Example C17_def_make_adapter_public : forall (scalar point msg : Type) (sadd smul : scalar -> scalar -> scalar)
    (padd : point -> point -> point) (act : scalar -> point -> point) (G : point)
    (chal : point -> point -> msg -> scalar) x r T m,
  make_adapter_public sadd smul padd act G chal x r T m =
  (act r G, sadd r (smul (chal (padd (act r G) T) (act x G) m) x)).
Proof. reflexivity. Qed.
(* OP_CHECK_ADAPTER_SIG: sa G = R + c(R + T, X, m) X *)
Example C17_def_check_adapter : forall (scalar point msg : Type) (padd : point -> point -> point)
    (act : scalar -> point -> point) (G : point) (chal : point -> point -> msg -> scalar) X T m R sa,
  check_adapter padd act G chal X T m R sa = (act sa G = padd R (act (chal (padd R T) X m) X)).
Proof. reflexivity. Qed.
(* OP_DECRYPT_ADAPTER_SIG: (RT, s) = (R + t G, sa + t) *)
Example C17_def_decrypt_adapter : forall (scalar point : Type) (sadd : scalar -> scalar -> scalar)
    (padd : point -> point -> point) (act : scalar -> point -> point) (G : point) t R sa,
  decrypt_adapter sadd padd act G t R sa = (padd R (act t G), sadd sa t).
Proof. reflexivity. Qed.
Example C17_def_recover : forall (scalar : Type) (ssub : scalar -> scalar -> scalar) s sa,
  recover ssub s sa = ssub s sa.
Proof. reflexivity. Qed.
(* OP_MAKE_ADAPTER_SIG_PRIVATE as written: (T, R, sa') = (t G, r G, t + r + c(R, X, m) x) *)
Example C17_def_make_adapter_private : forall (scalar point msg : Type) (sadd smul : scalar -> scalar -> scalar)
    (act : scalar -> point -> point) (G : point) (chal : point -> point -> msg -> scalar) x r t m,
  make_adapter_private sadd smul act G chal x r t m =
  (act t G, act r G, sadd (sadd t r) (smul (chal (act r G) (act x G) m) x)).
Proof. reflexivity. Qed.

(* 1. the adapter made for T passes OP_CHECK_ADAPTER_SIG for (pub x, T, m) *)
Theorem C17_adapter_checks :
  forall (scalar : Type) (sadd smul : scalar -> scalar -> scalar)
      (point : Type) (padd : point -> point -> point) (act : scalar -> point -> point),
    (forall (a b : scalar) (P : point), act (sadd a b) P = padd (act a P) (act b P)) ->
    (forall (a b : scalar) (P : point), act (smul a b) P = act a (act b P)) ->
    forall (G : point) (msg : Type) (chal : point -> point -> msg -> scalar)
      (x r : scalar) (T : point) (m : msg),
    check_adapter padd act G chal (pub act G x) T m
      (fst (make_adapter_public sadd smul padd act G chal x r T m))
      (snd (make_adapter_public sadd smul padd act G chal x r T m)).
Proof. exact adapter_checks. Qed.

(* 2. decrypting with t (T = t G) gives (R + T, sa + t), an ordinary valid signature under pub x *)
Theorem C17_adapter_decrypts :
  forall (scalar : Type) (sadd smul : scalar -> scalar -> scalar)
      (point : Type) (padd : point -> point -> point),
    (forall P Q : point, padd P Q = padd Q P) ->
    (forall P Q R : point, padd P (padd Q R) = padd (padd P Q) R) ->
    forall act : scalar -> point -> point,
    (forall (a b : scalar) (P : point), act (sadd a b) P = padd (act a P) (act b P)) ->
    (forall (a b : scalar) (P : point), act (smul a b) P = act a (act b P)) ->
    forall (G : point) (msg : Type) (chal : point -> point -> msg -> scalar)
      (x r t : scalar) (m : msg),
    let T := act t G in
    let ad := make_adapter_public sadd smul padd act G chal x r T m in
    let dec := decrypt_adapter sadd padd act G t (fst ad) (snd ad) in
    fst dec = padd (fst ad) T /\
    snd dec = sadd (snd ad) t /\ sig_valid padd act G chal (pub act G x) m (fst dec) (snd dec).
Proof. exact adapter_decrypts. Qed.

(* 3. s - sa = t *)
Theorem C17_recover_decrypt :
  forall (scalar : Type) (s0 s1 : scalar) (sadd smul ssub : scalar -> scalar -> scalar)
      (sopp : scalar -> scalar),
    ring_theory s0 s1 sadd smul ssub sopp eq ->
    forall sa t : scalar, recover ssub (sadd sa t) sa = t.
Proof. exact recover_decrypt. Qed.

Theorem C17_adapter_recovers :
  forall (scalar : Type) (s0 s1 : scalar) (sadd smul ssub : scalar -> scalar -> scalar)
      (sopp : scalar -> scalar),
    ring_theory s0 s1 sadd smul ssub sopp eq ->
    forall (point : Type) (padd : point -> point -> point) (act : scalar -> point -> point)
      (G : point) (msg : Type) (chal : point -> point -> msg -> scalar)
      (x r t : scalar) (m : msg),
    let ad := make_adapter_public sadd smul padd act G chal x r (act t G) m in
    let dec := decrypt_adapter sadd padd act G t (fst ad) (snd ad) in
    recover ssub (snd dec) (snd ad) = t.
Proof. exact adapter_recovers. Qed.

(* 4a. against the honest (X, T, m, R) the check accepts sa2 iff sa2 G = sa G *)
Theorem C17_check_sensitive_sa :
  forall (scalar : Type) (sadd smul : scalar -> scalar -> scalar)
      (point : Type) (padd : point -> point -> point) (act : scalar -> point -> point),
    (forall (a b : scalar) (P : point), act (sadd a b) P = padd (act a P) (act b P)) ->
    (forall (a b : scalar) (P : point), act (smul a b) P = act a (act b P)) ->
    forall (G : point) (msg : Type) (chal : point -> point -> msg -> scalar)
      (x r : scalar) (T : point) (m : msg) (sa2 : scalar),
    let ad := make_adapter_public sadd smul padd act G chal x r T m in
    check_adapter padd act G chal (pub act G x) T m (fst ad) sa2 <-> act sa2 G = act (snd ad) G.
Proof. exact check_sensitive_sa. Qed.

(* on an arbitrary tuple the check is the displayed equation *)
Theorem C17_check_adapter_spec :
  forall (scalar point : Type) (padd : point -> point -> point)
      (act : scalar -> point -> point) (G : point) (msg : Type)
      (chal : point -> point -> msg -> scalar) (X2 T2 : point) (m2 : msg)
      (R2 : point) (sa2 : scalar),
    check_adapter padd act G chal X2 T2 m2 R2 sa2 <->
    act sa2 G = padd R2 (act (chal (padd R2 T2) X2 m2) X2).
Proof. intros. unfold check_adapter. reflexivity. Qed.

(* 4b. honest adapter, only T replaced by T2 *)
Theorem C17_check_sensitive_T :
  forall (scalar : Type) (sadd smul : scalar -> scalar -> scalar)
      (point : Type) (p0 : point) (padd : point -> point -> point) (popp : point -> point),
    (forall P Q : point, padd P Q = padd Q P) ->
    (forall P Q R : point, padd P (padd Q R) = padd (padd P Q) R) ->
    (forall P : point, padd p0 P = P) ->
    (forall P : point, padd P (popp P) = p0) ->
    forall act : scalar -> point -> point,
    (forall (a b : scalar) (P : point), act (sadd a b) P = padd (act a P) (act b P)) ->
    (forall (a b : scalar) (P : point), act (smul a b) P = act a (act b P)) ->
    forall (G : point) (msg : Type) (chal : point -> point -> msg -> scalar)
      (x r : scalar) (T : point) (m : msg) (T2 : point),
    let ad := make_adapter_public sadd smul padd act G chal x r T m in
    let R := fst ad in
    let X := pub act G x in
    check_adapter padd act G chal X T2 m R (snd ad) <->
    act (chal (padd R T) X m) X = act (chal (padd R T2) X m) X.
Proof. exact check_sensitive_T. Qed.

(* 4c. honest adapter, only m replaced by m2 *)
Theorem C17_check_sensitive_m :
  forall (scalar : Type) (sadd smul : scalar -> scalar -> scalar)
      (point : Type) (p0 : point) (padd : point -> point -> point) (popp : point -> point),
    (forall P Q : point, padd P Q = padd Q P) ->
    (forall P Q R : point, padd P (padd Q R) = padd (padd P Q) R) ->
    (forall P : point, padd p0 P = P) ->
    (forall P : point, padd P (popp P) = p0) ->
    forall act : scalar -> point -> point,
    (forall (a b : scalar) (P : point), act (sadd a b) P = padd (act a P) (act b P)) ->
    (forall (a b : scalar) (P : point), act (smul a b) P = act a (act b P)) ->
    forall (G : point) (msg : Type) (chal : point -> point -> msg -> scalar)
      (x r : scalar) (T : point) (m m2 : msg),
    let ad := make_adapter_public sadd smul padd act G chal x r T m in
    let R := fst ad in
    let X := pub act G x in
    check_adapter padd act G chal X T m2 R (snd ad) <->
    act (chal (padd R T) X m) X = act (chal (padd R T) X m2) X.
Proof. exact check_sensitive_m. Qed.

(* 5. the bare adapter (R, sa) is an ordinary signature iff the two challenges agree on X *)
Theorem C17_adapter_not_signature_iff :
  forall (scalar : Type) (sadd smul : scalar -> scalar -> scalar)
      (point : Type) (p0 : point) (padd : point -> point -> point) (popp : point -> point),
    (forall P Q : point, padd P Q = padd Q P) ->
    (forall P Q R : point, padd P (padd Q R) = padd (padd P Q) R) ->
    (forall P : point, padd p0 P = P) ->
    (forall P : point, padd P (popp P) = p0) ->
    forall act : scalar -> point -> point,
    (forall (a b : scalar) (P : point), act (sadd a b) P = padd (act a P) (act b P)) ->
    (forall (a b : scalar) (P : point), act (smul a b) P = act a (act b P)) ->
    forall (G : point) (msg : Type) (chal : point -> point -> msg -> scalar)
      (x r : scalar) (T : point) (m : msg),
    let ad := make_adapter_public sadd smul padd act G chal x r T m in
    let R := fst ad in
    let X := pub act G x in
    sig_valid padd act G chal X m R (snd ad) <->
    act (chal (padd R T) X m) X = act (chal R X m) X.
Proof. exact adapter_not_signature_iff. Qed.

(* 6. decrypting with t2 (T arbitrary) yields a valid signature iff the challenges for R + T and R + t2 G agree on X *)
Theorem C17_wrong_scalar_iff :
  forall (scalar : Type) (sadd smul : scalar -> scalar -> scalar)
      (point : Type) (p0 : point) (padd : point -> point -> point) (popp : point -> point),
    (forall P Q : point, padd P Q = padd Q P) ->
    (forall P Q R : point, padd P (padd Q R) = padd (padd P Q) R) ->
    (forall P : point, padd p0 P = P) ->
    (forall P : point, padd P (popp P) = p0) ->
    forall act : scalar -> point -> point,
    (forall (a b : scalar) (P : point), act (sadd a b) P = padd (act a P) (act b P)) ->
    (forall (a b : scalar) (P : point), act (smul a b) P = act a (act b P)) ->
    forall (G : point) (msg : Type) (chal : point -> point -> msg -> scalar)
      (x r : scalar) (T : point) (m : msg) (t2 : scalar),
    let ad := make_adapter_public sadd smul padd act G chal x r T m in
    let R := fst ad in
    let X := pub act G x in
    let dec := decrypt_adapter sadd padd act G t2 R (snd ad) in
    sig_valid padd act G chal X m (fst dec) (snd dec) <->
    act (chal (padd R T) X m) X = act (chal (padd R (act t2 G)) X m) X.
Proof. exact wrong_scalar_iff. Qed.

(* 6'. sa + t2 verifies against the intended nonce R + T iff t2 G = T *)
Theorem C17_wrong_scalar_intended_nonce_iff :
  forall (scalar : Type) (sadd smul : scalar -> scalar -> scalar)
      (point : Type) (p0 : point) (padd : point -> point -> point) (popp : point -> point),
    (forall P Q : point, padd P Q = padd Q P) ->
    (forall P Q R : point, padd P (padd Q R) = padd (padd P Q) R) ->
    (forall P : point, padd p0 P = P) ->
    (forall P : point, padd P (popp P) = p0) ->
    forall act : scalar -> point -> point,
    (forall (a b : scalar) (P : point), act (sadd a b) P = padd (act a P) (act b P)) ->
    (forall (a b : scalar) (P : point), act (smul a b) P = act a (act b P)) ->
    forall (G : point) (msg : Type) (chal : point -> point -> msg -> scalar)
      (x r : scalar) (T : point) (m : msg) (t2 : scalar),
    let ad := make_adapter_public sadd smul padd act G chal x r T m in
    let R := fst ad in
    let X := pub act G x in
    sig_valid padd act G chal X m (padd R T) (sadd (snd ad) t2) <-> act t2 G = T.
Proof. exact wrong_scalar_intended_nonce_iff. Qed.

(* 6 corollary: if a |-> a X, a |-> a G and P |-> chal P X m are injective, only t decrypts *)
Theorem C17_wrong_scalar_injective :
  forall (scalar : Type) (sadd smul : scalar -> scalar -> scalar)
      (point : Type) (p0 : point) (padd : point -> point -> point) (popp : point -> point),
    (forall P Q : point, padd P Q = padd Q P) ->
    (forall P Q R : point, padd P (padd Q R) = padd (padd P Q) R) ->
    (forall P : point, padd p0 P = P) ->
    (forall P : point, padd P (popp P) = p0) ->
    forall act : scalar -> point -> point,
    (forall (a b : scalar) (P : point), act (sadd a b) P = padd (act a P) (act b P)) ->
    (forall (a b : scalar) (P : point), act (smul a b) P = act a (act b P)) ->
    forall (G : point) (msg : Type) (chal : point -> point -> msg -> scalar)
      (x r t : scalar) (m : msg) (t2 : scalar),
    (forall a b : scalar, act a (pub act G x) = act b (pub act G x) -> a = b) ->
    (forall a b : scalar, act a G = act b G -> a = b) ->
    (forall P Q : point, chal P (pub act G x) m = chal Q (pub act G x) m -> P = Q) ->
    let ad := make_adapter_public sadd smul padd act G chal x r (act t G) m in
    let dec := decrypt_adapter sadd padd act G t2 (fst ad) (snd ad) in
    sig_valid padd act G chal (pub act G x) m (fst dec) (snd dec) -> t2 = t.
Proof. exact wrong_scalar_injective. Qed.

(* 7. OP_MAKE_ADAPTER_SIG_PRIVATE: its output passes OP_CHECK_ADAPTER_SIG iff T + c(R,X,m) X = c(R+T,X,m) X *)
Theorem C17_private_variant_check_iff :
  forall (scalar : Type) (s0 s1 : scalar) (sadd smul ssub : scalar -> scalar -> scalar)
      (sopp : scalar -> scalar),
    ring_theory s0 s1 sadd smul ssub sopp eq ->
    forall (point : Type) (p0 : point) (padd : point -> point -> point) (popp : point -> point),
    (forall P Q : point, padd P Q = padd Q P) ->
    (forall P Q R : point, padd P (padd Q R) = padd (padd P Q) R) ->
    (forall P : point, padd p0 P = P) ->
    (forall P : point, padd P (popp P) = p0) ->
    forall act : scalar -> point -> point,
    (forall (a b : scalar) (P : point), act (sadd a b) P = padd (act a P) (act b P)) ->
    (forall (a b : scalar) (P : point), act (smul a b) P = act a (act b P)) ->
    forall (G : point) (msg : Type) (chal : point -> point -> msg -> scalar)
      (x r t : scalar) (m : msg),
    let R := act r G in
    let T := act t G in
    let X := pub act G x in
    let sa' := snd (make_adapter_private sadd smul act G chal x r t m) in
    make_adapter_private sadd smul act G chal x r t m = (T, R, sa') /\
    (check_adapter padd act G chal X T m R sa' <->
     padd T (act (chal R X m) X) = act (chal (padd R T) X m) X).
Proof. exact private_variant_check_iff. Qed.

(* 7. ... and its decryption (R + T, sa' + t) is a valid signature iff the same equation holds *)
Theorem C17_private_variant_decrypt_iff :
  forall (scalar : Type) (s0 s1 : scalar) (sadd smul ssub : scalar -> scalar -> scalar)
      (sopp : scalar -> scalar),
    ring_theory s0 s1 sadd smul ssub sopp eq ->
    forall (point : Type) (p0 : point) (padd : point -> point -> point) (popp : point -> point),
    (forall P Q : point, padd P Q = padd Q P) ->
    (forall P Q R : point, padd P (padd Q R) = padd (padd P Q) R) ->
    (forall P : point, padd p0 P = P) ->
    (forall P : point, padd P (popp P) = p0) ->
    forall act : scalar -> point -> point,
    (forall (a b : scalar) (P : point), act (sadd a b) P = padd (act a P) (act b P)) ->
    (forall (a b : scalar) (P : point), act (smul a b) P = act a (act b P)) ->
    forall (G : point) (msg : Type) (chal : point -> point -> msg -> scalar)
      (x r t : scalar) (m : msg),
    let R := act r G in
    let T := act t G in
    let X := pub act G x in
    let sa' := snd (make_adapter_private sadd smul act G chal x r t m) in
    let dec := decrypt_adapter sadd padd act G t R sa' in
    sig_valid padd act G chal X m (fst dec) (snd dec) <->
    padd T (act (chal R X m) X) = act (chal (padd R T) X m) X.
Proof. exact private_variant_decrypt_iff. Qed.

(* 7. the same, uncancelled *)
Theorem C17_private_variant_decrypt_iff_raw :
  forall (scalar : Type) (s0 s1 : scalar) (sadd smul ssub : scalar -> scalar -> scalar)
      (sopp : scalar -> scalar),
    ring_theory s0 s1 sadd smul ssub sopp eq ->
    forall (point : Type) (p0 : point) (padd : point -> point -> point) (popp : point -> point),
    (forall P Q : point, padd P Q = padd Q P) ->
    (forall P Q R : point, padd P (padd Q R) = padd (padd P Q) R) ->
    (forall P : point, padd p0 P = P) ->
    (forall P : point, padd P (popp P) = p0) ->
    forall act : scalar -> point -> point,
    (forall (a b : scalar) (P : point), act (sadd a b) P = padd (act a P) (act b P)) ->
    (forall (a b : scalar) (P : point), act (smul a b) P = act a (act b P)) ->
    forall (G : point) (msg : Type) (chal : point -> point -> msg -> scalar)
      (x r t : scalar) (m : msg),
    let R := act r G in
    let T := act t G in
    let X := pub act G x in
    let sa' := snd (make_adapter_private sadd smul act G chal x r t m) in
    let dec := decrypt_adapter sadd padd act G t R sa' in
    sig_valid padd act G chal X m (fst dec) (snd dec) <->
    padd T (padd T (act (chal R X m) X)) = padd T (act (chal (padd R T) X m) X).
Proof.
  intros scalar s0 s1 sadd smul ssub sopp SR point p0 padd popp Pc Pa P0 Po act Al Am G msg chal x r t m R T X sa' dec.
  rewrite (padd_cancel_l_iff point p0 padd popp Pc Pa P0 Po).
  apply (private_variant_decrypt_iff scalar s0 s1 sadd smul ssub sopp SR point p0 padd popp Pc Pa P0 Po act Al Am).
Qed.

(* non-vacuity: scalar = point = Z, a . P = a * P, G = 1, chal R X m = R + 2 X + m *)
Local Open Scope Z_scope.

Example C17_adapter_checks_Z : forall x r T m : Z,
  checkZ (pubZ x) T m (fst (make_pubZ x r T m)) (snd (make_pubZ x r T m)).
Proof. exact adapter_checks_Z. Qed.

Example C17_adapter_decrypts_Z : forall x r t m : Z,
  let T := t * 1 in
  let ad := make_pubZ x r T m in
  let dec := decryptZ t (fst ad) (snd ad) in
  fst dec = fst ad + T /\ snd dec = snd ad + t /\ sig_validZ (pubZ x) m (fst dec) (snd dec).
Proof. exact adapter_decrypts_Z. Qed.

(* the injectivity premises of the corollary are satisfiable (here: whenever x <> 0) *)
Example C17_wrong_scalar_injective_Z : forall x r t m t2 : Z, x <> 0 ->
  let ad := make_pubZ x r (t * 1) m in
  let dec := decryptZ t2 (fst ad) (snd ad) in
  sig_validZ (pubZ x) m (fst dec) (snd dec) -> t2 = t.
Proof. exact wrong_scalar_injective_Z. Qed.

(* x = 2, r = 1, t = 1, m = 0: the PUBLIC adapter checks and decrypts to a valid signature *)
Example C17_public_variant_concrete_Z :
  let ad := make_pubZ 2 1 (1 * 1) 0 in
  let dec := decryptZ 1 (fst ad) (snd ad) in
  ad = (1, 13) /\ checkZ (pubZ 2) 1 0 (fst ad) (snd ad) /\
  dec = (2, 14) /\ sig_validZ (pubZ 2) 0 (fst dec) (snd dec).
Proof. exact public_variant_concrete_Z. Qed.

(* same numbers: the PRIVATE variant's adapter fails the check and its decryption does not verify *)
Example C17_private_variant_refuted_Z :
  make_prvZ 2 1 1 0 = (1, 1, 12) /\
  ~ checkZ (pubZ 2) 1 0 1 12 /\
  decryptZ 1 1 12 = (2, 13) /\
  ~ sig_validZ (pubZ 2) 0 2 13.
Proof. exact private_variant_refuted_Z. Qed.

(* The adapter INSTRUCTIONS compute exactly the algebra above (proofs/AdapterLink.v).
   For every scalar ring / point group / encodings es, ep / hash h512 / reduction red and every oracle that answers
   the ed25519 primitives according to them (hypotheses O_sha ... O_valid of Section Link), in every frame, state,
   configuration and runner. *)
Definition C17_make_public_instruction_computes := @make_public_computes_gen.
Definition C17_check_instruction_computes := @check_computes_prop.
(* D22: sa must be a CANONICAL scalar.  The
   link theorems above speak about encodings [es a]; this one is about an arbitrary byte string sa: if reducing sa || 0^32
   does not give sa back (bit 255 set -- which the base multiplication ignores -- or any value >= L), the check pushes 00
   whatever the other inputs are. *)
Definition C17_check_instruction_rejects_noncanonical_sa := @check_rejects_noncanonical.
Definition C17_decrypt_instruction_computes := @decrypt_computes.
Definition C17_instructions_adapter_checks := @adapter_instr_checks.
Definition C17_instructions_adapter_decrypts_and_recovers := @adapter_instr_decrypts.
Definition C17_make_private_instruction_computes := @make_private_computes.
Definition C17_private_instruction_check_iff := @private_instr_check_iff.
Check C17_make_public_instruction_computes.
Check C17_check_instruction_computes.
Check C17_check_instruction_rejects_noncanonical_sa.
Check C17_decrypt_instruction_computes.
Check C17_instructions_adapter_checks.
Check C17_instructions_adapter_decrypts_and_recovers.
Check C17_private_instruction_check_iff.

(* non-vacuity: a model of every hypothesis (the two-element field), and a concrete run of the three instructions *)
Example C17_link_hypotheses_satisfiable_run :
  exists sab Rb sb R'b,
    interp borc bcfg brun OP_MAKE_ADAPTER_SIG_PUBLIC bfr (bst [bep true; [x01]; bseed]) = Done tt bfr (bst [sab; Rb]) /\
    interp borc bcfg brun OP_CHECK_ADAPTER_SIG bfr (bst [bep true; bep true; [x01]; Rb; sab]) = Done tt bfr (bst [[xff]]) /\
    interp borc bcfg brun OP_DECRYPT_ADAPTER_SIG bfr (bst [bes true; Rb; sab]) = Done tt bfr (bst [sb; R'b]) /\
    bds sb && true = xorb (bds R'b) (bred (bh512 (R'b ++ bep true ++ [x01])) && true).
Proof. exact bool_concrete_run. Qed.

Print Assumptions C17_make_public_instruction_computes.
Print Assumptions C17_check_instruction_computes.
Print Assumptions C17_check_instruction_rejects_noncanonical_sa.
Print Assumptions C17_decrypt_instruction_computes.
Print Assumptions C17_instructions_adapter_checks.
Print Assumptions C17_instructions_adapter_decrypts_and_recovers.
Print Assumptions C17_make_private_instruction_computes.
Print Assumptions C17_private_instruction_check_iff.
Print Assumptions C17_link_hypotheses_satisfiable_run.
(* The adapter builders as SOURCE (model/BuilderSources.v mirrors the f-string templates of tools.py token for token;
   proofs/BuilderSourcesProofs.v: Examples against the real .src / .bytes, and the template TEXT compiles, for all arguments, to
   the bytes of model/Builders.v that the theorems above are about). *)
Definition C17_src_adapter_check_lock_compiles := @BuilderSourcesProofs.adapter_check_lock_compiles.
Definition C17_src_adapter_sig_lock_compiles := @BuilderSourcesProofs.adapter_sig_lock_compiles.
Definition C17_src_adapter_decrypt_compiles := @BuilderSourcesProofs.adapter_decrypt_compiles.
Definition C17_src_adapter_witness_compiles := @BuilderSourcesProofs.adapter_witness_compiles.
Check C17_src_adapter_check_lock_compiles.
Check C17_src_adapter_sig_lock_compiles.
Check C17_src_adapter_decrypt_compiles.
Print Assumptions C17_src_adapter_check_lock_compiles.
Print Assumptions C17_src_adapter_sig_lock_compiles.
Print Assumptions C17_src_adapter_decrypt_compiles.
Print Assumptions C17_src_adapter_witness_compiles.

Print Assumptions C17_adapter_checks.
Print Assumptions C17_adapter_decrypts.
Print Assumptions C17_recover_decrypt.
Print Assumptions C17_adapter_recovers.
Print Assumptions C17_check_sensitive_sa.
Print Assumptions C17_check_adapter_spec.
Print Assumptions C17_check_sensitive_T.
Print Assumptions C17_check_sensitive_m.
Print Assumptions C17_adapter_not_signature_iff.
Print Assumptions C17_wrong_scalar_iff.
Print Assumptions C17_wrong_scalar_intended_nonce_iff.
Print Assumptions C17_wrong_scalar_injective.
Print Assumptions C17_private_variant_check_iff.
Print Assumptions C17_private_variant_decrypt_iff.
Print Assumptions C17_private_variant_decrypt_iff_raw.
Print Assumptions C17_adapter_checks_Z.
Print Assumptions C17_adapter_decrypts_Z.
Print Assumptions C17_wrong_scalar_injective_Z.
Print Assumptions C17_public_variant_concrete_Z.
Print Assumptions C17_private_variant_refuted_Z.
