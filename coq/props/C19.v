(* C19 — Extension registries behave as sets; an entry is used by a run iff it is active.
   Registry part (plugins, contracts, contract interfaces, aliases): model/Registry.v is a
   state machine following tapescript/functions.py call by call; the abstract specification
   ([active_plugin], [active_contract], [active_iface], [active_alias], [op_ok]) is a function of
   the call history only (most recent call first, hence [rev ops]) and of the membership /
   lookup relation of the registry the history started from.
   [implements k i] = isinstance(contract k, interface i); [known_op o] = o in opcodes_inverse.
   The compile / caller-dict part of C19 is handled separately (see DESIGN.md). *)
From Coq Require Import List Bool Arith.
From TS Require Import Registry RegistryProofs.
Import ListNotations.

(* 1. after any history the registry contents are exactly the active entries *)
Theorem C19_registry_refines_sets :
  forall (implements : nat -> nat -> bool) (known_op : nat -> bool) (r0 : reg) (ops : list rop),
    reg_inv r0 ->
    let r := run_reg implements known_op r0 ops in
    (forall s p, In p (plugins_of r s) <-> active_plugin r0 (rev ops) s p = true) /\
    (forall id, alookup id (r_contracts r) = active_contract implements r0 (rev ops) id) /\
    (forall i, In i (r_ifaces r) <-> active_iface r0 (rev ops) i = true) /\
    (forall a, alookup a (r_aliases r) = active_alias known_op r0 (rev ops) a).
Proof. exact registry_refines_sets. Qed.

(* the finite enumeration inside [contract_accepted] means: some active interface matches *)
Theorem C19_contract_accepted_spec :
  forall (implements : nat -> nat -> bool) (r0 : reg) (h : list rop) (k : nat),
    contract_accepted implements r0 h k = true <->
    exists i, active_iface r0 h i = true /\ implements k i = true.
Proof. exact contract_accepted_spec. Qed.

(* which calls raise is also a function of the history *)
Theorem C19_outcome_refines :
  forall (implements : nat -> nat -> bool) (known_op : nat -> bool) (r0 : reg) (ops : list rop) (o : rop),
    reg_inv r0 ->
    snd (rstep implements known_op (run_reg implements known_op r0 ops) o) =
    if op_ok implements known_op r0 (rev ops) o then ROk else RErr.
Proof. intros. apply out_agrees. apply run_agrees. assumption. Qed.

(* the harness runs [run_trace]; it computes [run_reg] and one outcome per call *)
Theorem C19_run_trace_fst :
  forall (implements : nat -> nat -> bool) (known_op : nat -> bool) (ops : list rop) (r : reg),
    fst (run_trace implements known_op r ops) = run_reg implements known_op r ops.
Proof. exact run_trace_fst. Qed.

(* 2. no duplicates anywhere, initially and after every call *)
Theorem C19_registry_invariant :
  (forall ifaces aliases,
     NoDup ifaces -> NoDup (map fst aliases) -> reg_inv (reg_init ifaces aliases)) /\
  (forall (implements : nat -> nat -> bool) (known_op : nat -> bool) (r : reg) (o : rop),
     reg_inv r -> reg_inv (fst (rstep implements known_op r o))) /\
  (forall (implements : nat -> nat -> bool) (known_op : nat -> bool) (r0 : reg) (ops : list rop),
     reg_inv r0 -> reg_inv (run_reg implements known_op r0 ops)).
Proof. split; [exact reg_init_inv|]. split; [exact rstep_inv | exact run_reg_inv]. Qed.

Theorem C19_reg_inv_unfold :
  forall r, reg_inv r <->
    NoDup (map fst (r_plugins r)) /\
    Forall (fun e => NoDup (snd e)) (r_plugins r) /\
    NoDup (map fst (r_contracts r)) /\
    NoDup (r_ifaces r) /\
    NoDup (map fst (r_aliases r)).
Proof. intros r. apply iff_refl. Qed.

(* 3. plugins of a scope stay in order of addition *)
Theorem C19_plugin_order :
  forall (implements : nat -> nat -> bool) (known_op : nat -> bool) (r : reg) (s p : nat),
    let add := fst (rstep implements known_op r (AddPlugin s p)) in
    let rem := fst (rstep implements known_op r (RemovePlugin s p)) in
    (~ In p (plugins_of r s) -> plugins_of add s = plugins_of r s ++ [p]) /\
    (In p (plugins_of r s) -> plugins_of add s = plugins_of r s) /\
    (reg_inv r -> plugins_of rem s = remove Nat.eq_dec p (plugins_of r s)) /\
    (forall s', s' <> s -> alookup s' (r_plugins add) = alookup s' (r_plugins r)) /\
    (forall s', s' <> s -> alookup s' (r_plugins rem) = alookup s' (r_plugins r)).
Proof.
  intros. repeat split.
  - apply add_plugin_new.
  - apply add_plugin_old.
  - apply remove_plugin_same.
  - apply (proj2 (frame_AddPlugin implements known_op r s p)).
  - apply (proj2 (frame_RemovePlugin implements known_op r s p)).
Qed.

(* without the invariant: exactly what list.remove does *)
Theorem C19_remove_plugin_first :
  forall (implements : nat -> nat -> bool) (known_op : nat -> bool) (r : reg) (s p : nat),
    plugins_of (fst (rstep implements known_op r (RemovePlugin s p))) s =
    remove_first p (plugins_of r s).
Proof. exact remove_plugin_first. Qed.

(* frames: every call leaves what it does not name unchanged *)
Theorem C19_frame_AddPlugin :
  forall (implements : nat -> nat -> bool) (known_op : nat -> bool) (r : reg) (s p : nat),
    let r' := fst (rstep implements known_op r (AddPlugin s p)) in
    same_but_plugins r r' /\
    forall s', s' <> s -> alookup s' (r_plugins r') = alookup s' (r_plugins r).
Proof. exact frame_AddPlugin. Qed.

Theorem C19_frame_RemovePlugin :
  forall (implements : nat -> nat -> bool) (known_op : nat -> bool) (r : reg) (s p : nat),
    let r' := fst (rstep implements known_op r (RemovePlugin s p)) in
    same_but_plugins r r' /\
    forall s', s' <> s -> alookup s' (r_plugins r') = alookup s' (r_plugins r).
Proof. exact frame_RemovePlugin. Qed.

Theorem C19_frame_ResetPlugins :
  forall (implements : nat -> nat -> bool) (known_op : nat -> bool) (r : reg) (s : nat),
    let r' := fst (rstep implements known_op r (ResetPlugins s)) in
    same_but_plugins r r' /\
    forall s', s' <> s -> alookup s' (r_plugins r') = alookup s' (r_plugins r).
Proof.
  intros implements known_op r s. simpl. destruct (alookup s (r_plugins r)); simpl; (split; [repeat split|]); auto.
  intros s' H. apply alookup_aset_neq. exact H.
Qed.

Theorem C19_same_but_plugins_unfold :
  forall r r', same_but_plugins r r' <->
    r_contracts r' = r_contracts r /\ r_ifaces r' = r_ifaces r /\ r_aliases r' = r_aliases r.
Proof. intros r r'. apply iff_refl. Qed.

Theorem C19_frame_AddContract :
  forall (implements : nat -> nat -> bool) (known_op : nat -> bool) (r : reg) (id k : nat),
    let r' := fst (rstep implements known_op r (AddContract id k)) in
    r_plugins r' = r_plugins r /\ r_ifaces r' = r_ifaces r /\ r_aliases r' = r_aliases r /\
    forall id', id' <> id -> alookup id' (r_contracts r') = alookup id' (r_contracts r).
Proof.
  intros implements known_op r id k. simpl. destruct (existsb (implements k) (r_ifaces r)); simpl; repeat split; auto.
  intros id' H. apply alookup_aset_neq. exact H.
Qed.

Theorem C19_frame_RemoveContract :
  forall (implements : nat -> nat -> bool) (known_op : nat -> bool) (r : reg) (id : nat),
    let r' := fst (rstep implements known_op r (RemoveContract id)) in
    r_plugins r' = r_plugins r /\ r_ifaces r' = r_ifaces r /\ r_aliases r' = r_aliases r /\
    forall id', id' <> id -> alookup id' (r_contracts r') = alookup id' (r_contracts r).
Proof.
  intros implements known_op r id. simpl. repeat split; auto. intros id' H. apply alookup_adel_neq. exact H.
Qed.

Theorem C19_frame_AddIface :
  forall (implements : nat -> nat -> bool) (known_op : nat -> bool) (r : reg) (i : nat),
    let r' := fst (rstep implements known_op r (AddIface i)) in
    r_plugins r' = r_plugins r /\ r_contracts r' = r_contracts r /\ r_aliases r' = r_aliases r /\
    forall i', i' <> i -> (In i' (r_ifaces r') <-> In i' (r_ifaces r)).
Proof.
  intros implements known_op r i. simpl. repeat split; auto; destruct (mem i (r_ifaces r)); auto.
  - rewrite in_app_iff. simpl. intuition congruence.
  - intros. apply in_or_app. left. assumption.
Qed.

Theorem C19_frame_RemoveIface :
  forall (implements : nat -> nat -> bool) (known_op : nat -> bool) (r : reg) (i : nat),
    NoDup (r_ifaces r) ->
    let r' := fst (rstep implements known_op r (RemoveIface i)) in
    r_plugins r' = r_plugins r /\ r_contracts r' = r_contracts r /\ r_aliases r' = r_aliases r /\
    r_ifaces r' = remove Nat.eq_dec i (r_ifaces r).
Proof.
  intros implements known_op r i ND. simpl. repeat split; auto. apply remove_first_remove. exact ND.
Qed.

Theorem C19_frame_AddAlias :
  forall (implements : nat -> nat -> bool) (known_op : nat -> bool) (r : reg) (a o : nat),
    let r' := fst (rstep implements known_op r (AddAlias a o)) in
    r_plugins r' = r_plugins r /\ r_contracts r' = r_contracts r /\ r_ifaces r' = r_ifaces r /\
    forall a', a' <> a -> alookup a' (r_aliases r') = alookup a' (r_aliases r).
Proof.
  intros implements known_op r a o. simpl.
  destruct (known_op o && negb (amem a (r_aliases r))); simpl; repeat split; auto.
  intros a' H. apply alookup_aset_neq. exact H.
Qed.

(* dict key order of _plugins: only add_plugin of a missing scope changes it, by appending *)
Theorem C19_plugin_scope_order :
  forall (implements : nat -> nat -> bool) (known_op : nat -> bool) (r : reg) (o : rop),
    map fst (r_plugins (fst (rstep implements known_op r o))) =
    match o with
    | AddPlugin s _ =>
        if amem s (r_plugins r) then map fst (r_plugins r) else map fst (r_plugins r) ++ [s]
    | _ => map fst (r_plugins r)
    end.
Proof. exact plugin_scope_order. Qed.

(* 4. reset_plugins empties the scope, whatever it held (D12a: removing while iterating keeps
   every other element) *)
Theorem C19_reset_clears :
  forall (implements : nat -> nat -> bool) (known_op : nat -> bool) (r : reg) (s : nat),
    plugins_of (fst (rstep implements known_op r (ResetPlugins s))) s = [].
Proof. intros. rewrite plugins_of_step, Nat.eqb_refl. reflexivity. Qed.

(* 5. what a subsequent run_script uses *)
Theorem C19_run_uses_active :
  forall (r : reg) (cplugins : list (nat * list nat)) (ccontracts : list (nat * nat)),
    (forall s l, alookup s cplugins = Some l -> run_plugins_of r cplugins s = l) /\
    (forall s, alookup s cplugins = None -> run_plugins_of r cplugins s = plugins_of r s) /\
    (forall id k, alookup id ccontracts = Some k -> run_contract_of r ccontracts id = Some k) /\
    (forall id, alookup id ccontracts = None ->
                run_contract_of r ccontracts id = alookup id (r_contracts r)).
Proof.
  intros. unfold run_plugins_of, run_contract_of.
  repeat split; intros; rewrite H; reflexivity.
Qed.

Theorem C19_run_uses_active_iff :
  forall (implements : nat -> nat -> bool) (known_op : nat -> bool) (r0 : reg) (ops : list rop),
    reg_inv r0 ->
    let r := run_reg implements known_op r0 ops in
    (forall s, run_plugins_of r [] s = plugins_of r s) /\
    (forall s p, In p (run_plugins_of r [] s) <-> active_plugin r0 (rev ops) s p = true) /\
    (forall id, run_contract_of r [] id = active_contract implements r0 (rev ops) id).
Proof.
  intros implements known_op r0 ops H r.
  destruct (registry_refines_sets implements known_op r0 ops H) as (Hp & Hc & _ & _).
  repeat split; try apply Hp. apply Hc.
Qed.

(* 6. a call that raises changes nothing; and exactly which calls raise *)
Theorem C19_errors_change_nothing :
  forall (implements : nat -> nat -> bool) (known_op : nat -> bool) (r : reg) (o : rop),
    snd (rstep implements known_op r o) = RErr -> fst (rstep implements known_op r o) = r.
Proof. exact errors_change_nothing. Qed.

Theorem C19_rstep_err_iff :
  forall (implements : nat -> nat -> bool) (known_op : nat -> bool) (r : reg) (o : rop),
    snd (rstep implements known_op r o) = RErr <->
    match o with
    | AddContract _ k => forall i, In i (r_ifaces r) -> implements k i = false
    | AddAlias a o' => known_op o' = false \/ alookup a (r_aliases r) <> None
    | _ => False
    end.
Proof. exact rstep_err_iff. Qed.

(* non-vacuity: the hypotheses are met and everything computes *)
Definition ex_implements (k i : nat) : bool := Nat.eqb k i.   (* contract k implements interface k only *)
Definition ex_known (o : nat) : bool := Nat.ltb o 3.
Definition ex_init : reg := reg_init [0; 1] [(10, 0); (11, 1)].

Example C19_ex_init_inv : reg_inv ex_init.
Proof.
  apply reg_init_inv.
  - repeat constructor; simpl; intuition discriminate.
  - repeat constructor; simpl; intuition discriminate.
Qed.

(* add p1,p2,p3 to scope 0; remove p2; add p1 again (no move); plugin for a new scope 7;
   reset scope 0; add p2 *)
Definition ex_plugin_history : list rop :=
  [AddPlugin 0 1; AddPlugin 0 2; AddPlugin 0 3; RemovePlugin 0 2; AddPlugin 0 1; AddPlugin 7 5].

Example C19_ex_before_reset :
  r_plugins (run_reg ex_implements ex_known ex_init ex_plugin_history)
  = [(0, [1; 3]); (1, []); (7, [5])].
Proof. vm_compute. reflexivity. Qed.

Example C19_ex_after_reset :
  r_plugins (run_reg ex_implements ex_known ex_init (ex_plugin_history ++ [ResetPlugins 0; AddPlugin 0 2]))
  = [(0, [2]); (1, []); (7, [5])].
Proof. vm_compute. reflexivity. Qed.

(* D12a: add p1,p2,p3; reset.  Removing while iterating leaves [p2] behind *)
Example C19_ex_reset_three :
  plugins_of (run_reg ex_implements ex_known ex_init
                [AddPlugin 0 1; AddPlugin 0 2; AddPlugin 0 3; ResetPlugins 0]) 0 = [].
Proof. vm_compute. reflexivity. Qed.

(* contracts / interfaces / aliases, with the outcome of every call:
   contract 2 is refused until interface 2 is registered; removing interface 0 does not evict
   contract 0 already registered under id 100 but refuses it under id 102; alias 10 is taken,
   op 9 is unknown, alias 12 -> 2 is accepted once *)
Definition ex_mixed_history : list rop :=
  [AddContract 100 0; AddContract 101 2; AddIface 2; AddContract 101 2; RemoveIface 0;
   AddContract 102 0; AddContract 100 1; RemoveContract 101; RemoveContract 55;
   AddAlias 10 2; AddAlias 12 9; AddAlias 12 2; AddAlias 12 1].

Example C19_ex_mixed :
  run_trace ex_implements ex_known ex_init ex_mixed_history
  = ({| r_plugins := [(0, []); (1, [])];
        r_contracts := [(100, 1)];
        r_ifaces := [1; 2];
        r_aliases := [(10, 0); (11, 1); (12, 2)] |},
     [ROk; RErr; ROk; ROk; ROk; RErr; ROk; ROk; ROk; RErr; RErr; ROk; RErr]).
Proof. vm_compute. reflexivity. Qed.

(* the abstract specification computes the same answers on that history *)
Example C19_ex_mixed_spec :
  map (active_contract ex_implements ex_init (rev ex_mixed_history)) [100; 101; 102]
    = [Some 1; None; None] /\
  map (active_iface ex_init (rev ex_mixed_history)) [0; 1; 2; 3] = [false; true; true; false] /\
  map (active_alias ex_known ex_init (rev ex_mixed_history)) [10; 11; 12; 13]
    = [Some 0; Some 1; Some 2; None] /\
  map (fun s => map (active_plugin ex_init (rev (ex_plugin_history ++ [ResetPlugins 0; AddPlugin 0 2])) s)
                    [1; 2; 3; 5]) [0; 7]
    = [[false; true; false; false]; [false; false; false; true]].
Proof. vm_compute. repeat split. Qed.

(* a run with the caller's dicts: the caller's list replaces the whole scope; other scopes and
   contracts fall through to the registry *)
Example C19_ex_run :
  let r := run_reg ex_implements ex_known ex_init (ex_plugin_history ++ [AddContract 100 0]) in
  run_plugins_of r [(0, [9])] 0 = [9] /\
  run_plugins_of r [(0, [9])] 7 = [5] /\
  run_plugins_of r [] 0 = [1; 3] /\
  run_plugins_of r [] 4 = [] /\
  run_contract_of r [(100, 1)] 100 = Some 1 /\
  run_contract_of r [(101, 1)] 100 = Some 0 /\
  run_contract_of r [] 101 = None.
Proof. vm_compute. repeat split. Qed.

Print Assumptions C19_registry_refines_sets.
Print Assumptions C19_contract_accepted_spec.
Print Assumptions C19_outcome_refines.
Print Assumptions C19_run_trace_fst.
Print Assumptions C19_registry_invariant.
Print Assumptions C19_reg_inv_unfold.
Print Assumptions C19_plugin_order.
Print Assumptions C19_remove_plugin_first.
Print Assumptions C19_frame_AddPlugin.
Print Assumptions C19_frame_RemovePlugin.
Print Assumptions C19_frame_ResetPlugins.
Print Assumptions C19_same_but_plugins_unfold.
Print Assumptions C19_frame_AddContract.
Print Assumptions C19_frame_RemoveContract.
Print Assumptions C19_frame_AddIface.
Print Assumptions C19_frame_RemoveIface.
Print Assumptions C19_frame_AddAlias.
Print Assumptions C19_plugin_scope_order.
Print Assumptions C19_reset_clears.
Print Assumptions C19_run_uses_active.
Print Assumptions C19_run_uses_active_iff.
Print Assumptions C19_errors_change_nothing.
Print Assumptions C19_rstep_err_iff.
Print Assumptions C19_ex_init_inv.
Print Assumptions C19_ex_before_reset.
Print Assumptions C19_ex_after_reset.
Print Assumptions C19_ex_reset_three.
Print Assumptions C19_ex_mixed.
Print Assumptions C19_ex_mixed_spec.
Print Assumptions C19_ex_run.
