(* C12 — The decompiler terminates on every byte string and is faithful.
   [decode] is a total function whose fuel (the input length) provably suffices; it fails (None =
   decompile_script raises ScriptExecutionError) exactly when the input is not the encoding of a
   well-formed program; what it returns
   re-encodes to the input; the listing [print] names exactly those instructions and operands, and
   reading the listing back ([parse_listing] on its whitespace-separated tokens) gives the same program.
   [fl2] is floor(math.log2(.)) as in C10; the listing theorems hold for every [fl2], those through the
   compiler's front end for every [fl2] that is exact on one-byte magnitudes ([fl2_small]). *)
From Coq Require Import ZArith List String.
From Coq.Strings Require Import Byte.
From TS Require Import Bytes Codec Ops Names Asm Tokenizer Assembler BytesLemmas CodecProofs AsmProofs AssemblerProofs TokenizerProofs ListingText.
Import ListNotations.
Open Scope list_scope.
Open Scope Z_scope.

(* termination: decode is a (total) Coq function, run with fuel = length of the input; that fuel is
   enough: any larger fuel gives the same answer *)
Theorem C12_decode_total : forall b, exists r, decode b = r.
Proof. exact decode_total. Qed.

Theorem C12_decode_fuel_enough : forall b fuel,
  (List.length b <= fuel)%nat -> decode_fuel fuel b = decode_fuel (List.length b) b.
Proof. exact decode_fuel_enough. Qed.

Theorem C12_decode_fuel_mono : forall b f1 f2,
  (List.length b <= f1)%nat -> (List.length b <= f2)%nat -> decode_fuel f1 b = decode_fuel f2 b.
Proof. exact decode_fuel_mono. Qed.

(* decode is the tape loop of decompile_script: stop at the end, else one instruction, then the rest *)
Theorem C12_decode_unfold : forall b,
  decode b =
  match b with
  | [] => Some []
  | _ :: _ =>
    match decode1 b with
    | Some (i, rest) => match decode rest with Some p => Some (i :: p) | None => None end
    | None => None
    end
  end.
Proof. exact decode_unfold. Qed.

(* reading forward: one step consumes exactly the instruction's encoding, at least one byte, and
   leaves a proper suffix of its input *)
Theorem C12_decode1_consumes : forall b i rest,
  decode1 b = Some (i, rest) ->
  b = encode1 i ++ rest /\ wf i = true /\ (1 <= List.length (encode1 i))%nat /\
  (List.length rest < List.length b)%nat.
Proof. exact decode1_consumes. Qed.

Theorem C12_encode1_nonempty : forall i, (1 <= List.length (encode1 i))%nat.
Proof. exact encode1_nonempty. Qed.

(* what is decoded is what the bytes hold, in order *)
Theorem C12_decode_sound : forall b p, decode b = Some p -> encode p = b /\ wf_prog p = true.
Proof. exact decode_sound. Qed.

(* ... and decoding fails exactly when the input is not the encoding of a well-formed program *)
Theorem C12_decode_some_iff : forall b,
  (exists p, decode b = Some p) <-> (exists p, wf_prog p = true /\ encode p = b).
Proof. exact decode_some_iff. Qed.

(* the decompiler on an encoded program prints that program *)
Theorem C12_decompile_encode : forall fl2 p,
  wf_prog p = true -> decompile fl2 (encode p) = Some (print fl2 0 p).
Proof. exact decompile_encode. Qed.

Theorem C12_decompile_none_iff : forall fl2 b, decompile fl2 b = None <-> decode b = None.
Proof. exact decompile_none_iff. Qed.

(* the listing reads back to the same program, hence to the same bytes *)
Theorem C12_listing_roundtrip : forall fl2 p ind,
  wf_prog p = true -> parse_listing fl2 (tokens_of (print fl2 ind p)) = Some p.
Proof. exact listing_roundtrip. Qed.

Theorem C12_listing_roundtrip_bytes : forall fl2 p,
  wf_prog p = true ->
  option_map encode (parse_listing fl2 (tokens_of (print fl2 0 p))) = Some (encode p).
Proof. exact listing_roundtrip_bytes. Qed.

(* whatever the decompiler returns is the listing of the program held by the bytes and reads back to it *)
Theorem C12_decompile_sound : forall fl2 b ls,
  decompile fl2 b = Some ls ->
  exists p, ls = print fl2 0 p /\ encode p = b /\ wf_prog p = true /\
            parse_listing fl2 (tokens_of ls) = Some p.
Proof. exact decompile_sound. Qed.

(* ... and through the model of the real compiler front end (model/Tokenizer.v get_symbols = str.split + the pop loop,
   model/Assembler.v assemble; both tied to parsing.py by the ASRC / CTXT correspondence): the TEXT a user gets from
   '\n'.join(decompile_script(b)) compiles back to b.  For every estimate fl2 that is exact on one-byte magnitudes, every
   comptime evaluator ct, every well-formed program without a DEF directly inside a DEF body (the compiler refuses that
   shape: C12_listing_text_needs_no_nested_def; compiler and builder output never has it). *)
Theorem C12_listing_text_compiles : forall fl2 ct, fl2_small fl2 -> forall p,
  wf_prog p = true -> forallb (ldef_ok false) p = true ->
  compile_text fl2 ct (listing_text fl2 p) = Ok (encode p).
Proof. exact listing_text_compiles. Qed.

Theorem C12_listing_text_compiles_bytes : forall fl2 ct, fl2_small fl2 -> forall b p,
  decode b = Some p -> forallb (ldef_ok false) p = true ->
  compile_text fl2 ct (listing_text fl2 p) = Ok b.
Proof. exact listing_text_compiles_bytes. Qed.

Theorem C12_decompile_then_compile_text : forall fl2 ct, fl2_small fl2 -> forall p,
  wf_prog p = true -> forallb (ldef_ok false) p = true ->
  option_map (fun ls => compile_text fl2 ct (join_lines ls)) (decompile fl2 (encode p)) = Some (Ok (encode p)).
Proof. exact decompile_compile_text. Qed.

(* the layout of the listing is irrelevant: any indentation, any non-empty ASCII whitespace between the lines (blank lines,
   CR LF), whitespace before and after *)
Theorem C12_listing_layout_irrelevant : forall fl2 ct, fl2_small fl2 -> forall p ind sep w1 w2,
  wf_prog p = true -> forallb (ldef_ok false) p = true ->
  nonempty sep = true -> sall is_ws sep = true -> all_ascii sep = true ->
  sall is_ws w1 = true -> all_ascii w1 = true -> sall is_ws w2 = true -> all_ascii w2 = true ->
  compile_text fl2 ct (w1 ++ join_with sep (print fl2 ind p) ++ w2)%string = Ok (encode p).
Proof. exact listing_layout_compiles. Qed.

(* Python's str.split on the listing text gives exactly the listing's tokens; the text is ASCII *)
Theorem C12_listing_text_tokens : forall fl2 p, split_py (listing_text fl2 p) = tokens_of (print fl2 0 p).
Proof. exact listing_text_tokens. Qed.

(* observation (proved, and the same on the real tokenizer): the pop loop does NOT leave every listing token as printed —
   a negative d-operand "d-1" becomes "D-1", which the assembler accepts all the same *)
Example C12_listing_token_d_minus_becomes_upper :
  let p := [IOp1 O_PUSH0 xff] in
  tokens_of (print fl2_exact 0 p) = ["OP_PUSH0"; "d-1"]%string /\
  get_symbols (listing_text fl2_exact p) = Ok ["OP_PUSH0"; "D-1"]%string /\
  ~ posts (tokens_of (print fl2_exact 0 p)) (tokens_of (print fl2_exact 0 p)).
Proof. exact listing_tokens_not_stable. Qed.

(* the no-nested-DEF premise is necessary at text level too (the real compiler: "cannot use OP_DEF within OP_DEF body") *)
Example C12_listing_text_needs_no_nested_def :
  let p := [IDef x00 [IDef x01 [IOp0 O_TRUE]]] in
  wf_prog p = true /\ decode (encode p) = Some p /\
  compile_text fl2_exact ct0 (listing_text fl2_exact p) = Err.
Proof. exact listing_text_needs_ldef_ok. Qed.

(* the d-or-x test on OP_DIV_INT / OP_MOD_INT operands cannot raise when math.log2 is as assumed in C10 *)
Theorem C12_int_tok_total : forall fl2, fl2_ok fl2 -> forall v, v <> [] ->
  exists z v', bytes_to_int v = Some z /\ int_to_bytes fl2 z = Some v'.
Proof. exact int_tok_total. Qed.

(* the signed-byte column of the listing is bytes_to_int of that byte *)
Theorem C12_s8_spec : forall b, bytes_to_int [b] = Some (s8 b).
Proof. exact s8_spec. Qed.

Open Scope string_scope.

Example C12_truncated_push2 : decompile fl2_exact [x04; xff; xfd] = None.
Proof. vm_compute. reflexivity. Qed.

Example C12_nop_signed : decompile fl2_exact [xc8; xc8] = Some ["NOP200 d-56"].
Proof. vm_compute. reflexivity. Qed.

Example C12_if_listing :
  decompile fl2_exact [x2b; x00; x01; x01; x00] = Some ["OP_IF {"; "    OP_TRUE"; "}"; "OP_FALSE"].
Proof. vm_compute. reflexivity. Qed.

Definition C12_sample : list instr :=
  [ IDef x05 [ IIf [ IOp0 O_TRUE; IVar1 O_PUSH1 [x01; x02] ];
               ITry [ IOp1 O_CALL x07 ] [] ];
    IIfElse [ INop 200 xc8 ] [ IWriteCache [x61] x02; IPush2 [] ];
    ITry [ IVar1 O_DIV_INT [xff; x7f] ] [ IVar1 O_MOD_INT [x00; x01]; IVar1 O_DIV_INT [] ];
    ILoop [ ISwap x01 xff; IMultisig O_CHECK_MULTISIG x00 x02 x03 ];
    IFix O_DIV_FLOAT [x3f; x80; x00; x00];
    IOp1 O_CHECK_SIG xf0 ].

Example C12_sample_listing :
  print fl2_exact 0 C12_sample =
  [ "OP_DEF 5 {";
    "    OP_IF {";
    "        OP_TRUE";
    "        OP_PUSH1 d2 x0102";
    "    }";
    "    OP_TRY {";
    "        OP_CALL d7";
    "    }";
    "}";
    "OP_IF {";
    "    NOP200 d-56";
    "} ELSE {";
    "    OP_WRITE_CACHE x61 d2";
    "    OP_PUSH2 d0 x";
    "}";
    "OP_TRY {";
    "    OP_DIV_INT d-129";
    "} EXCEPT {";
    "    OP_MOD_INT x0001";
    "    OP_DIV_INT x";
    "}";
    "OP_LOOP {";
    "    OP_SWAP d1 d255";
    "    OP_CHECK_MULTISIG x00 d2 d3";
    "}";
    "OP_DIV_FLOAT x3f800000";
    "OP_CHECK_SIG xf0" ].
Proof. vm_compute. reflexivity. Qed.

Example C12_sample_decompile :
  wf_prog C12_sample = true /\
  decompile fl2_exact (encode C12_sample) = Some (print fl2_exact 0 C12_sample) /\
  parse_listing fl2_exact (tokens_of (print fl2_exact 0 C12_sample)) = Some C12_sample.
Proof. vm_compute. repeat split; reflexivity. Qed.

(* the d form is used only when int_to_bytes gives the operand back: with Python's floats,
   floor(log2(2^63-1)) = 63, int_to_bytes(2^63-1) is 9 bytes long, and the 8-byte operand is listed in hex *)
Example C12_div_int_float_log2 :
  let v := [x7f; xff; xff; xff; xff; xff; xff; xff] in
  let fl2_py := fun a : Z => if (a =? 2 ^ 63 - 1)%Z then 63%Z else fl2_exact a in
  print fl2_exact 0 [IVar1 O_DIV_INT v] = ["OP_DIV_INT d9223372036854775807"] /\
  print fl2_py 0 [IVar1 O_DIV_INT v] = ["OP_DIV_INT x7fffffffffffffff"] /\
  parse_listing fl2_py (tokens_of (print fl2_py 0 [IVar1 O_DIV_INT v])) = Some [IVar1 O_DIV_INT v] /\
  print fl2_py 0 [IVar1 O_DIV_INT (x00 :: v)] = ["OP_DIV_INT d9223372036854775807"] /\
  parse_listing fl2_py ["OP_DIV_INT"; "d9223372036854775807"] = Some [IVar1 O_DIV_INT (x00 :: v)].
Proof. vm_compute. repeat split; reflexivity. Qed.

Print Assumptions C12_decode_total.
Print Assumptions C12_decode_fuel_enough.
Print Assumptions C12_decode_fuel_mono.
Print Assumptions C12_decode_unfold.
Print Assumptions C12_decode1_consumes.
Print Assumptions C12_encode1_nonempty.
Print Assumptions C12_decode_sound.
Print Assumptions C12_decode_some_iff.
Print Assumptions C12_decompile_encode.
Print Assumptions C12_decompile_none_iff.
Print Assumptions C12_listing_roundtrip.
Print Assumptions C12_listing_roundtrip_bytes.
Print Assumptions C12_decompile_sound.
Print Assumptions C12_int_tok_total.
Print Assumptions C12_s8_spec.
Print Assumptions C12_listing_text_compiles.
Print Assumptions C12_listing_text_compiles_bytes.
Print Assumptions C12_decompile_then_compile_text.
Print Assumptions C12_listing_layout_irrelevant.
Print Assumptions C12_listing_text_tokens.
Print Assumptions C12_listing_token_d_minus_becomes_upper.
Print Assumptions C12_listing_text_needs_no_nested_def.
