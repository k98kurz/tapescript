(* C05 — Taproot: script path and key path of OP_TAPROOT are exact.
   Script path (second item 32 bytes): the supplied script is EVALuated iff base_mult(clamp(sha256(key ||
   sha256(script)))) + key equals the root; otherwise x00 is pushed and cache, heap and log are untouched (no
   sub-tape: no instruction of the supplied script runs). Key path: exactly C02's signature check with the
   root as public key, after the signature extensions ran once. Hashes and curve operations are oracles. *)
From Coq Require Import ZArith List Bool.
From Coq.Strings Require Import Byte.
From Coq.Strings Require Import String.
From TS Require Import Bytes State Prog Ops Interp NopSpec StackLemmas ConfigSpec TaprootSpec TapeLemmas AuthSpec
  Builders BuilderSpec TaprootNonNative.
From TS Require BuilderSourcesProofs.
From TS Require TaprootFootprints TaprootFootprintsExact.
Import ListNotations.
Local Open Scope nat_scope.

Theorem C05_script_path_exact :
  forall orc cfg run fr st a tail root pubkey script rest hs h point agg,
  data_at fr st = a :: tail ->
  st_stack st = root :: pubkey :: script :: rest ->
  List.length root = 32 -> List.length pubkey = 32 -> List.length h = 32 ->
  orc PSha256 [script] = OOk [hs] -> orc PSha256 [pubkey ++ hs] = OOk [h] ->
  orc PBaseMult [clamp32 h] = OOk [point] ->
  orc PValidPoint [point] = OOk [[x01]] -> orc PValidPoint [pubkey] = OOk [[x01]] ->
  orc PPointAdd [point; pubkey] = OOk [agg] ->
  fits cfg script -> List.length rest + 1 <= c_max_items cfg -> 1 <= c_max_item_size cfg ->
  interp orc cfg run OP_TAPROOT fr st =
    if bytes_eqb agg root
    then interp orc cfg run eval_body (adv fr 1) (with_stack st (script :: rest))
    else Done tt (adv fr 1) (with_stack st ([x00] :: rest)).
Proof. exact taproot_script_path. Qed.

Theorem C05_key_path_exact :
  forall orc cfg run fr st a tail root item rest,
  data_at fr st = a :: tail ->
  st_stack st = root :: item :: rest ->
  List.length root = 32 -> List.length item <> 32 ->
  List.length rest + 2 <= c_max_items cfg -> 32 <= c_max_item_size cfg ->
  interp orc cfg run OP_TAPROOT fr st =
    interp orc cfg run (check_sig_body (b2z a)) (adv fr 1)
           (sigext_log cfg (with_stack st (root :: item :: rest))).
Proof. exact taproot_key_path. Qed.

(* the native lock against make_nonnative_taproot_lock (proofs/TaprootNonNative.v).
   Builders.nonnative_taproot_lock is the byte string of the real builder (BLD correspondence on every run).
   [vres] is the verdict with the final state dropped (the heaps of the two runs differ by construction). *)

(* key path: for EVERY witness script that ends with one item (a 64/65-byte signature) the two locks give the same
   verdict, True exactly when the signature is accepted under the root *)
Theorem C05_nonnative_key_path_same_verdict :
  forall orc cfg f w vals fr st1 root fl sig,
  run_script orc cfg (9 + f) w vals = Done tt fr st1 ->
  st_stack st1 = [sig] -> List.length root = 32 -> (List.length sig = 64 \/ List.length sig = 65) ->
  (to_count (nth_tape st1 0) <? c_limit cfg)%Z = true ->
  65 <= c_max_item_size cfg -> 3 <= c_max_items cfg ->
  vres_of_auth (run_auth_scripts orc cfg (9 + f) [w; nonnative_taproot_lock root fl] vals) =
    vres_of_auth (run_auth_scripts orc cfg (9 + f) [w; taproot_lock root fl] vals) /\
  (vres_of_auth (run_auth_scripts orc cfg (9 + f) [w; nonnative_taproot_lock root fl] vals) = VBool true <->
   sig_accepts orc cfg root sig (b2z fl) (st_cache st1)).
Proof.
  intros orc cfg f w vals fr st1 root fl sig Hw Hs Lr Lsig Hlim Hsz Hit.
  pose proof (witness_defs_ok orc cfg _ w vals fr st1 Hw) as Hdid.
  unfold run_auth_scripts. rewrite Hw.
  change (9 + f) with (3 + (6 + f)) at 2.
  destruct (key_path_same_verdict orc cfg f (6 + f) 0 st1 root fl sig Hs Lr Lsig Hdid Hlim Hsz Hit) as (H1 & H2 & _).
  split; [exact H1|exact H2].
Qed.

(* script path: both locks refuse a pair that does not recompute to the root, and otherwise run exactly `script` as a
   sub-tape from the same stack `rest` ... *)
Theorem C05_nonnative_script_path_both_exact :
  forall orc cfg f w vals fr st1 root fl key script rest hs h point agg,
  run_script orc cfg (20 + f) w vals = Done tt fr st1 ->
  st_stack st1 = key :: script :: rest ->
  List.length root = 32 -> List.length key = 32 -> List.length h = 32 ->
  orc PSha256 [script] = OOk [hs] -> orc PSha256 [key ++ hs] = OOk [h] ->
  orc PBaseMult [clamp32 h] = OOk [point] ->
  orc PValidPoint [point] = OOk [[x01]] -> orc PValidPoint [key] = OOk [[x01]] ->
  orc PPointAdd [point; key] = OOk [agg] ->
  fits cfg script -> fits cfg hs -> fits cfg (key ++ hs) -> fits cfg point -> fits cfg agg ->
  List.length rest + 4 <= c_max_items cfg -> 32 <= c_max_item_size cfg ->
  script <> [] ->
  flag_get (c_flags cfg) (FKStr (str "disallow_OP_EVAL")) = None ->
  (to_count (nth_tape st1 0) + 1 <? c_limit cfg)%Z = true ->
  let tid := List.length (st_tapes st1) in
  let sN := nn_eval_state cfg (snd (next_start st1 0 (nonnative_taproot_lock root fl))) tid root key script rest point in
  let sT := native_eval_state (snd (next_start st1 0 (taproot_lock root fl))) tid script rest in
  vres_of_auth (run_auth_scripts orc cfg (20 + f) [w; nonnative_taproot_lock root fl] vals) =
    (if bytes_eqb agg root then vres_of_run (run_tape orc cfg (S f) (tid + 3) 0 sN) else VBool false) /\
  vres_of_auth (run_auth_scripts orc cfg (20 + f) [w; taproot_lock root fl] vals) =
    (if bytes_eqb agg root then vres_of_run (run_tape orc cfg (S (17 + f)) (tid + 1) 0 sT) else VBool false).
Proof. exact script_path_pair. Qed.

(* ... but NOT in the same environment: the non-native sub-tape starts one call level deeper and sees the lock's own
   definition 0.  So the equivalence claimed by the property is false of the model — and of the code (known findings
   D18, D19, replayed on the implementation by the C05 check): *)
Example C05_nonnative_equivalence_refuted_definition_0 :
  let script := [x2a; x00; x06; x01] in      (* call d0 ; pop0 ; true *)
  vres_of_auth (run_auth_scripts toy_orc (toy_cfg 64) 40 [toy_witness script; nonnative_taproot_lock toy_root x00] []) = VBool true /\
  vres_of_auth (run_auth_scripts toy_orc (toy_cfg 64) 40 [toy_witness script; taproot_lock toy_root x00] []) = VBool false.
Proof. exact differ_on_call_d0. Qed.

Example C05_nonnative_equivalence_refuted_call_budget :
  let script := [x01; x06; x01] in            (* true ; pop0 ; true   under callstack_limit 1 *)
  vres_of_auth (run_auth_scripts toy_orc (toy_cfg 1) 40 [toy_witness script; nonnative_taproot_lock toy_root x00] []) = VBool false /\
  vres_of_auth (run_auth_scripts toy_orc (toy_cfg 1) 40 [toy_witness script; taproot_lock toy_root x00] []) = VBool true.
Proof. exact differ_on_call_budget. Qed.

(* In what the two start states differ, exactly (proofs/TaprootFootprintsExact.v; sN / sT as in C05_nonnative_script_path_both_exact): the
   same code, stack, log and random counter; the same cache except that, with flag 2 on, key X holds the tweak point under the
   non-native lock; a call count one higher; and a definitions table that is the witness's own plus handle 0 -> the tape holding
   `push root`.  Nothing else: so every divergence of the two verdicts goes through one of the three footprints shown observable by
   the computed examples (definition 0: D18, call level: D19, cache key X: D23). *)
Definition C05_nonnative_start_states_differ_exactly_in := @TaprootFootprintsExact.footprints_exact.
Definition C05_nonnative_start_states_after_any_witness := @TaprootFootprintsExact.footprints_exact_witness.
Check C05_nonnative_start_states_differ_exactly_in.
Print Assumptions C05_nonnative_start_states_differ_exactly_in.
Print Assumptions C05_nonnative_start_states_after_any_witness.

(* third footprint (finding D23, proofs/TaprootFootprints.v): with flag 2 at its default the non-native lock's OP_DERIVE_POINT
   leaves the tweak point in the cache under the bytes key X, which the committed script can read *)
Example C05_nonnative_equivalence_refuted_cache_X :
  let script := [x0a; x01; x58; x06; x01] in      (* read_cache x58 ; pop0 ; true *)
  vres_of_auth (run_auth_scripts toy_orc (TaprootFootprints.toy_cfg_flag2 64) 40 [toy_witness script; nonnative_taproot_lock toy_root x00] []) = VBool true /\
  vres_of_auth (run_auth_scripts toy_orc (TaprootFootprints.toy_cfg_flag2 64) 40 [toy_witness script; taproot_lock toy_root x00] []) = VBool false.
Proof. exact TaprootFootprints.differ_on_cache_X. Qed.

Print Assumptions C05_nonnative_equivalence_refuted_cache_X.
Print Assumptions C05_nonnative_key_path_same_verdict.
Print Assumptions C05_nonnative_script_path_both_exact.
Print Assumptions C05_nonnative_equivalence_refuted_definition_0.
Print Assumptions C05_nonnative_equivalence_refuted_call_budget.
(* the taproot builders as source: model/BuilderSources.v mirrors the f-string templates of tools.py token for token
   (Examples in proofs/BuilderSourcesProofs.v against the real .src / .bytes); there the template text compiles, for all
   arguments, to the bytes of model/Builders.v that the theorems above are about; closed statements printed by Check *)
Definition C05_src_taproot_lock_compiles := @BuilderSourcesProofs.taproot_lock_compiles.
Definition C05_src_nonnative_taproot_lock_compiles := @BuilderSourcesProofs.nonnative_taproot_lock_compiles.
Definition C05_src_taproot_witness_scriptspend_compiles := @BuilderSourcesProofs.taproot_witness_scriptspend_compiles.
Check C05_src_taproot_lock_compiles.
Check C05_src_nonnative_taproot_lock_compiles.
Check C05_src_taproot_witness_scriptspend_compiles.
Print Assumptions C05_src_taproot_lock_compiles.
Print Assumptions C05_src_nonnative_taproot_lock_compiles.
Print Assumptions C05_src_taproot_witness_scriptspend_compiles.

Print Assumptions C05_script_path_exact.
Print Assumptions C05_key_path_exact.
