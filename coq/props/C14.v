(* C14 — Delegate-key lock (tools.make_delegate_key_lock) and Certificate.pack / unpack.

   The lock is the 85 real bytes the builder emits (Builders.delegate_key_lock root fl = the documented encoding
   of its 27 instructions); the witness pushes the delegate's signature and then the 105-byte certificate
   cert = D(32) ++ begin(4) ++ end(4) ++ can(1) ++ csig(64).  For every oracle, configuration with room for
   4 items of 105 bytes and an integer "ts_threshold", every initial cache whose "timestamp" is the integer ts,
   and every fuel >= 28, run_auth_scripts [witness; lock] answers True exactly when

     1. begin <= ts, within the slack rule of OP_CHECK_TIMESTAMP      (ts_verdict (be begin) ts thr = true)
     2. NOT (end <= ts within the slack rule)                         (ts_verdict (be end) ts thr = false);
        given 1 this is exactly ts < end  (C14_end_test_meaning; without 1 the NOT also negates the slack
        clause: finding D11)
     3. the oracle's verify answers exactly one truthy item for (root, D ++ begin ++ end ++ can, csig)
     4. the delegate's signature is accepted under D for the flag-selected signature fields (C13's sig_accepts:
        permitted flag, message fits, oracle answers exactly one truthy item).

   Outcomes other than a verdict: never out of fuel; outside the model only when 1-3 hold and the oracle answers
   the final verification with a number of items other than one.  begin / end are read unsigned big-endian.
   No assumption on the rest of vals (a "returned" entry is removed by run_auth_scripts; bytes keys s, P, e, b, d
   are overwritten by the lock), on the other flags, plugins or contracts.

   Certificate: cert_pack / cert_unpack transcribe Certificate.preimage + pack / unpack (None = the method
   raises).  unpack (pack c) = c for 32-byte keys, 64-byte signatures and 0 <= begin, end < 2^31, when
   floor(log2) used by int_to_bytes is exact below 2^31 (true of Z.log2 = fl2_exact, and of the model's own
   i2b which is exact below 2^32); fl2_ok alone does not suffice (C14_fl2_ok_not_enough).
   C14_delegate_lock_packed composes both parts. *)
From Coq Require Import ZArith List Bool Lia.
From Coq.Strings Require Import Byte String.
From TS Require Import Bytes Codec State Prog Ops Interp NopSpec StackLemmas SigSpec TimeSpec CodecProofs
  Builders BuilderSpec BuilderSpecC14 BuilderSpecC14b.
From TS Require BuilderSourcesProofs.
Import ListNotations.
Local Open Scope nat_scope.

Theorem C14_delegate_lock_exact :
  forall (orc : oracle) (cfg : config),
  105 <= c_max_item_size cfg -> 4 <= c_max_items cfg ->
  forall (fuel : nat) (root D b e csig sig : bytes) (can fl : byte) (ts thr : Z) (vals : cache),
  28 <= fuel ->
  List.length root = 32 -> List.length D = 32 -> List.length b = 4 -> List.length e = 4 ->
  List.length csig = 64 -> (List.length sig = 64 \/ List.length sig = 65) ->
  flag_get (c_flags cfg) (FKStr (str "ts_threshold")) = Some (FVInt thr) ->
  cache_get (init_cache cfg vals) (KStr (str "timestamp")) = Some (VOne (AInt ts)) ->
  match run_auth_scripts orc cfg fuel
          [delegate_key_witness sig (D ++ b ++ e ++ [can] ++ csig); delegate_key_lock root fl] vals with
  | AuthVerdict v _ =>
      v = true <->
        ts_verdict cfg (be_to_Z b) ts thr = true /\
        ts_verdict cfg (be_to_Z e) ts thr = false /\
        (exists x, orc PVerify [root; D ++ b ++ e ++ [can]; csig] = OOk [x] /\ bytes_to_bool x = true) /\
        sig_accepts orc cfg D sig (b2z fl) (init_cache cfg vals)
  | AuthFuel => False
  | AuthUnmod _ =>
      ts_verdict cfg (be_to_Z b) ts thr = true /\
      ts_verdict cfg (be_to_Z e) ts thr = false /\
      (exists x, orc PVerify [root; D ++ b ++ e ++ [can]; csig] = OOk [x] /\ bytes_to_bool x = true) /\
      exists m l, msg_of (sig_flag sig) (init_cache cfg vals) = Some m /\
                  orc PVerify [D; m; firstn 64 sig] = OOk l /\ List.length l <> 1
  end.
Proof.
  intros orc cfg Hsize Hitems fuel root D b e csig sig can fl ts thr vals Hf LR LD Lb Le Lc Ls Hthr Hts.
  replace fuel with (28 + (fuel - 28)) by lia.
  exact (delegate_lock_exact orc cfg Hsize Hitems root D b e csig sig can fl ts thr LR LD Lb Le Lc Ls Hthr _ vals Hts).
Qed.

Theorem C14_delegate_lock_true_iff :
  forall (orc : oracle) (cfg : config),
  105 <= c_max_item_size cfg -> 4 <= c_max_items cfg ->
  forall (fuel : nat) (root D b e csig sig : bytes) (can fl : byte) (ts thr : Z) (vals : cache),
  28 <= fuel ->
  List.length root = 32 -> List.length D = 32 -> List.length b = 4 -> List.length e = 4 ->
  List.length csig = 64 -> (List.length sig = 64 \/ List.length sig = 65) ->
  flag_get (c_flags cfg) (FKStr (str "ts_threshold")) = Some (FVInt thr) ->
  cache_get (init_cache cfg vals) (KStr (str "timestamp")) = Some (VOne (AInt ts)) ->
  ((exists stf, run_auth_scripts orc cfg fuel
       [delegate_key_witness sig (D ++ b ++ e ++ [can] ++ csig); delegate_key_lock root fl] vals
       = AuthVerdict true stf)
   <->
   ts_verdict cfg (be_to_Z b) ts thr = true /\
   ts_verdict cfg (be_to_Z e) ts thr = false /\
   (exists x, orc PVerify [root; D ++ b ++ e ++ [can]; csig] = OOk [x] /\ bytes_to_bool x = true) /\
   (flags_permitted (sig_flag sig) (b2z fl) = true /\
    exists m x, msg_of (sig_flag sig) (init_cache cfg vals) = Some m /\
                List.length m <= c_max_item_size cfg /\
                orc PVerify [D; m; firstn 64 sig] = OOk [x] /\ bytes_to_bool x = true)).
Proof. exact delegate_lock_true_iff_fuel. Qed.

(* the second condition, read with the first *)
Theorem C14_end_test_meaning :
  forall cfg cb ce ts thr,
  ts_verdict cfg cb ts thr = true -> (ts_verdict cfg ce ts thr = false <-> (ts < ce)%Z).
Proof. exact end_test_meaning. Qed.

Theorem C14_lock_bytes :
  forall root fl,
  delegate_key_lock root fl =
    [x02;x29; x38; x09;x01;x73;x01; x1d; x02;x28; x38; x06; x02;x24; x38; x09;x01;x65;x01;
     x02;x20; x38; x09;x01;x62;x01; x09;x01;x64;x01; x0a;x01;x62; x26; x0a;x01;x65; x25; x2e; x20;
     x0a;x01;x73; x35; x03] ++ z2b (blen root) :: root ++ [x4a; x20; x0a;x01;x64; x23;fl].
Proof. reflexivity. Qed.

(* instruction level: the steps the verdict is assembled from *)

Theorem C14_split_exact :
  forall orc cfg run fr st i a r s,
  st_stack st = [i] :: (a ++ r) :: s ->
  (b2z i < 128)%Z -> Z.to_nat (b2z i) = List.length a -> r <> [] ->
  fits cfg a -> fits cfg r -> S (List.length s) < c_max_items cfg ->
  interp orc cfg run OP_SPLIT fr st = Done tt fr (with_stack st (r :: a :: s)).
Proof. exact split_exec. Qed.

Theorem C14_write_cache_exact :
  forall orc cfg run fr st k rest x s,
  data_at fr st = x01 :: k :: x01 :: rest -> st_stack st = x :: s ->
  interp orc cfg run OP_WRITE_CACHE fr st =
    Done tt {| fr_tid := fr_tid fr; fr_ptr := fr_ptr fr + 3 |}
         (with_cache (with_stack st s) (cache_set (st_cache st) (KBytes [k]) (VMany [ABytes x]))).
Proof. exact write_cache1_exec. Qed.

Theorem C14_read_cache_exact :
  forall orc cfg run fr st k rest v s,
  data_at fr st = x01 :: k :: rest ->
  cache_get (st_cache st) (KBytes [k]) = Some (VMany [ABytes v]) ->
  st_stack st = s -> fits cfg v -> space cfg s ->
  interp orc cfg run OP_READ_CACHE fr st =
    Done tt {| fr_tid := fr_tid fr; fr_ptr := fr_ptr fr + 2 |} (with_stack st (v :: s)).
Proof. exact read_cache1_exec. Qed.

Theorem C14_check_sig_stack_exact :
  forall orc cfg run fr st vkey msg sig s,
  st_stack st = vkey :: msg :: sig :: s -> List.length vkey = 32 -> List.length sig = 64 -> room cfg s ->
  interp orc cfg run OP_CHECK_SIG_STACK fr st =
    Done tt fr (with_stack st
      (boolb (match orc PVerify [vkey; msg; sig] with OOk [x] => bytes_to_bool x | _ => false end) :: s)).
Proof. exact check_sig_stack_exec. Qed.

Theorem C14_cert_roundtrip :
  forall (fl2 : Z -> Z) (D : bytes) (b e : Z) (can : bool) (csig : bytes),
  (forall a, (0 < a < 2 ^ 31)%Z -> fl2 a = Z.log2 a) ->
  List.length D = 32 -> List.length csig = 64 -> (0 <= b < 2 ^ 31)%Z -> (0 <= e < 2 ^ 31)%Z ->
  exists p, cert_pack fl2 D b e can csig = Some p /\ List.length p = 105 /\
            cert_unpack p = Some (D, b, e, can, csig).
Proof. exact cert_roundtrip. Qed.

Theorem C14_cert_roundtrip_exact_log2 :
  forall (D : bytes) (b e : Z) (can : bool) (csig : bytes),
  List.length D = 32 -> List.length csig = 64 -> (0 <= b < 2 ^ 31)%Z -> (0 <= e < 2 ^ 31)%Z ->
  exists p, cert_pack fl2_exact D b e can csig = Some p /\ List.length p = 105 /\
            cert_unpack p = Some (D, b, e, can, csig).
Proof. intros D b e can csig. apply cert_roundtrip. exact fl2_exact_is_exact_below31. Qed.

(* the serialisation has the five fields at the offsets the lock splits at, timestamps big-endian *)
Theorem C14_cert_pack_shape :
  forall (fl2 : Z -> Z) (D : bytes) (b e : Z) (can : bool) (csig : bytes),
  (forall a, (0 < a < 2 ^ 31)%Z -> fl2 a = Z.log2 a) ->
  List.length D = 32 -> List.length csig = 64 -> (0 <= b < 2 ^ 31)%Z -> (0 <= e < 2 ^ 31)%Z ->
  exists bb eb,
    cert_pack fl2 D b e can csig = Some (D ++ bb ++ eb ++ [if can then xff else x00] ++ csig) /\
    List.length bb = 4 /\ List.length eb = 4 /\
    be_to_Z bb = b /\ be_to_Z eb = e /\ bytes_to_int bb = Some b /\ bytes_to_int eb = Some e.
Proof. exact cert_pack_shape. Qed.

(* left-padding with zero bytes keeps the value *)
Theorem C14_zero_pad_value : forall n l, be_to_Z (repeat x00 n ++ l) = be_to_Z l.
Proof. exact be_to_Z_zero_pad. Qed.

Theorem C14_fl2_ok_not_enough :
  exists fl2, fl2_ok fl2 /\
    exists p, cert_pack fl2 (repeat x00 32) (2 ^ 30) 0 true (repeat x00 64) = Some p /\ cert_unpack p = None.
Proof. exact fl2_ok_not_enough. Qed.

Theorem C14_delegate_lock_packed :
  forall (orc : oracle) (cfg : config),
  105 <= c_max_item_size cfg -> 4 <= c_max_items cfg ->
  forall (fl2 : Z -> Z) (fuel : nat)
         (root D : bytes) (bts ets : Z) (can : bool) (csig sig : bytes) (fl : byte) (ts thr : Z) (vals : cache),
  (forall a, (0 < a < 2 ^ 31)%Z -> fl2 a = Z.log2 a) -> 28 <= fuel ->
  List.length root = 32 -> List.length D = 32 -> List.length csig = 64 ->
  (0 <= bts < 2 ^ 31)%Z -> (0 <= ets < 2 ^ 31)%Z ->
  (List.length sig = 64 \/ List.length sig = 65) ->
  flag_get (c_flags cfg) (FKStr (str "ts_threshold")) = Some (FVInt thr) ->
  cache_get (init_cache cfg vals) (KStr (str "timestamp")) = Some (VOne (AInt ts)) ->
  exists pre cert,
    cert_preimage fl2 D bts ets can = Some pre /\ cert_pack fl2 D bts ets can csig = Some cert /\
    ((exists stf, run_auth_scripts orc cfg fuel [delegate_key_witness sig cert; delegate_key_lock root fl] vals
                  = AuthVerdict true stf)
     <-> ts_verdict cfg bts ts thr = true /\ (ts < ets)%Z /\
         (exists x, orc PVerify [root; pre; csig] = OOk [x] /\ bytes_to_bool x = true) /\
         sig_accepts orc cfg D sig (b2z fl) (init_cache cfg vals)).
Proof. exact delegate_lock_packed. Qed.

(* the premises are satisfiable; the model run gives the predicted verdict *)

Definition toy_orc : oracle := fun p _ => match p with PVerify => OOk [[x01]] | _ => OErr OtherError end.
Definition toy_cfg (now : Z) : config :=
  {| c_max_items := 1024; c_max_item_size := 1024; c_limit := 64;
     c_flags := [(FKStr (str "ts_threshold"), FVInt 60)];
     c_sigext := []; c_ctplugins := []; c_contracts := []; c_now := now |}.
Definition toy_root : bytes := repeat x44 32.
Definition toy_D : bytes := repeat x11 32.
Definition toy_begin : bytes := [x00; x00; x03; x84].     (* 900 *)
Definition toy_end : bytes := [x00; x00; x04; x4c].       (* 1100 *)
Definition toy_csig : bytes := repeat x22 64.
Definition toy_sig : bytes := repeat x33 64.
Definition toy_scripts : list bytes :=
  [delegate_key_witness toy_sig (toy_D ++ toy_begin ++ toy_end ++ [xff] ++ toy_csig); delegate_key_lock toy_root x00].

Definition verdict_of (r : auth_result) : option bool :=
  match r with AuthVerdict v _ => Some v | _ => None end.

(* now = 1000 (the default "timestamp"): 900 <= 1000 < 1100 *)
Example C14_example_inside :
  verdict_of (run_auth_scripts toy_orc (toy_cfg 1000) 28 toy_scripts []) = Some true.
Proof. vm_compute. reflexivity. Qed.

(* the right-hand side of C14_delegate_lock_true_iff holds for these values (so the theorem predicts True) *)
Example C14_example_predicted :
  ts_verdict (toy_cfg 1000) (be_to_Z toy_begin) 1000 60 = true /\
  ts_verdict (toy_cfg 1000) (be_to_Z toy_end) 1000 60 = false /\
  (exists x, toy_orc PVerify [toy_root; toy_D ++ toy_begin ++ toy_end ++ [xff]; toy_csig] = OOk [x] /\
             bytes_to_bool x = true) /\
  sig_accepts toy_orc (toy_cfg 1000) toy_D toy_sig (b2z x00) (init_cache (toy_cfg 1000) []).
Proof.
  split; [vm_compute; reflexivity|]. split; [vm_compute; reflexivity|].
  split; [exists [x01]; split; reflexivity|].
  split; [vm_compute; reflexivity|].
  exists [], [x01]. split; [vm_compute; reflexivity|]. split; [vm_compute; apply Nat.le_0_l|].
  split; reflexivity.
Qed.

(* and the other premises of the theorem *)
Example C14_example_premises :
  105 <= c_max_item_size (toy_cfg 1000) /\ 4 <= c_max_items (toy_cfg 1000) /\
  List.length toy_root = 32 /\ List.length toy_D = 32 /\ List.length toy_begin = 4 /\ List.length toy_end = 4 /\
  List.length toy_csig = 64 /\ List.length toy_sig = 64 /\
  flag_get (c_flags (toy_cfg 1000)) (FKStr (str "ts_threshold")) = Some (FVInt 60) /\
  cache_get (init_cache (toy_cfg 1000) []) (KStr (str "timestamp")) = Some (VOne (AInt 1000)).
Proof. repeat split; try reflexivity; apply Nat.leb_le; reflexivity. Qed.

(* at the end of the window (t = 1100) and before its beginning (t = 899): False *)
Example C14_example_at_end :
  verdict_of (run_auth_scripts toy_orc (toy_cfg 1100) 28 toy_scripts []) = Some false.
Proof. vm_compute. reflexivity. Qed.
Example C14_example_before_begin :
  verdict_of (run_auth_scripts toy_orc (toy_cfg 899) 28 toy_scripts []) = Some false.
Proof. vm_compute. reflexivity. Qed.
(* last second of the window *)
Example C14_example_last_second :
  verdict_of (run_auth_scripts toy_orc (toy_cfg 1099) 28 toy_scripts []) = Some true.
Proof. vm_compute. reflexivity. Qed.

(* a certificate packed by the transcription of Certificate.pack is the byte string used above *)
Example C14_example_pack :
  cert_pack fl2_exact toy_D 900 1100 true toy_csig = Some (toy_D ++ toy_begin ++ toy_end ++ [xff] ++ toy_csig) /\
  cert_unpack (toy_D ++ toy_begin ++ toy_end ++ [xff] ++ toy_csig) = Some (toy_D, 900%Z, 1100%Z, true, toy_csig).
Proof. split; vm_compute; reflexivity. Qed.

(* the chain lock (proofs/BuilderSpecC14b.v), on the real bytes, for chains of ANY length:
   init = the non-final certificates in the order the lock consumes them (the first is signed by the root), cn = the
   last one; pack = Certificate.pack.  chain_accepts unfolds (chain_pred) to: every certificate verifies under the
   previous key (the first under root) and is inside its window at t; every non-final certificate's may-delegate byte
   is non-zero; the final signature is accepted under the last delegate key. *)
Theorem C14_chain_lock_exact :
  forall orc cfg, 105 <= c_max_item_size cfg ->
  forall fl ts thr, flag_get (c_flags cfg) thr_key = Some (FVInt thr) ->
  forall sig, (List.length sig = 64 \/ List.length sig = 65) ->
  forall root, List.length root = 32 ->
  forall (init : list cert) (cn : cert) (f : nat) (vals : cache),
  Forall cert_wf init -> cert_wf cn ->
  2 * S (List.length init) + 3 <= c_max_items cfg ->
  (Z.of_nat (S (List.length init)) <= c_limit cfg)%Z ->
  cache_get (init_cache cfg vals) ts_key = Some (VOne (AInt ts)) ->
  match run_auth_scripts orc cfg (31 * S (List.length init) + 4 + f)
          [delegate_key_chain_witness sig (pack cn) (map pack (rev init)); delegate_key_chain_lock root fl] vals with
  | AuthVerdict v _ => v = true <-> chain_accepts orc cfg fl ts thr sig root (init_cache cfg vals) init cn
  | AuthFuel => False
  | AuthUnmod _ => chain_unmod orc cfg ts thr sig root (init_cache cfg vals) init cn
  end.
Proof. exact chain_lock_exact. Qed.

(* what chain_accepts says, by cases on the chain *)
Theorem C14_chain_accepts_meaning :
  forall orc cfg fl ts thr sig root c0 cn,
  (chain_accepts orc cfg fl ts thr sig root c0 [] cn <->
     cert_ok orc cfg ts thr root cn /\ sig_accepts orc cfg (cD cn) sig (b2z fl) c0) /\
  (forall ci init,
   chain_accepts orc cfg fl ts thr sig root c0 (ci :: init) cn <->
     cert_ok orc cfg ts thr root ci /\ ccan ci <> x00 /\
     chain_accepts orc cfg fl ts thr sig (cD ci) c0 init cn).
Proof. intros. split; [|intros ci init]; unfold chain_accepts; simpl; tauto. Qed.

(* a chain longer than the call-stack limit is always refused: the budget condition of the theorem is exact *)
Theorem C14_chain_lock_over_budget :
  forall orc cfg, 105 <= c_max_item_size cfg ->
  forall fl ts thr, flag_get (c_flags cfg) thr_key = Some (FVInt thr) ->
  forall sig, (List.length sig = 64 \/ List.length sig = 65) ->
  forall root, List.length root = 32 ->
  forall (init : list cert) (cn : cert) (f : nat) (vals : cache),
  Forall cert_wf init -> cert_wf cn ->
  2 * S (List.length init) + 3 <= c_max_items cfg ->
  (c_limit cfg < Z.of_nat (S (List.length init)))%Z ->
  cache_get (init_cache cfg vals) ts_key = Some (VOne (AInt ts)) ->
  match run_auth_scripts orc cfg (31 * S (List.length init) + 4 + f)
          [delegate_key_chain_witness sig (pack cn) (map pack (rev init)); delegate_key_chain_lock root fl] vals with
  | AuthVerdict v _ => v = false
  | _ => False
  end.
Proof.
  intros orc cfg Hsize fl ts thr Hthr sig Lsig root LR init cn f vals Hwf Hwn Hit Hbud Hts.
  pose proof (chain_lock_verdict orc cfg Hsize fl ts thr Hthr sig Lsig root LR init cn f vals Hwf Hwn Hit Hts) as H.
  destruct (run_auth_scripts orc cfg _ _ vals) as [v st| |w]; cbn [verdict_spec] in H.
  - destruct v; [|reflexivity]. destruct H as [H _]. destruct (H eq_refl) as [Hle _]. lia.
  - exact H.
  - destruct H as [Hle _]. lia.
Qed.

(* observations proved on a toy oracle (and reproduced on the implementation): the LAST certificate's may-delegate byte is
   never looked at; a non-final certificate with byte 00 ends the chain (the next certificate is then taken for a
   signature and refused); ANY non-zero byte lets the chain go on, while Certificate.unpack reads only ff as True *)
Definition C14_chain_observations := (dk_last_can_ignored, dk_terminal_cannot_delegate, dk_can_01_delegates, dk_flag_lies).

Print Assumptions C14_chain_lock_exact.
Print Assumptions C14_chain_accepts_meaning.
Print Assumptions C14_chain_lock_over_budget.
Print Assumptions C14_chain_observations.
(* the delegation builders as SOURCE (proofs/BuilderSourcesProofs.v): the template text of tools.py, mirrored token for token in
   model/BuilderSources.v, compiles, for all arguments, to the bytes of model/Builders.v that the theorems above are about *)
Definition C14_src_delegate_key_lock_compiles := @BuilderSourcesProofs.delegate_key_lock_compiles.
Definition C14_src_delegate_key_chain_lock_compiles := @BuilderSourcesProofs.delegate_key_chain_lock_compiles.
Definition C14_src_delegate_key_witness_compiles := @BuilderSourcesProofs.delegate_key_witness_compiles.
Definition C14_src_delegate_key_chain_witness_compiles := @BuilderSourcesProofs.delegate_key_chain_witness_compiles.
Check C14_src_delegate_key_lock_compiles.
Check C14_src_delegate_key_chain_lock_compiles.
Check C14_src_delegate_key_witness_compiles.
Print Assumptions C14_src_delegate_key_lock_compiles.
Print Assumptions C14_src_delegate_key_chain_lock_compiles.
Print Assumptions C14_src_delegate_key_witness_compiles.
Print Assumptions C14_src_delegate_key_chain_witness_compiles.

Print Assumptions C14_delegate_lock_exact.
Print Assumptions C14_delegate_lock_true_iff.
Print Assumptions C14_end_test_meaning.
Print Assumptions C14_lock_bytes.
Print Assumptions C14_split_exact.
Print Assumptions C14_write_cache_exact.
Print Assumptions C14_read_cache_exact.
Print Assumptions C14_check_sig_stack_exact.
Print Assumptions C14_cert_roundtrip.
Print Assumptions C14_cert_roundtrip_exact_log2.
Print Assumptions C14_cert_pack_shape.
Print Assumptions C14_zero_pad_value.
Print Assumptions C14_fl2_ok_not_enough.
Print Assumptions C14_delegate_lock_packed.
Print Assumptions C14_example_inside.
Print Assumptions C14_example_predicted.
