(* C11 — The documented bytecode encoding is uniquely decodable.
   [encode] is the documented encoding (opcode byte, then the operands of the opcode's shape, bodies
   behind a 2-byte big-endian length); [decode] is the reference decoder that reads it back the way
   run_tape / decompile_script do.  Well-formed (wf) = every operand fits its length prefix.
   The PUSH pseudo-instruction of the compiler picks its push form by the length of the value. *)
From Coq Require Import ZArith List String.
From Coq.Strings Require Import Byte.
From TS Require Import Bytes Codec Ops Names Asm BytesLemmas CodecProofs AsmProofs Assembler AssemblerProofs Tokenizer TokenizerProofs.
From TS Require MacroFacts.
Import ListNotations.
Open Scope list_scope.
Open Scope Z_scope.

(* the bytes determine the instruction sequence *)
Theorem C11_decode_encode : forall p, wf_prog p = true -> decode (encode p) = Some p.
Proof. exact decode_encode. Qed.

(* the encoding of a program is the concatenation, in order, of its instructions' encodings *)
Theorem C11_encode_nil : encode [] = [].
Proof. exact encode_nil. Qed.
Theorem C11_encode_cons : forall i p, encode (i :: p) = encode1 i ++ encode p.
Proof. exact encode_cons. Qed.
Theorem C11_encode_app : forall p q, encode (p ++ q) = encode p ++ encode q.
Proof. exact encode_app. Qed.

(* two different well-formed programs never share an encoding *)
Theorem C11_encode_inj : forall p q,
  wf_prog p = true -> wf_prog q = true -> encode p = encode q -> p = q.
Proof. exact encode_inj. Qed.

(* one instruction at a time, with anything after it *)
Theorem C11_decode1_encode1 : forall i rest,
  wf i = true -> decode1 (encode1 i ++ rest) = Some (i, rest).
Proof. exact decode1_encode1. Qed.

(* OP_PUSH: which form is chosen, by the length of the value (length 0 and >= 65536: ValueError) *)
Theorem C11_push_by_length : forall v,
  (blen v = 1 -> exists b, v = [b] /\ push_instr v = Some (IOp1 O_PUSH0 b)) /\
  (2 <= blen v <= 255 -> push_instr v = Some (IVar1 O_PUSH1 v)) /\
  (256 <= blen v <= 65535 -> push_instr v = Some (IPush2 v)) /\
  (blen v = 0 \/ 65536 <= blen v -> push_instr v = None).
Proof. exact push_instr_by_length. Qed.

Theorem C11_push_none : forall v, push_instr v = None <-> (blen v = 0 \/ 65536 <= blen v).
Proof. exact push_instr_none. Qed.

(* the chosen form is well-formed and carries exactly the value:
   PUSH0 (1 byte of overhead) iff length 1, PUSH1 (2 bytes) iff 2..255, PUSH2 (3 bytes) iff 256..65535 *)
Theorem C11_push_minimal : forall v i, push_instr v = Some i ->
  wf i = true /\
  ((exists b, v = [b] /\ i = IOp1 O_PUSH0 b /\ encode1 i = x02 :: v) \/
   (2 <= blen v <= 255 /\ i = IVar1 O_PUSH1 v /\ encode1 i = x03 :: z2b (blen v) :: v) \/
   (256 <= blen v <= 65535 /\ i = IPush2 v /\ encode1 i = x04 :: Z_to_be 2 (blen v) ++ v)).
Proof. exact push_minimal. Qed.

Definition C11_sample : list instr :=
  [ IDef x05 [ IIf [ IOp0 O_TRUE; IVar1 O_PUSH1 [x01; x02] ];
               ITry [ IOp1 O_CALL x07 ] [] ];
    IIfElse [ INop 200 xc8 ] [ IWriteCache [x61] x02; IPush2 [] ];
    ITry [ IVar1 O_DIV_INT [xff; x7f] ] [ IOp0 O_FALSE ];
    ILoop [ ISwap x01 xff; IMultisig O_CHECK_MULTISIG x00 x02 x03 ];
    IFix O_DIV_FLOAT [x3f; x80; x00; x00];
    IOp1 O_CHECK_SIG xf0 ].

Example C11_sample_wf : wf_prog C11_sample = true.
Proof. vm_compute. reflexivity. Qed.

Example C11_sample_bytes :
  encode [IIf [IOp0 O_TRUE]; IOp0 O_FALSE] = [x2b; x00; x01; x01; x00].
Proof. vm_compute. reflexivity. Qed.

Example C11_decode_example :
  decode [x2b; x00; x01; x01; x00] = Some [IIf [IOp0 O_TRUE]; IOp0 O_FALSE].
Proof. vm_compute. reflexivity. Qed.

Example C11_sample_roundtrip : decode (encode C11_sample) = Some C11_sample.
Proof. vm_compute. reflexivity. Qed.

Example C11_push_examples :
  push_instr [] = None /\
  push_instr [x07] = Some (IOp1 O_PUSH0 x07) /\
  push_instr [x07; x08] = Some (IVar1 O_PUSH1 [x07; x08]) /\
  option_map encode1 (push_instr (repeat x00 256)) = Some (x04 :: x01 :: x00 :: repeat x00 256).
Proof. vm_compute. repeat split; reflexivity. Qed.

(* not well-formed: a 256-byte PUSH1 operand does not fit its length byte and decodes differently *)
Example C11_wf_needed :
  wf (IVar1 O_PUSH1 (repeat x00 256)) = false /\
  decode (encode [IVar1 O_PUSH1 (repeat x00 256)]) <> Some [IVar1 O_PUSH1 (repeat x00 256)].
Proof. split; [vm_compute; reflexivity|]. vm_compute. discriminate. Qed.

(* The source language at symbol level (model/Assembler.v, proofs/AssemblerProofs.v).
   assemble is a line-by-line executable model of parsing.assemble / parse_next / get_args / parse_def / parse_if / ...
   on the symbols of a source (the output of parsing.get_symbols); it is compared with the real compiler on every run
   (command ASRC: sources as written, damaged sources, malformed families).  [spells p syms]: syms is one of the
   spellings of the abstract program p — any accepted name or alias in any letter case, any value form denoting the same
   bytes (d / x / s prefixes, signs, leading zeros), PUSH pseudo-op or explicit PUSHn (with a size operand that matches),
   @= / @ / @# forms, braces or END_ terminators, ELSE / EXCEPT in their five shapes, hoisted IF conditions. *)

(* every spelling of every well-formed program assembles to the documented encoding: nothing dropped, duplicated, reordered *)
Theorem C11_every_spelling_assembles_to_the_encoding :
  forall fl2 ct p syms, spells fl2 p syms -> wf_prog p = true -> assemble fl2 ct syms = Some (encode p).
Proof. exact assemble_spells. Qed.

(* the decompiler's own listing is one of them; rejection of the malformed families after any well-spelled prefix; names
   are case-insensitive; every alias of the generated table is a spelling *)
Definition C11_listing_assembles := @assemble_listing.
Definition C11_listing_needs_no_nested_def := assemble_listing_needs_ldef_ok.
Definition C11_rejected_after_prefix := @reject_after.
Definition C11_rejected_operand_missing := @reject_operand_missing.
Definition C11_rejected_push_size_mismatch := @reject_push1_size.
Definition C11_rejected_unknown_name := @reject_unknown_name.
Definition C11_rejected_extra_close := @reject_extra_close.
Definition C11_rejected_unclosed_block := @reject_unclosed_block.
Definition C11_names_case_insensitive := names_case_insensitive.
Definition C11_every_alias_spells := @every_alias_spells.
Definition C11_push_size_operand_checked := fixed_push1_size_checked.     (* D20 of DESIGN.md section 7 *)
Check C11_listing_assembles.
Check C11_rejected_after_prefix.
Check C11_rejected_operand_missing.
Check C11_rejected_push_size_mismatch.
Check C11_rejected_unknown_name.
Check C11_rejected_unclosed_block.
Check C11_names_case_insensitive.

(* From source text (model/Tokenizer.v: str.split + the pop loop of parsing.get_symbols; compile_text =
   get_symbols then assemble_r, the mirror of compile_script; compared with the real functions on every run: CTXT).
   rend raw text: the text is the raw tokens separated by arbitrary non-empty runs of whitespace (blank, tab, newline, CR,
   VT, FF, FS..US), optionally surrounded by whitespace; posts raw syms: the effect of the tokenizer loop on the raw tokens
   (names in any letter case are normalised, string values spread over several tokens are re-joined). *)
Theorem C11_text_of_any_spelling_compiles_to_the_encoding :
  forall fl2 ct p syms raw text,
  spells fl2 p syms -> wf_prog p = true ->
  posts raw syms -> rend raw text -> all_ascii text = true ->
  compile_text fl2 ct text = Ok (encode p).
Proof. exact compile_spells. Qed.

Theorem C11_whitespace_is_irrelevant :
  forall raw text1 text2,
  rend raw text1 -> rend raw text2 -> all_ascii text1 = true -> all_ascii text2 = true ->
  get_symbols text1 = get_symbols text2 /\ forall fl2 ct, compile_text fl2 ct text1 = compile_text fl2 ct text2.
Proof. exact whitespace_irrelevant. Qed.

(* any letter-casing of any name is a raw spelling of it; comments between top-level statements do not change the code *)
Definition C11_any_casing_of_a_name := @posts_name.
Definition C11_comment_between_statements := @comment_between.
Definition C11_text_with_comments_compiles := @compile_tops.
Definition C11_worked_example := example_text_compiles.
Check C11_any_casing_of_a_name.
Check C11_comment_between_statements.
Check C11_text_with_comments_compiles.

Print Assumptions C11_text_of_any_spelling_compiles_to_the_encoding.
Print Assumptions C11_whitespace_is_irrelevant.
Print Assumptions C11_any_casing_of_a_name.
Print Assumptions C11_comment_between_statements.
Print Assumptions C11_text_with_comments_compiles.
Print Assumptions C11_worked_example.
(* macros and ~ { } comptime blocks are part of the model of assemble; ~! { } blocks enter through its parameter ct (below) *)
Definition C11_definitions_emit_no_code := @definitions_emit_no_code.
Definition C11_unused_definition_changes_nothing := @unused_definition.
Definition C11_comptime_block_is_its_assembled_bytes := @comptime_block.
Definition C11_push_of_a_comptime_block := @push_comptime.
Definition C11_macro_expansion := @macro_expansion.
Definition C11_macro_expansion_example := macro_expansion_example.
Definition C11_aliases_inside_def_fixed := fixed_def_alias.          (* D21 of DESIGN.md section 7 *)
(* macro calls: every parameter replaced by its own argument, once (simultaneous substitution); the number of values is checked in
   both directions; PUSH of an empty value is rejected whichever way the value is supplied (computed facts about the model of the
   real compiler front end; the same sources are compiled by the real compiler on every run) *)
Definition C11_macro_substitution_is_simultaneous := MacroFacts.macro_substitution_is_simultaneous.
Definition C11_macro_arity_is_checked := MacroFacts.macro_arity_is_checked.
Definition C11_push_of_an_empty_value_is_rejected := MacroFacts.push_of_an_empty_value_is_rejected.
Check C11_definitions_emit_no_code.
Check C11_unused_definition_changes_nothing.
Check C11_comptime_block_is_its_assembled_bytes.
Check C11_macro_expansion.

(* ~! { } comptime blocks: the assembler takes the run of a block as a parameter ct (instantiated with the VM model in the
   correspondence run); every theorem of this file holds for every ct *)
Definition C11_run_block_is_its_top_stack_item := @comptime_run_block.
Definition C11_push_of_a_run_block := @push_comptime_run.
Definition C11_run_block_with_empty_stack_adds_nothing := @comptime_run_empty.
Definition C11_run_block_that_raises_rejects_the_source := @comptime_run_error.
Check C11_run_block_is_its_top_stack_item.
Check C11_run_block_that_raises_rejects_the_source.
Print Assumptions C11_run_block_is_its_top_stack_item.
Print Assumptions C11_push_of_a_run_block.
Print Assumptions C11_run_block_with_empty_stack_adds_nothing.
Print Assumptions C11_run_block_that_raises_rejects_the_source.
Print Assumptions C11_definitions_emit_no_code.
Print Assumptions C11_unused_definition_changes_nothing.
Print Assumptions C11_comptime_block_is_its_assembled_bytes.
Print Assumptions C11_push_of_a_comptime_block.
Print Assumptions C11_macro_expansion.
Print Assumptions C11_macro_expansion_example.
Print Assumptions C11_aliases_inside_def_fixed.
Print Assumptions C11_every_spelling_assembles_to_the_encoding.
Print Assumptions C11_listing_assembles.
Print Assumptions C11_listing_needs_no_nested_def.
Print Assumptions C11_rejected_after_prefix.
Print Assumptions C11_rejected_operand_missing.
Print Assumptions C11_rejected_push_size_mismatch.
Print Assumptions C11_rejected_unknown_name.
Print Assumptions C11_rejected_extra_close.
Print Assumptions C11_rejected_unclosed_block.
Print Assumptions C11_names_case_insensitive.
Print Assumptions C11_every_alias_spells.
Print Assumptions C11_push_size_operand_checked.
Print Assumptions C11_decode_encode.
Print Assumptions C11_encode_nil.
Print Assumptions C11_encode_cons.
Print Assumptions C11_encode_app.
Print Assumptions C11_encode_inj.
Print Assumptions C11_decode1_encode1.
Print Assumptions C11_push_by_length.
Print Assumptions C11_push_none.
Print Assumptions C11_push_minimal.
Print Assumptions C11_macro_substitution_is_simultaneous.
Print Assumptions C11_macro_arity_is_checked.
Print Assumptions C11_push_of_an_empty_value_is_rejected.
