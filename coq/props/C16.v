(* C16 — Time constraints accept exactly their documented window (instruction level).
   For every oracle, configuration, frame, state: the exact result of OP_CHECK_TIMESTAMP / OP_CHECK_EPOCH
   and their _VERIFY forms, including the error cases. [be_to_Z c] is the unsigned big-endian value of the
   constraint. Lock builders (after / before / between): exact verdict of run_auth_scripts on the builders' real
   bytes (Builders.v, tied to tools.py by correspondence); the before-lock theorem documents known finding D11. *)
From Coq Require Import ZArith List.
From Coq.Strings Require Import Byte.
From TS Require Import Bytes State Prog Ops Interp TimeSpec TablesCheck Builders LockSpecC16.
From TS Require BuilderSourcesProofs.
Import ListNotations.
Open Scope Z_scope.

Theorem C16_check_timestamp_exact :
  forall orc cfg run fr st c rest ts thr,
  st_stack st = c :: rest -> c <> [] ->
  cache_get (st_cache st) ts_key = Some (VOne (AInt ts)) ->
  flag_get (c_flags cfg) thr_key = Some (FVInt thr) ->
  room cfg rest ->
  interp orc cfg run OP_CHECK_TIMESTAMP fr st =
    Done tt fr (with_stack st (boolb (ts_verdict cfg (be_to_Z c) ts thr) :: rest)).
Proof. exact check_timestamp_spec. Qed.

(* the verdict is literally: t >= c and (threshold <= 0 or t - now < threshold) *)
Theorem C16_verdict_formula :
  forall cfg c ts thr, ts_verdict cfg c ts thr = true <-> (c <= ts /\ (thr <= 0 \/ ts - c_now cfg < thr)).
Proof.
  intros. unfold ts_verdict. rewrite Bool.andb_true_iff, Bool.orb_true_iff, Z.leb_le, Z.leb_le, Z.ltb_lt. tauto.
Qed.

Theorem C16_check_timestamp_verify_exact :
  forall orc cfg run fr st c rest ts thr,
  st_stack st = c :: rest -> c <> [] ->
  cache_get (st_cache st) ts_key = Some (VOne (AInt ts)) ->
  flag_get (c_flags cfg) thr_key = Some (FVInt thr) ->
  room cfg rest ->
  interp orc cfg run OP_CHECK_TIMESTAMP_VERIFY fr st =
    if ts_verdict cfg (be_to_Z c) ts thr then Done tt fr (with_stack st rest)
    else Raised ScriptExecutionError fr (with_stack st rest).
Proof. exact check_timestamp_verify_spec. Qed.

Theorem C16_check_epoch_exact :
  forall orc cfg run fr st c rest thr,
  st_stack st = c :: rest -> c <> [] ->
  flag_get (c_flags cfg) ethr_key = Some (FVInt thr) -> 0 <= thr ->
  room cfg rest ->
  interp orc cfg run OP_CHECK_EPOCH fr st =
    Done tt fr (with_stack st (boolb (epoch_verdict cfg (be_to_Z c) thr) :: rest)).
Proof. exact check_epoch_spec. Qed.

Theorem C16_epoch_formula :
  forall cfg c thr, epoch_verdict cfg c thr = true <-> c - c_now cfg < thr.
Proof. intros. unfold epoch_verdict. apply Z.ltb_lt. Qed.

Theorem C16_check_epoch_verify_exact :
  forall orc cfg run fr st c rest thr,
  st_stack st = c :: rest -> c <> [] ->
  flag_get (c_flags cfg) ethr_key = Some (FVInt thr) -> 0 <= thr ->
  room cfg rest ->
  interp orc cfg run OP_CHECK_EPOCH_VERIFY fr st =
    if epoch_verdict cfg (be_to_Z c) thr then Done tt fr (with_stack st rest)
    else Raised ScriptExecutionError fr (with_stack st rest).
Proof. exact check_epoch_verify_spec. Qed.

Theorem C16_malformed_is_error :
  forall orc cfg run fr st rest,
  st_stack st = [] :: rest ->
  interp orc cfg run OP_CHECK_TIMESTAMP fr st = Raised ScriptExecutionError fr (with_stack st rest).
Proof.
  intros orc cfg run fr st rest Hs. unfold OP_CHECK_TIMESTAMP, get, act, sert. cbn [bind interp step]. rewrite Hs.
  reflexivity.
Qed.

Theorem C16_bad_cache_timestamp_is_error :
  forall orc cfg run fr st c rest,
  st_stack st = c :: rest -> c <> [] ->
  (forall ts, cache_get (st_cache st) ts_key <> Some (VOne (AInt ts))) ->
  interp orc cfg run OP_CHECK_TIMESTAMP fr st = Raised ScriptExecutionError fr (with_stack st rest).
Proof.
  intros orc cfg run fr st c rest Hs Hc Ht. unfold OP_CHECK_TIMESTAMP, get, act, sert. cbn [bind interp step].
  rewrite Hs, (nonempty_blen c Hc). cbn [bind interp step st_cache with_stack].
  unfold ts_key in Ht. destruct (cache_get (st_cache st) _) as [[[b|b|z|b|b| |b]|l]|] eqn:E;
    try reflexivity. exfalso. eapply (Ht z). reflexivity.
Qed.

Theorem C16_bad_threshold_is_error :
  forall orc cfg run fr st c rest ts,
  st_stack st = c :: rest -> c <> [] ->
  cache_get (st_cache st) ts_key = Some (VOne (AInt ts)) ->
  (forall thr, flag_get (c_flags cfg) thr_key <> Some (FVInt thr)) ->
  interp orc cfg run OP_CHECK_TIMESTAMP fr st = Raised ScriptExecutionError fr (with_stack st rest).
Proof.
  intros orc cfg run fr st c rest ts Hs Hc Ht Hf. unfold OP_CHECK_TIMESTAMP, get, config_, act, sert.
  cbn [bind interp step]. rewrite Hs, (nonempty_blen c Hc). cbn [bind interp step st_cache with_stack].
  unfold ts_key in Ht. rewrite Ht. cbn [bind interp step].
  unfold thr_key in Hf. destruct (flag_get (c_flags cfg) _) as [[z|b|]|] eqn:E;
    try reflexivity. exfalso. eapply (Hf z). reflexivity.
Qed.

(* the hypotheses are satisfiable with the default configuration (generated from the live package) *)
Example C16_nonvacuous :
  let cfg := default_config 1000 in
  flag_get (c_flags cfg) thr_key = Some (FVInt 60) /\ flag_get (c_flags cfg) ethr_key = Some (FVInt 60)
  /\ room cfg [] /\ ts_verdict cfg 900 1059 60 = true /\ ts_verdict cfg 900 1060 60 = false
  /\ ts_verdict cfg 900 899 60 = false.
Proof. repeat split; try reflexivity; apply Nat.leb_le; reflexivity. Qed.

(* D11: 'CHECK_TIMESTAMP ; NOT' (the timestamp-before lock) is not "t < ts": it also accepts t >= ts beyond the slack *)
Theorem C16_before_lock_refuted :
  exists cfg c ts thr, 0 < thr /\ negb (ts_verdict cfg c ts thr) = true /\ c <= ts.
Proof.
  exists (default_config 0), 30, 60, 60. vm_compute. repeat split; discriminate.
Qed.

(* the lock builders, on their real bytes; c = int_to_bytes(ts), 2..255 bytes *)
Theorem C16_after_lock_exact :
  forall orc cfg ts thr f c vals,
  flag_get (c_flags cfg) thr_key = Some (FVInt thr) ->
  (2 <= List.length c <= 255 /\ List.length c <= c_max_item_size cfg)%nat -> (1 <= c_max_items cfg)%nat ->
  cache_get (init_cache cfg vals) ts_key = Some (VOne (AInt ts)) ->
  match run_auth_scripts orc cfg (S (S (S f))) [ts_after_lock c false] vals with
  | AuthVerdict b _ => b = true <-> (be_to_Z c <= ts /\ (thr <= 0 \/ ts - c_now cfg < thr))
  | _ => False
  end.
Proof.
  intros orc cfg ts thr f c vals Hthr Hg Hit Hc. rewrite (ts_after_exact orc cfg ts thr Hthr f c vals Hg Hit Hc).
  apply V_iff.
Qed.

Theorem C16_between_lock_exact :
  forall orc cfg ts thr f c1 c2 vals,
  flag_get (c_flags cfg) thr_key = Some (FVInt thr) ->
  (2 <= List.length c1 <= 255 /\ List.length c1 <= c_max_item_size cfg)%nat ->
  (2 <= List.length c2 <= 255 /\ List.length c2 <= c_max_item_size cfg)%nat -> (1 <= c_max_items cfg)%nat ->
  cache_get (init_cache cfg vals) ts_key = Some (VOne (AInt ts)) ->
  match run_auth_scripts orc cfg (S (S (S (S (S (S f)))))) [ts_between_lock c1 c2 false] vals with
  | AuthVerdict b _ =>
    b = true <-> (be_to_Z c1 <= ts /\ (thr <= 0 \/ ts - c_now cfg < thr) /\ ts < be_to_Z c2)
  | _ => False
  end.
Proof.
  intros orc cfg ts thr f c1 c2 vals Hthr Hg1 Hg2 Hit Hc.
  rewrite (ts_between_exact orc cfg ts thr Hthr f c1 c2 vals Hg1 Hg2 Hit Hc). apply between_verdict_iff.
Qed.

(* D11: the before lock accepts t < ts, but ALSO every t that is beyond the slack *)
Theorem C16_before_lock_exact_D11 :
  forall orc cfg ts thr f c vals,
  flag_get (c_flags cfg) thr_key = Some (FVInt thr) ->
  (2 <= List.length c <= 255 /\ List.length c <= c_max_item_size cfg)%nat -> (1 <= c_max_items cfg)%nat ->
  cache_get (init_cache cfg vals) ts_key = Some (VOne (AInt ts)) ->
  match run_auth_scripts orc cfg (S (S (S (S f)))) [ts_before_lock c false] vals with
  | AuthVerdict b _ => b = true <-> (ts < be_to_Z c \/ (0 < thr /\ thr <= ts - c_now cfg))
  | _ => False
  end.
Proof.
  intros orc cfg ts thr f c vals Hthr Hg Hit Hc. rewrite (ts_before_exact orc cfg ts thr Hthr f c vals Hg Hit Hc).
  apply before_verdict_iff.
Qed.

Theorem C16_after_verify_lock_exact :
  forall orc cfg ts thr f c vals,
  flag_get (c_flags cfg) thr_key = Some (FVInt thr) ->
  (2 <= List.length c <= 255 /\ List.length c <= c_max_item_size cfg)%nat -> (2 <= c_max_items cfg)%nat ->
  cache_get (init_cache cfg vals) ts_key = Some (VOne (AInt ts)) ->
  match run_auth_scripts orc cfg (S (S (S f))) [[x01]; ts_after_lock c true] vals with
  | AuthVerdict b _ => b = true <-> (be_to_Z c <= ts /\ (thr <= 0 \/ ts - c_now cfg < thr))
  | _ => False
  end.
Proof.
  intros orc cfg ts thr f c vals Hthr Hg Hit Hc.
  destruct (ts_after_verify_exact orc cfg ts thr Hthr f c vals Hg Hit Hc) as [st ->]. apply V_iff.
Qed.

Theorem C16_between_verify_lock_exact :
  forall orc cfg ts thr f c1 c2 vals,
  flag_get (c_flags cfg) thr_key = Some (FVInt thr) ->
  (2 <= List.length c1 <= 255 /\ List.length c1 <= c_max_item_size cfg)%nat ->
  (2 <= List.length c2 <= 255 /\ List.length c2 <= c_max_item_size cfg)%nat -> (2 <= c_max_items cfg)%nat ->
  cache_get (init_cache cfg vals) ts_key = Some (VOne (AInt ts)) ->
  match run_auth_scripts orc cfg (S (S (S (S (S (S (S f))))))) [[x01]; ts_between_lock c1 c2 true] vals with
  | AuthVerdict b _ =>
    b = true <-> (be_to_Z c1 <= ts /\ (thr <= 0 \/ ts - c_now cfg < thr) /\ ts < be_to_Z c2)
  | _ => False
  end.
Proof.
  intros orc cfg ts thr f c1 c2 vals Hthr Hg1 Hg2 Hit Hc.
  destruct (ts_between_verify_exact orc cfg ts thr Hthr f c1 c2 vals Hg1 Hg2 Hit Hc) as [st ->].
  apply between_verdict_iff.
Qed.

(* the timestamp lock builders as SOURCE (proofs/BuilderSourcesProofs.v): the template text of tools.py, mirrored token for token in
   model/BuilderSources.v, compiles, for all arguments, to the bytes of model/Builders.v that the theorems above are about *)
Definition C16_src_ts_after_lock_compiles := @BuilderSourcesProofs.ts_after_lock_compiles.
Definition C16_src_ts_before_lock_compiles := @BuilderSourcesProofs.ts_before_lock_compiles.
Definition C16_src_ts_between_lock_compiles := @BuilderSourcesProofs.ts_between_lock_compiles.
Check C16_src_ts_after_lock_compiles.
Check C16_src_ts_before_lock_compiles.
Check C16_src_ts_between_lock_compiles.
Print Assumptions C16_src_ts_after_lock_compiles.
Print Assumptions C16_src_ts_before_lock_compiles.
Print Assumptions C16_src_ts_between_lock_compiles.

Print Assumptions C16_check_timestamp_exact.
Print Assumptions C16_after_lock_exact.
Print Assumptions C16_between_lock_exact.
Print Assumptions C16_before_lock_exact_D11.
Print Assumptions C16_after_verify_lock_exact.
Print Assumptions C16_between_verify_lock_exact.
Print Assumptions C16_verdict_formula.
Print Assumptions C16_check_timestamp_verify_exact.
Print Assumptions C16_check_epoch_exact.
Print Assumptions C16_check_epoch_verify_exact.
Print Assumptions C16_malformed_is_error.
Print Assumptions C16_bad_cache_timestamp_is_error.
Print Assumptions C16_bad_threshold_is_error.
Print Assumptions C16_before_lock_refuted.
