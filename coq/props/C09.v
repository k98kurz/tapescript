(* C09 — Embedder configuration applies uniformly at every nesting level.
   In the model the configuration is ONE value [cfg] (flags, limits, plugins, contracts, clock) that every
   action reads; no action writes it. That this matches the implementation (where it is copied from tape to
   tape) is what the correspondence stream over all nestings checks. Proved here: every read of the
   configuration, at any depth, returns the embedder's value; sub-tapes are interpreted under the same
   configuration; signature extensions run exactly once before the signature instructions; EVAL stays
   disallowed; the flag instructions change nothing (known finding D7: they cannot set a flag either). *)
From Coq Require Import ZArith List Bool.
From Coq.Strings Require Import Byte String.
From TS Require Import Bytes State Prog Ops Interp NopSpec SigSpec ConfigSpec.
From TS Require SigExtOnce.
Import ListNotations.
Open Scope Z_scope.

Theorem C09_config_everywhere :
  forall orc cfg run fr st, step orc cfg run AConfig fr st = SOk cfg fr st.
Proof. exact config_everywhere. Qed.

Theorem C09_sub_tapes_same_config :
  forall orc cfg f tid ptr st,
  run_tape orc cfg (S f) tid ptr st =
    let data := to_data (nth_tape st tid) in
    if (List.length data <=? ptr)%nat then Done tt {| fr_tid := tid; fr_ptr := ptr |} st
    else match interp orc cfg (fun t s => run_tape orc cfg f t 0%nat s)
                 (dispatch (N.to_nat (Byte.to_N (nth ptr data x00)))) {| fr_tid := tid; fr_ptr := S ptr |} st with
         | Done _ fr' st' => run_tape orc cfg f tid (fr_ptr fr') st'
         | Raised e fr' st' => Raised e fr' st'
         | OutOfFuel => OutOfFuel
         | Unmodelled w => Unmodelled w
         end.
Proof. exact sub_tapes_same_config. Qed.

Theorem C09_sig_extensions_once :
  forall orc cfg run fr st, interp orc cfg run run_sig_ext fr st = Done tt fr (sigext_log cfg st).
Proof. exact run_sig_ext_spec. Qed.

Theorem C09_get_message_runs_plugins_once :
  forall orc cfg run fr st b rest m,
  data_at fr st = b :: rest ->
  msg_of (b2z b) (st_cache st) = Some m ->
  (List.length m <= c_max_item_size cfg)%nat -> (List.length (st_stack st) < c_max_items cfg)%nat ->
  interp orc cfg run OP_GET_MESSAGE fr st =
    Done tt (adv fr 1) (with_stack (sigext_log cfg st) (m :: st_stack st)).
Proof. exact get_message_exact. Qed.

Theorem C09_check_sig_runs_plugins_once :
  forall orc cfg run fr st b rest,
  data_at fr st = b :: rest ->
  interp orc cfg run OP_CHECK_SIG fr st =
    interp orc cfg run (check_sig_body (b2z b)) (adv fr 1) (sigext_log cfg st).
Proof. exact check_sig_decomposed. Qed.

(* ---- WHEN the signature-extension plugins run (proofs/SigExtOnce.v).  A plugin run is the log event EvSigExt id.
   (1) exactly once, and first: each of GET_MESSAGE, CHECK_SIG(_VERIFY), CHECK_MULTISIG(_VERIFY), SIGN adds, in every outcome (Done or
       Raised), exactly the configured plugins, each once, in order -- for every oracle, configuration, runner (hence at every nesting
       level), frame and state; the inner signature checks of CHECK_MULTISIG (any number of signatures x keys) never run them again;
       CHECK_TEMPLATE(_VERIFY) the same when flag 10 is absent or truthy and not at all when it is present and falsy; OP_TAPROOT's key
       path exactly once (under the preconditions of the key-path theorem), never twice in any state;
   (2) never otherwise: every other instruction of the table, NOP included, adds no plugin event (block instructions: none of their
       own; what their sub-tapes add is the runner's) -- so a plugin event in the log means a signature instruction executed.
   *)
Definition C09_sig_instructions_run_plugins_exactly_once := @SigExtOnce.sig_instruction_runs_plugins_exactly_once.
Definition C09_sig_instructions_once_at_every_level := @SigExtOnce.sig_instruction_once_at_every_level.
Definition C09_multisig_inner_checks_never_rerun_plugins := @SigExtOnce.ms_go_never_twice.
Definition C09_check_template_runs_plugins_once_iff_flag10 := @SigExtOnce.check_template_runs_plugins_exactly_once.
Definition C09_taproot_key_path_runs_plugins_exactly_once := @SigExtOnce.taproot_key_path_plugins_exactly_once.
Definition C09_taproot_never_twice := @SigExtOnce.taproot_at_most_once.
Definition C09_other_instructions_run_no_plugin := @SigExtOnce.other_instructions_run_no_plugin.
Definition C09_plugin_event_only_from_sig_instruction := @SigExtOnce.plugin_event_only_from_sig_instruction.
Definition C09_no_sigext_iff_not_sig_instruction := @SigExtOnce.no_sigext_iff.
Check C09_sig_instructions_run_plugins_exactly_once.
Check C09_sig_instructions_once_at_every_level.
Check C09_multisig_inner_checks_never_rerun_plugins.
Check C09_check_template_runs_plugins_once_iff_flag10.
Check C09_taproot_key_path_runs_plugins_exactly_once.
Check C09_taproot_never_twice.
Check C09_other_instructions_run_no_plugin.
Check C09_plugin_event_only_from_sig_instruction.
Check C09_no_sigext_iff_not_sig_instruction.
Print SigExtOnce.plugins_once.
Print SigExtOnce.plugin_instructions.
Print SigExtOnce.is_sig_op.

Theorem C09_eval_stays_disallowed :
  forall orc cfg run fr st v,
  flag_get (c_flags cfg) (FKStr (str "disallow_OP_EVAL")) = Some v ->
  interp orc cfg run eval_body fr st = Raised ScriptExecutionError fr st.
Proof. exact eval_disallowed. Qed.

(* D7: OP_SET_FLAG can never set a flag; it always raises and leaves the state as it was *)
Theorem C09_set_flag_refuted :
  forall orc cfg run fr st,
  match interp orc cfg run OP_SET_FLAG fr st with
  | Raised ScriptExecutionError _ st' => st' = st
  | _ => False
  end.
Proof. exact set_flag_always_raises. Qed.

Theorem C09_unset_flag_changes_nothing :
  forall orc cfg run fr st,
  match interp orc cfg run OP_UNSET_FLAG fr st with
  | Done _ _ st' | Raised _ _ st' => st' = st
  | _ => False
  end.
Proof. exact unset_flag_changes_nothing. Qed.

Print Assumptions C09_config_everywhere.
Print Assumptions C09_sub_tapes_same_config.
Print Assumptions C09_sig_extensions_once.
Print Assumptions C09_get_message_runs_plugins_once.
Print Assumptions C09_check_sig_runs_plugins_once.
Print Assumptions C09_eval_stays_disallowed.
Print Assumptions C09_set_flag_refuted.
Print Assumptions C09_unset_flag_changes_nothing.
Print Assumptions C09_sig_instructions_run_plugins_exactly_once.
Print Assumptions C09_sig_instructions_once_at_every_level.
Print Assumptions C09_multisig_inner_checks_never_rerun_plugins.
Print Assumptions C09_check_template_runs_plugins_once_iff_flag10.
Print Assumptions C09_taproot_key_path_runs_plugins_exactly_once.
Print Assumptions C09_taproot_never_twice.
Print Assumptions C09_other_instructions_run_no_plugin.
Print Assumptions C09_plugin_event_only_from_sig_instruction.
Print Assumptions C09_no_sigext_iff_not_sig_instruction.
