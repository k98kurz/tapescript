(* C03 — OP_CHECK_MULTISIG: m distinct signatures by m distinct positions of the key list.
   Part 1: combinatorics of the greedy matching loop over an abstract check [chk] (MultisigPure).
   Part 2: the program-level loop of the model ([ms_find] / [ms_go], which pushes signature and key, runs
   [check_sig_body] and pops the verdict) computes exactly the pure loop, so Part 1 applies to the
   instruction (MultisigLink).  Ed25519 itself stays an oracle: [chk_ok] / [chk_ok_at] say that the
   signature check ends normally with verdict [chk s k]; [C03_chk_ok_at_real] discharges that premise for
   well-formed operands with [chk := real_chk orc cache]. *)
From Coq Require Import ZArith List Bool Arith Lia.
From Coq.Sorting Require Import Permutation.
From Coq.Strings Require Import Byte String.
From TS Require Import Bytes State Prog Ops Interp SigSpec NopSpec MultisigPure MultisigLink.
Import ListNotations.
Local Open Scope nat_scope.

(* the pure loop *)
Theorem C03_multisig_sound :
  forall (chk : bytes -> bytes -> bool) sigs keys, ms_verdict chk sigs keys = true ->
    NoDup sigs /\
    exists ks rest, List.length ks = List.length sigs /\
                    Forall2 (fun s k => chk s k = true) sigs ks /\
                    Permutation keys (ks ++ rest).
Proof. exact multisig_sound. Qed.

Theorem C03_multisig_sigs_le_keys :
  forall (chk : bytes -> bytes -> bool) sigs keys,
    ms_verdict chk sigs keys = true -> List.length sigs <= List.length keys.
Proof.
  intros chk sigs keys H. destruct (multisig_sound chk _ _ H) as [_ [ks [rest [Hl [_ P]]]]].
  rewrite (Permutation_length P), app_length. lia.
Qed.

Theorem C03_multisig_repeated_sig_fails :
  forall (chk : bytes -> bytes -> bool) sigs keys, ~ NoDup sigs -> ms_verdict chk sigs keys = false.
Proof. exact multisig_repeated_sig_fails. Qed.

Theorem C03_multisig_distinct_signers :
  forall (chk : bytes -> bytes -> bool) sigs keys, ms_verdict chk sigs keys = true ->
    exists ks rest, List.length ks = List.length sigs /\
                    Forall2 (fun s k => chk s k = true) sigs ks /\
                    Permutation keys (ks ++ rest) /\
                    forall k, count_occ bytes_dec ks k <= count_occ bytes_dec keys k.
Proof. intros chk sigs keys H. apply matching_count_occ. apply (multisig_sound chk _ _ H). Qed.

Theorem C03_multisig_complete :
  forall (chk : bytes -> bytes -> bool) sigs keys,
    (forall s k1 k2, In s sigs -> In k1 keys -> In k2 keys ->
                     chk s k1 = true -> chk s k2 = true -> k1 = k2) ->
    NoDup sigs -> NoDup keys ->
    (forall s, In s sigs -> exists k, In k keys /\ chk s k = true) ->
    (forall s1 s2 k, In s1 sigs -> In s2 sigs -> In k keys ->
                     chk s1 k = true -> chk s2 k = true -> s1 = s2) ->
    ms_verdict chk sigs keys = true.
Proof. exact multisig_complete. Qed.

Theorem C03_multisig_order_invariant :
  forall (chk : bytes -> bytes -> bool) sigs keys sigs' keys',
    (forall s k1 k2, In s sigs -> In k1 keys -> In k2 keys ->
                     chk s k1 = true -> chk s k2 = true -> k1 = k2) ->
    NoDup sigs -> NoDup keys ->
    Permutation sigs sigs' -> Permutation keys keys' ->
    ms_verdict chk sigs' keys' = ms_verdict chk sigs keys.
Proof. exact multisig_order_invariant. Qed.

(* the program computes the pure loop *)
Theorem C03_ms_find_pure :
  forall orc cfg run allowed (chk : bytes -> bytes -> bool) sig keys fr st rest,
  st_stack st = rest ->
  (forall k, In k keys -> chk_ok orc cfg run allowed chk rest sig k /\ pushable cfg rest sig k) ->
  interp orc cfg run (ms_find allowed sig keys) fr st = Done (pfind chk sig keys) fr st.
Proof.
  intros orc cfg run allowed chk sig keys fr st rest Hs H.
  apply (ms_find_pure_at orc cfg run allowed chk sig keys fr st rest Hs).
  intros k Hk. destruct (H k Hk) as [Hc Hp]. split; [apply chk_ok_chk_ok_at; exact Hc | exact Hp].
Qed.

Theorem C03_ms_go_pure :
  forall orc cfg run allowed (chk : bytes -> bytes -> bool) sigs keys confirmed fr st rest,
  st_stack st = rest ->
  (forall s k, In s sigs -> In k keys -> chk_ok orc cfg run allowed chk rest s k /\ pushable cfg rest s k) ->
  interp orc cfg run (ms_go allowed sigs keys confirmed) fr st = Done (pgo chk sigs keys confirmed) fr st.
Proof.
  intros orc cfg run allowed chk sigs keys confirmed fr st rest Hs H.
  apply (ms_go_pure_at orc cfg run allowed chk sigs keys confirmed fr st rest Hs), all_ok_at, H.
Qed.

(* the same with the premise required only at the states the loop visits (st with another stack) *)
Theorem C03_ms_go_pure_at :
  forall orc cfg run allowed (chk : bytes -> bytes -> bool) sigs keys confirmed fr st rest,
  st_stack st = rest ->
  (forall s k, In s sigs -> In k keys ->
     chk_ok_at orc cfg run allowed chk st rest s k /\ pushable cfg rest s k) ->
  interp orc cfg run (ms_go allowed sigs keys confirmed) fr st = Done (pgo chk sigs keys confirmed) fr st.
Proof. exact ms_go_pure_at. Qed.

Theorem C03_chk_ok_implies_at :
  forall orc cfg run allowed (chk : bytes -> bytes -> bool) st0 rest s k,
  chk_ok orc cfg run allowed chk rest s k -> chk_ok_at orc cfg run allowed chk st0 rest s k.
Proof. exact chk_ok_chk_ok_at. Qed.

(* the instruction after its three operand bytes: keys are the n items on top, sigs the next m *)
Theorem C03_check_multisig_core :
  forall orc cfg run allowed (chk : bytes -> bytes -> bool) n m keys sigs rest fr st,
  st_stack st = keys ++ sigs ++ rest ->
  List.length keys = n -> List.length sigs = m ->
  (forall s k, In s sigs -> In k keys -> chk_ok orc cfg run allowed chk rest s k /\ pushable cfg rest s k) ->
  (List.length rest < c_max_items cfg)%nat /\ (1 <= c_max_item_size cfg)%nat ->
  interp orc cfg run
    (vkeys <- repeat_get n ;; sgs <- repeat_get m ;;
     confirmed <- ms_go allowed sgs vkeys [] ;;
     put_bool (Nat.eqb (List.length confirmed) (List.length sgs))) fr st
  = Done tt fr (with_stack st (boolb (ms_verdict chk sigs keys) :: rest)).
Proof.
  intros orc cfg run allowed chk n m keys sigs rest fr st Hs Hn Hm H Hr.
  apply (check_multisig_core_at orc cfg run allowed chk n m keys sigs rest fr st Hs Hn Hm); [apply all_ok_at, H | exact Hr].
Qed.

Theorem C03_check_multisig_core_at :
  forall orc cfg run allowed (chk : bytes -> bytes -> bool) n m keys sigs rest fr st,
  st_stack st = keys ++ sigs ++ rest ->
  List.length keys = n -> List.length sigs = m ->
  (forall s k, In s sigs -> In k keys ->
     chk_ok_at orc cfg run allowed chk st rest s k /\ pushable cfg rest s k) ->
  (List.length rest < c_max_items cfg)%nat /\ (1 <= c_max_item_size cfg)%nat ->
  interp orc cfg run
    (vkeys <- repeat_get n ;; sgs <- repeat_get m ;;
     confirmed <- ms_go allowed sgs vkeys [] ;;
     put_bool (Nat.eqb (List.length confirmed) (List.length sgs))) fr st
  = Done tt fr (with_stack st (boolb (ms_verdict chk sigs keys) :: rest)).
Proof. exact check_multisig_core_at. Qed.

(* the whole instruction: run_sig_ext (log events only), the three operand bytes, then the core *)
Theorem C03_check_multisig_full :
  forall orc cfg run allowed (chk : bytes -> bytes -> bool) a mb nb tl keys sigs rest fr st,
  data_at fr st = a :: mb :: nb :: tl ->
  be_to_Z [a] = allowed ->
  st_stack st = keys ++ sigs ++ rest ->
  List.length keys = nat_of (be_to_Z [nb]) -> List.length sigs = nat_of (be_to_Z [mb]) ->
  (forall s k, In s sigs -> In k keys -> chk_ok orc cfg run allowed chk rest s k /\ pushable cfg rest s k) ->
  (List.length rest < c_max_items cfg)%nat /\ (1 <= c_max_item_size cfg)%nat ->
  interp orc cfg run OP_CHECK_MULTISIG fr st
  = Done tt (adv (adv (adv fr 1) 1) 1)
         (with_stack (sigext_log cfg st) (boolb (ms_verdict chk sigs keys) :: rest)).
Proof.
  intros orc cfg run allowed chk a mb nb tl keys sigs rest fr st Hd Ha Hs Hn Hm H Hr.
  apply (check_multisig_full_at orc cfg run allowed chk a mb nb tl keys sigs rest fr st Hd Ha Hs Hn Hm);
    [apply all_ok_at, H | exact Hr].
Qed.

(* the premise holds for the real check on well-formed operands, with chk := real_chk orc cache *)
Theorem C03_chk_ok_at_real :
  forall orc cfg run allowed st0 rest s k m x,
  (blen k = 32)%Z -> (blen s = 64 \/ blen s = 65)%Z ->
  flags_permitted (sig_flag s) allowed = true ->
  msg_of (sig_flag s) (st_cache st0) = Some m ->
  (List.length m <= c_max_item_size cfg)%nat -> (1 <= c_max_item_size cfg)%nat ->
  (List.length rest < c_max_items cfg)%nat ->
  orc PVerify [k; m; firstn 64 s] = OOk [x] ->
  chk_ok_at orc cfg run allowed (real_chk orc (st_cache st0)) st0 rest s k.
Proof. exact chk_ok_at_real. Qed.

(* end to end, no abstract premise: OP_CHECK_MULTISIG on well-formed operands pushes the pure verdict *)
Theorem C03_check_multisig_real :
  forall orc cfg run a mb nb tl keys sigs rest fr st,
  data_at fr st = a :: mb :: nb :: tl ->
  st_stack st = keys ++ sigs ++ rest ->
  List.length keys = nat_of (be_to_Z [nb]) -> List.length sigs = nat_of (be_to_Z [mb]) ->
  (forall s k, In s sigs -> In k keys ->
     (blen k = 32)%Z /\ (blen s = 64 \/ blen s = 65)%Z /\
     flags_permitted (sig_flag s) (be_to_Z [a]) = true /\
     exists m x, msg_of (sig_flag s) (st_cache st) = Some m /\
                 (List.length m <= c_max_item_size cfg)%nat /\
                 orc PVerify [k; m; firstn 64 s] = OOk [x]) ->
  (65 <= c_max_item_size cfg)%nat -> (List.length rest + 2 <= c_max_items cfg)%nat ->
  interp orc cfg run OP_CHECK_MULTISIG fr st
  = Done tt (adv (adv (adv fr 1) 1) 1)
         (with_stack (sigext_log cfg st)
                     (boolb (ms_verdict (real_chk orc (st_cache st)) sigs keys) :: rest)).
Proof. exact check_multisig_real. Qed.

(* the pure theorems, stated about the byte the instruction pushes *)

(* a pushed xff means pairwise different signatures, each valid under a different POSITION of the key list *)
Theorem C03_true_sound :
  forall orc cfg run allowed (chk : bytes -> bytes -> bool) n m keys sigs rest fr st fr' st',
  st_stack st = keys ++ sigs ++ rest ->
  List.length keys = n -> List.length sigs = m ->
  (forall s k, In s sigs -> In k keys -> chk_ok orc cfg run allowed chk rest s k /\ pushable cfg rest s k) ->
  (List.length rest < c_max_items cfg)%nat /\ (1 <= c_max_item_size cfg)%nat ->
  interp orc cfg run (multisig_tail allowed n m) fr st = Done tt fr' st' ->
  st_stack st' = [xff] :: rest ->
  NoDup sigs /\
  exists ks unused, List.length ks = List.length sigs /\
                    Forall2 (fun s k => chk s k = true) sigs ks /\
                    Permutation keys (ks ++ unused).
Proof.
  intros orc cfg run allowed chk n m keys sigs rest fr st fr' st' Hs Hn Hm H Hr.
  apply (check_multisig_true_sound_at orc cfg run allowed chk n m keys sigs rest st Hs Hn Hm
           (all_ok_at orc cfg run allowed chk st keys sigs rest H) Hr).
Qed.

Theorem C03_true_sigs_le_keys :
  forall orc cfg run allowed (chk : bytes -> bytes -> bool) n m keys sigs rest fr st fr' st',
  st_stack st = keys ++ sigs ++ rest ->
  List.length keys = n -> List.length sigs = m ->
  (forall s k, In s sigs -> In k keys -> chk_ok orc cfg run allowed chk rest s k /\ pushable cfg rest s k) ->
  (List.length rest < c_max_items cfg)%nat /\ (1 <= c_max_item_size cfg)%nat ->
  interp orc cfg run (multisig_tail allowed n m) fr st = Done tt fr' st' ->
  st_stack st' = [xff] :: rest ->
  m <= n.
Proof.
  intros orc cfg run allowed chk n m keys sigs rest fr st fr' st' Hs Hn Hm H Hr.
  apply (check_multisig_true_sigs_le_keys_at orc cfg run allowed chk n m keys sigs rest st Hs Hn Hm
           (all_ok_at orc cfg run allowed chk st keys sigs rest H) Hr).
Qed.

(* a repeated signature makes the instruction push x00 *)
Theorem C03_repeated_sig_false :
  forall orc cfg run allowed (chk : bytes -> bytes -> bool) n m keys sigs rest fr st,
  st_stack st = keys ++ sigs ++ rest ->
  List.length keys = n -> List.length sigs = m ->
  (forall s k, In s sigs -> In k keys -> chk_ok orc cfg run allowed chk rest s k /\ pushable cfg rest s k) ->
  (List.length rest < c_max_items cfg)%nat /\ (1 <= c_max_item_size cfg)%nat ->
  ~ NoDup sigs ->
  interp orc cfg run (multisig_tail allowed n m) fr st = Done tt fr (with_stack st ([x00] :: rest)).
Proof.
  intros orc cfg run allowed chk n m keys sigs rest fr st Hs Hn Hm H Hr.
  apply (check_multisig_repeated_sig_false_at orc cfg run allowed chk n m keys sigs rest st Hs Hn Hm
           (all_ok_at orc cfg run allowed chk st keys sigs rest H) Hr).
Qed.

(* under exclusivity and NoDup, permuting keys and signatures on the stack does not change the pushed byte *)
Theorem C03_order_invariant :
  forall orc cfg run allowed (chk : bytes -> bytes -> bool) n m keys sigs keys' sigs' rest fr st fr2 st2,
  st_stack st = keys ++ sigs ++ rest ->
  st_stack st2 = keys' ++ sigs' ++ rest ->
  List.length keys = n -> List.length sigs = m ->
  (forall s k, In s sigs -> In k keys -> chk_ok orc cfg run allowed chk rest s k /\ pushable cfg rest s k) ->
  (List.length rest < c_max_items cfg)%nat /\ (1 <= c_max_item_size cfg)%nat ->
  (forall s k1 k2, In s sigs -> In k1 keys -> In k2 keys ->
                   chk s k1 = true -> chk s k2 = true -> k1 = k2) ->
  NoDup sigs -> NoDup keys ->
  Permutation sigs sigs' -> Permutation keys keys' ->
  exists v,
    interp orc cfg run (multisig_tail allowed n m) fr st = Done tt fr (with_stack st (v :: rest)) /\
    interp orc cfg run (multisig_tail allowed n m) fr2 st2 = Done tt fr2 (with_stack st2 (v :: rest)).
Proof.
  intros orc cfg run allowed chk n m keys sigs keys' sigs' rest fr st fr2 st2 Hs Hs2 Hn Hm H Hr excl NDs NDk.
  apply (check_multisig_order_invariant_at orc cfg run allowed chk n m keys sigs rest st Hs Hn Hm
           (all_ok_at orc cfg run allowed chk st keys sigs rest H) Hr excl NDs NDk keys' sigs' fr fr2 st2 Hs2
           (all_ok_at orc cfg run allowed chk st2 keys sigs rest H)).
Qed.

(* under the premises of completeness the instruction pushes xff *)
Theorem C03_complete :
  forall orc cfg run allowed (chk : bytes -> bytes -> bool) n m keys sigs rest fr st,
  st_stack st = keys ++ sigs ++ rest ->
  List.length keys = n -> List.length sigs = m ->
  (forall s k, In s sigs -> In k keys -> chk_ok orc cfg run allowed chk rest s k /\ pushable cfg rest s k) ->
  (List.length rest < c_max_items cfg)%nat /\ (1 <= c_max_item_size cfg)%nat ->
  (forall s k1 k2, In s sigs -> In k1 keys -> In k2 keys ->
                   chk s k1 = true -> chk s k2 = true -> k1 = k2) ->
  NoDup sigs -> NoDup keys ->
  (forall s, In s sigs -> exists k, In k keys /\ chk s k = true) ->
  (forall s1 s2 k, In s1 sigs -> In s2 sigs -> In k keys ->
                   chk s1 k = true -> chk s2 k = true -> s1 = s2) ->
  interp orc cfg run (multisig_tail allowed n m) fr st = Done tt fr (with_stack st ([xff] :: rest)).
Proof.
  intros orc cfg run allowed chk n m keys sigs rest fr st Hs Hn Hm H Hr excl NDs NDk.
  apply (check_multisig_complete_at orc cfg run allowed chk n m keys sigs rest st Hs Hn Hm
           (all_ok_at orc cfg run allowed chk st keys sigs rest H) Hr NDs).
Qed.

(* pure loop: 2-of-3 passes in either order; a repeated signature fails even if the key occurs twice *)
Example C03_example_pure :
  ms_verdict chk_eq [[x01]; [x03]] [[x01]; [x02]; [x03]] = true /\
  ms_verdict chk_eq [[x03]; [x01]] [[x01]; [x02]; [x03]] = true /\
  ms_verdict chk_eq [[x01]; [x01]] [[x01]; [x01]; [x03]] = false.
Proof. repeat split; reflexivity. Qed.

(* the instruction itself, run by the model interpreter on a toy oracle ("a signature verifies under the
   key with the same first byte"), 32-byte keys, 64-byte signatures, operands allowed=xff m=2 n=3 *)
Definition ex_orc : oracle := fun p args =>
  match p, args with
  | PVerify, [k; _; s] => OOk [[if Byte.eqb (hd x00 k) (hd x00 s) then x01 else x00]]
  | _, _ => OOk []
  end.
Definition ex_cfg : config :=
  {| c_max_items := 100; c_max_item_size := 100; c_limit := 64%Z; c_flags := []; c_sigext := [7];
     c_ctplugins := []; c_contracts := []; c_now := 0%Z |}.
Definition ex_run : nat -> state -> outcome unit := fun _ _ => OutOfFuel.
Definition ex_key (b : byte) : bytes := repeat b 32.
Definition ex_sig (b : byte) : bytes := repeat b 64.
Definition ex_state (sigs : list bytes) : state :=
  {| st_stack := [ex_key x01; ex_key x02; ex_key x03] ++ sigs ++ [[x2a]]; st_cache := [];
     st_tapes := [{| to_data := [xff; x02; x03]; to_count := 0%Z; to_defs := 0 |}];
     st_defs := [[]]; st_log := []; st_rand := 0%Z |}.
Definition ex_result (sigs : list bytes) : option (nat * list bytes * list event) :=
  match interp ex_orc ex_cfg ex_run OP_CHECK_MULTISIG {| fr_tid := 0; fr_ptr := 0 |} (ex_state sigs) with
  | Done _ fr st => Some (fr_ptr fr, st_stack st, st_log st)
  | _ => None
  end.

Example C03_example_runs :
  ex_result [ex_sig x01; ex_sig x03] = Some (3, [[xff]; [x2a]], [EvSigExt 7]) /\
  ex_result [ex_sig x03; ex_sig x01] = Some (3, [[xff]; [x2a]], [EvSigExt 7]) /\
  ex_result [ex_sig x01; ex_sig x01] = Some (3, [[x00]; [x2a]], [EvSigExt 7]) /\
  ex_result [ex_sig x01; ex_sig x04] = Some (3, [[x00]; [x2a]], [EvSigExt 7]).
Proof. vm_compute. repeat split; reflexivity. Qed.

(* ... and the end-to-end theorem predicts the same byte for the first run *)
Example C03_example_real_chk :
  boolb (ms_verdict (real_chk ex_orc []) [ex_sig x01; ex_sig x03] [ex_key x01; ex_key x02; ex_key x03]) = [xff].
Proof. vm_compute. reflexivity. Qed.

Print Assumptions C03_multisig_sound.
Print Assumptions C03_multisig_sigs_le_keys.
Print Assumptions C03_multisig_repeated_sig_fails.
Print Assumptions C03_multisig_distinct_signers.
Print Assumptions C03_multisig_complete.
Print Assumptions C03_multisig_order_invariant.
Print Assumptions C03_ms_find_pure.
Print Assumptions C03_ms_go_pure.
Print Assumptions C03_ms_go_pure_at.
Print Assumptions C03_chk_ok_implies_at.
Print Assumptions C03_check_multisig_core.
Print Assumptions C03_check_multisig_core_at.
Print Assumptions C03_check_multisig_full.
Print Assumptions C03_chk_ok_at_real.
Print Assumptions C03_check_multisig_real.
Print Assumptions C03_true_sound.
Print Assumptions C03_true_sigs_le_keys.
Print Assumptions C03_repeated_sig_false.
Print Assumptions C03_order_invariant.
Print Assumptions C03_complete.
Print Assumptions C03_example_pure.
Print Assumptions C03_example_runs.
Print Assumptions C03_example_real_chk.
