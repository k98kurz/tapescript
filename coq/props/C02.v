(* C02 — Signature instructions verify exactly the flag-selected message.
   Ed25519 itself is an oracle (PVerify / PSign answered by PyNaCl in the correspondence run); the theorems
   pin down WHICH bytes are handed to it and every error case. "A change to a covered field makes the check
   fail" is unforgeability and is not provable; it is exercised with real Ed25519 by the correspondence stream. *)
From Coq Require Import ZArith List Bool.
From Coq.Strings Require Import Byte String.
From TS Require Import Bytes State Prog Ops Interp SigSpec.
Import ListNotations.
Open Scope Z_scope.

(* the message = concatenation in index order of the present sigfields whose flag bit is clear *)
Theorem C02_message_is_documented_concatenation :
  forall flag c, fields_ok flag c fields18 -> msg_of flag c = Some (msg_doc flag c).
Proof. intros flag c H. exact (msg_pure_doc fields18 flag c [] H). Qed.

Theorem C02_get_message_exact :
  forall orc cfg run flag fr st,
  interp orc cfg run (get_message_core flag) fr st =
    match msg_of flag (st_cache st) with Some m => Done m fr st | None => Raised TypeError fr st end.
Proof. exact get_message_core_spec. Qed.

Theorem C02_excluded_fields_irrelevant :
  forall flag c1 c2,
  (forall i, In i fields18 -> Z.testbit flag (i - 1) = false ->
     cache_get c1 (sigfield_key i) = cache_get c2 (sigfield_key i)) ->
  msg_of flag c1 = msg_of flag c2.
Proof. exact excluded_fields_irrelevant. Qed.

(* the eight bit tests are exactly "flag byte is a subset of the allowed-flags operand", for every pair of bytes *)
Theorem C02_flags_permitted_is_subset :
  forall f a, 0 <= f < 256 -> 0 <= a < 256 -> flags_permitted f a = (Z.land f (255 - a) =? 0).
Proof. exact flags_permitted_subset. Qed.

(* total case analysis of the check on stack (key :: sig :: rest) *)
Theorem C02_check_sig_exact :
  forall orc cfg run allowed fr st vkey sig rest,
  st_stack st = vkey :: sig :: rest ->
  interp orc cfg run (check_sig_body allowed) fr st =
    let st0 := with_stack st rest in
    if negb (blen vkey =? 32) then Raised ValueError fr st0
    else if negb ((blen sig =? 64) || (blen sig =? 65)) then Raised ValueError fr st0
    else if negb (flags_permitted (sig_flag sig) allowed) then Raised ScriptExecutionError fr st0
    else match msg_of (sig_flag sig) (st_cache st) with
         | None => Raised TypeError fr st0
         | Some m =>
           if (c_max_item_size cfg <? List.length m)%nat || (c_max_items cfg <=? List.length rest)%nat
           then Raised ScriptExecutionError fr st0
           else match orc PVerify [vkey; m; firstn 64 sig] with
                | OErr e => Raised e fr st0
                | OOk [x] =>
                  if (c_max_item_size cfg <? 1)%nat then Raised ScriptExecutionError fr st0
                  else Done tt fr (with_stack st ((if bytes_to_bool x then [xff] else [x00]) :: rest))
                | OOk _ => Unmodelled "oracle arity"
                end
         end.
Proof. exact check_sig_body_exact. Qed.

Theorem C02_true_only_if :
  forall orc cfg run allowed fr st vkey sig rest fr' st',
  st_stack st = vkey :: sig :: rest ->
  interp orc cfg run (check_sig_body allowed) fr st = Done tt fr' st' ->
  st_stack st' = [xff] :: rest ->
  blen vkey = 32 /\ (blen sig = 64 \/ blen sig = 65) /\ flags_permitted (sig_flag sig) allowed = true /\
  exists m x, msg_of (sig_flag sig) (st_cache st) = Some m /\
              orc PVerify [vkey; m; firstn 64 sig] = OOk [x] /\ bytes_to_bool x = true.
Proof. exact check_sig_true_only_if. Qed.

(* non-vacuity: a cache with fields 1 and 3, flag byte 4 (exclude field 3) *)
Example C02_example :
  let c := [(sigfield_key 1, VOne (ABytes [x61])); (sigfield_key 3, VOne (ABytes [x62]))] in
  msg_of 4 c = Some [x61] /\ msg_of 0 c = Some [x61; x62] /\ fields_ok 0 c fields18.
Proof.
  split; [reflexivity|]. split; [reflexivity|].
  intros i Hi _. simpl in Hi. repeat (destruct Hi as [<-|Hi]; [vm_compute; exact I|]). contradiction.
Qed.

Print Assumptions C02_message_is_documented_concatenation.
Print Assumptions C02_get_message_exact.
Print Assumptions C02_excluded_fields_irrelevant.
Print Assumptions C02_flags_permitted_is_subset.
Print Assumptions C02_check_sig_exact.
Print Assumptions C02_true_only_if.
