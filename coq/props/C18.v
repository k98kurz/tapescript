(* C18 — anonymous multi-hop locks (tapescript/AMHL.py, tools.release_left_amhl_lock) are
   algebraically correct, for every commutative ring of scalars acting on an abelian group of
   points, every base point G and every challenge function.  Each theorem is closed: the laws
   it needs appear as explicit premises.  Proofs are in proofs/Algebra.v. *)
From Coq Require Import ZArith List Ring Ring_theory.
From TS Require Import Algebra.
From TS Require AMHL AMHLLink AMHLSamples.
Import ListNotations.

(* the definitions the statements are about *)
(* AMHL.setup: Y_0 = y_0 G ; Y_i = Y_{i-1} + y_i G *)
Example C18_def_Y_list : forall (scalar point : Type) (padd : point -> point -> point)
    (act : scalar -> point -> point) (G : point),
  Y_list padd act G [] = [] /\
  (forall y0 ys, Y_list padd act G (y0 :: ys) = act y0 G :: Y_from padd act G (act y0 G) ys) /\
  (forall prev, Y_from padd act G prev [] = []) /\
  (forall prev y ys, Y_from padd act G prev (y :: ys) =
     padd prev (act y G) :: Y_from padd act G (padd prev (act y G)) ys).
Proof. intros. repeat split. Qed.
(* AMHL.scalar_sum: scalars[0], then add the rest left to right *)
Example C18_def_sums : forall (scalar : Type) (s0 : scalar) (sadd : scalar -> scalar -> scalar),
  scalar_sum s0 sadd [] = s0 /\
  (forall y ys, scalar_sum s0 sadd (y :: ys) = fold_left sadd ys y) /\
  (forall ys i, prefix_sum s0 sadd ys i = scalar_sum s0 sadd (firstn (S i) ys)) /\
  (forall ys, total s0 sadd ys = scalar_sum s0 sadd ys).
Proof. intros. repeat split. Qed.
Example C18_def_locks : forall (scalar point : Type) (ssub : scalar -> scalar -> scalar)
    (padd : point -> point -> point) (act : scalar -> point -> point) (G : point),
  (forall Yl yi Yr, check_setup padd act G Yl yi Yr = (padd Yl (act yi G) = Yr)) /\
  (forall k y, release ssub k y = ssub k y) /\
  (forall L k, verify_lock_key act G L k = (L = act k G)) /\
  (forall sa s y, release_left ssub sa s y = ssub (ssub s sa) y).
Proof. intros. repeat split. Qed.

(* 8. Y_i = (y_0 + ... + y_i) G *)
Theorem C18_amhl_points :
  forall (scalar : Type) (s0 : scalar) (sadd : scalar -> scalar -> scalar)
      (point : Type) (p0 : point) (padd : point -> point -> point)
      (act : scalar -> point -> point),
    (forall (a b : scalar) (P : point), act (sadd a b) P = padd (act a P) (act b P)) ->
    forall (G : point) (ys : list scalar) (i : nat),
    i < length ys -> nth i (Y_list padd act G ys) p0 = act (prefix_sum s0 sadd ys i) G.
Proof. exact amhl_points. Qed.

(* 9. AMHL.check_setup holds for every intermediate user *)
Theorem C18_amhl_check_setup :
  forall (scalar : Type) (s0 : scalar) (sadd : scalar -> scalar -> scalar)
      (point : Type) (p0 : point) (padd : point -> point -> point)
      (act : scalar -> point -> point),
    (forall (a b : scalar) (P : point), act (sadd a b) P = padd (act a P) (act b P)) ->
    forall (G : point) (ys : list scalar) (i : nat),
    0 < i < length ys ->
    check_setup padd act G (nth (i - 1) (Y_list padd act G ys) p0) (nth i ys s0)
      (nth i (Y_list padd act G ys) p0).
Proof. exact amhl_check_setup. Qed.

(* 10. the sum of all y opens the last lock *)
Theorem C18_amhl_final_key :
  forall (scalar : Type) (s0 : scalar) (sadd : scalar -> scalar -> scalar)
      (point : Type) (p0 : point) (padd : point -> point -> point)
      (act : scalar -> point -> point),
    (forall (a b : scalar) (P : point), act (sadd a b) P = padd (act a P) (act b P)) ->
    forall (G : point) (ys : list scalar),
    ys <> [] -> verify_lock_key act G (last (Y_list padd act G ys) p0) (total s0 sadd ys).
Proof. exact amhl_final_key. Qed.

(* 11. releasing: key_i - y_i = key_{i-1}, and it opens lock i-1 *)
Theorem C18_amhl_release :
  forall (scalar : Type) (s0 s1 : scalar) (sadd smul ssub : scalar -> scalar -> scalar)
      (sopp : scalar -> scalar),
    ring_theory s0 s1 sadd smul ssub sopp eq ->
    forall (point : Type) (p0 : point) (padd : point -> point -> point)
      (act : scalar -> point -> point),
    (forall (a b : scalar) (P : point), act (sadd a b) P = padd (act a P) (act b P)) ->
    forall (G : point) (ys : list scalar) (i : nat),
    0 < i < length ys ->
    release ssub (prefix_sum s0 sadd ys i) (nth i ys s0) = prefix_sum s0 sadd ys (i - 1) /\
    verify_lock_key act G (nth (i - 1) (Y_list padd act G ys) p0)
      (release ssub (prefix_sum s0 sadd ys i) (nth i ys s0)).
Proof. exact amhl_release. Qed.

(* 12. the cascade through adapter signatures *)
Theorem C18_amhl_cascade :
  forall (scalar : Type) (s0 s1 : scalar) (sadd smul ssub : scalar -> scalar -> scalar)
      (sopp : scalar -> scalar),
    ring_theory s0 s1 sadd smul ssub sopp eq ->
    forall (point : Type) (p0 : point) (padd : point -> point -> point),
    (forall P Q : point, padd P Q = padd Q P) ->
    (forall P Q R : point, padd P (padd Q R) = padd (padd P Q) R) ->
    forall act : scalar -> point -> point,
    (forall (a b : scalar) (P : point), act (sadd a b) P = padd (act a P) (act b P)) ->
    (forall (a b : scalar) (P : point), act (smul a b) P = act a (act b P)) ->
    forall (G : point) (msg : Type) (chal : point -> point -> msg -> scalar)
      (ys : list scalar) (i : nat),
    0 < i < length ys ->
    forall (x r : scalar) (m : msg) (x' r' : scalar) (m' : msg),
    let Ti := nth i (Y_list padd act G ys) p0 in
    let Tl := nth (i - 1) (Y_list padd act G ys) p0 in
    let ad_i := make_adapter_public sadd smul padd act G chal x r Ti m in
    let dec_i := decrypt_adapter sadd padd act G (prefix_sum s0 sadd ys i) (fst ad_i) (snd ad_i)
      in
    let k := release_left ssub (snd ad_i) (snd dec_i) (nth i ys s0) in
    let ad_l := make_adapter_public sadd smul padd act G chal x' r' Tl m' in
    let dec_l := decrypt_adapter sadd padd act G k (fst ad_l) (snd ad_l) in
    sig_valid padd act G chal (pub act G x) m (fst dec_i) (snd dec_i) /\
    k = prefix_sum s0 sadd ys (i - 1) /\
    verify_lock_key act G Tl k /\
    sig_valid padd act G chal (pub act G x') m' (fst dec_l) (snd dec_l).
Proof. exact amhl_cascade. Qed.

(* 13. k opens lock i iff k G = (y_0 + ... + y_i) G *)
Theorem C18_amhl_wrong_hop_iff :
  forall (scalar : Type) (s0 : scalar) (sadd : scalar -> scalar -> scalar)
      (point : Type) (p0 : point) (padd : point -> point -> point)
      (act : scalar -> point -> point),
    (forall (a b : scalar) (P : point), act (sadd a b) P = padd (act a P) (act b P)) ->
    forall (G : point) (ys : list scalar) (i : nat) (k : scalar),
    i < length ys ->
    verify_lock_key act G (nth i (Y_list padd act G ys) p0) k <->
    act k G = act (prefix_sum s0 sadd ys i) G.
Proof. exact amhl_wrong_hop_iff. Qed.

(* non-vacuity: scalar = point = Z, a . P = a * P, G = 1, chal R X m = R + 2 X + m *)
Local Open Scope Z_scope.

Example C18_amhl_points_Z : forall (ys : list Z) (i : nat), (i < length ys)%nat ->
  nth i (Y_listZ ys) 0 = prefix_sumZ ys i * 1.
Proof. exact amhl_points_Z. Qed.

Example C18_amhl_cascade_Z : forall (ys : list Z) (i : nat), (0 < i < length ys)%nat ->
  forall x r m x' r' m' : Z,
  let Ti := nth i (Y_listZ ys) 0 in
  let Tl := nth (i - 1) (Y_listZ ys) 0 in
  let ad_i := make_pubZ x r Ti m in
  let dec_i := decryptZ (prefix_sumZ ys i) (fst ad_i) (snd ad_i) in
  let k := release_left Z.sub (snd ad_i) (snd dec_i) (nth i ys 0) in
  let ad_l := make_pubZ x' r' Tl m' in
  let dec_l := decryptZ k (fst ad_l) (snd ad_l) in
  sig_validZ (pubZ x) m (fst dec_i) (snd dec_i) /\
  k = prefix_sumZ ys (i - 1) /\
  verify_lock_keyZ Tl k /\
  sig_validZ (pubZ x') m' (fst dec_l) (snd dec_l).
Proof. exact amhl_cascade_Z. Qed.

Example C18_amhl_concrete_Z :
  Y_listZ [3; 4; 5] = [3; 7; 12] /\ totalZ [3; 4; 5] = 12 /\
  release Z.sub (prefix_sumZ [3; 4; 5] 2) 5 = 7 /\ verify_lock_keyZ 7 7 /\ ~ verify_lock_keyZ 7 12.
Proof. exact amhl_concrete_Z. Qed.

(* The AMHL class itself (model/AMHL.v, tied to tapescript/AMHL.py by the AMHL / AMHLKEY / AMHLREL
   correspondence) computes the algebra above (proofs/AMHLLink.v).
   For every scalar ring / point group / encodings / hash and every oracle answering the ed25519 primitives accordingly
   (byte strings "represent" scalars through an arbitrary relation srep, as libsodium reduces its inputs). *)
Definition C18_setup_computes_prefix_sum_points := @AMHLLink.amhl_setup_computes.
Definition C18_every_view_passes_check_setup := @AMHLLink.amhl_check_setup_ok.
Definition C18_views_spelled_out := @AMHLLink.amhl_check_setup_cases.
Definition C18_final_key_opens_last_lock := @AMHLLink.amhl_final_key_ok.
Definition C18_release_computes := @AMHLLink.amhl_release_computes.
Definition C18_release_left_computes := @AMHLLink.amhl_release_left_computes.
Definition C18_release_chain := @AMHLLink.amhl_release_chain.
Definition C18_cascade_chain := @AMHLLink.amhl_cascade_chain.
Check C18_setup_computes_prefix_sum_points.
Check C18_every_view_passes_check_setup.
Check C18_final_key_opens_last_lock.
Check C18_release_left_computes.
Check C18_release_chain.
Check C18_cascade_chain.
(* the secrets of a chain are a function of (seed, index): exactly n of them, the i-th is sample(seed, i), and a shorter chain from
   the same seed has the first n secrets of a longer one -- for every oracle (no memory between set-ups) *)
Definition C18_samples_exactly_n := @AMHLSamples.samples_length.
Definition C18_samples_ith_is_sample_of_seed_and_index := @AMHLSamples.samples_nth.
Definition C18_shorter_chain_same_seed_is_prefix := @AMHLSamples.samples_prefix.
Definition C18_setup_hands_out_n_secrets_and_n_points := @AMHLSamples.setup_lengths.
Check C18_samples_exactly_n.
Check C18_shorter_chain_same_seed_is_prefix.
(* non-vacuity: all hypotheses hold in a five-element field, with a concrete run for n = 3 *)
Definition C18_link_hypotheses_satisfiable := (AMHLLink.F5_setup_computes, AMHLLink.F5_check_setup_ok, AMHLLink.F5_final_key_ok, AMHLLink.F5_release_chain, AMHLLink.F5_cascade_chain, AMHLLink.F5_concrete_run).

Print Assumptions C18_setup_computes_prefix_sum_points.
Print Assumptions C18_every_view_passes_check_setup.
Print Assumptions C18_views_spelled_out.
Print Assumptions C18_final_key_opens_last_lock.
Print Assumptions C18_release_computes.
Print Assumptions C18_release_left_computes.
Print Assumptions C18_release_chain.
Print Assumptions C18_cascade_chain.
Print Assumptions C18_link_hypotheses_satisfiable.
Print Assumptions C18_amhl_points.
Print Assumptions C18_amhl_check_setup.
Print Assumptions C18_amhl_final_key.
Print Assumptions C18_amhl_release.
Print Assumptions C18_amhl_cascade.
Print Assumptions C18_amhl_wrong_hop_iff.
Print Assumptions C18_amhl_points_Z.
Print Assumptions C18_amhl_cascade_Z.
Print Assumptions C18_amhl_concrete_Z.
Print Assumptions C18_samples_exactly_n.
Print Assumptions C18_samples_ith_is_sample_of_seed_and_index.
Print Assumptions C18_shorter_chain_same_seed_is_prefix.
Print Assumptions C18_setup_hands_out_n_secrets_and_n_points.
