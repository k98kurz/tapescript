(* C01 — Authorization verdict is exact; a witness cannot truncate or skip the lock.
   (1) the verdict characterised independently of the driver: True iff every script runs from its own first
   instruction to a normal end and the stack then is exactly [ff]; False in every other case; a raise never
   escapes. (2) what a later script inherits from earlier ones: stack, definitions, call count; of its
   cache only that the control flag is absent is stated. (3) the RETURN-flag discipline: in a run started with the control
   flag clear, EVERY instruction fetch at EVERY nesting level sees the flag clear and every raise happens with the
   flag clear; hence an IF/IF_ELSE/TRY body can end its script only through a RETURN executed inside that very
   body — nothing an earlier script or an earlier instruction did can make a later instruction be skipped. *)
From Coq Require Import ZArith List Bool.
From Coq.Strings Require Import Byte.
From TS Require Import Bytes State Prog Ops Interp StateLemmas AuthSpec StrKeys Limits Discipline.
From TS Require ReturnSemantics.
Import ListNotations.
Local Open Scope nat_scope.

Theorem C01_verdict_true_iff :
  forall orc cfg fuel s0 rest vals stf,
  run_auth_scripts orc cfg fuel (s0 :: rest) vals = AuthVerdict true stf <->
  exists fr st1 st2, run_script orc cfg fuel s0 vals = Done tt fr st1 /\ chain orc cfg fuel rest 0 st1 st2
                     /\ st_stack st2 = [[xff]] /\ stf = with_stack st2 [].
Proof. exact auth_true_iff. Qed.

Theorem C01_verdict_false_cases :
  forall orc cfg fuel s0 rest vals stf,
  run_auth_scripts orc cfg fuel (s0 :: rest) vals = AuthVerdict false stf ->
  (exists e fr st1, run_script orc cfg fuel s0 vals = Raised e fr st1) \/
  (exists fr st1, run_script orc cfg fuel s0 vals = Done tt fr st1 /\
     (chain_raises orc cfg fuel rest 0 st1 \/ exists st2, chain orc cfg fuel rest 0 st1 st2 /\ accepting st2 = false)).
Proof. exact auth_false_cases. Qed.

(* a later script is started on a fresh tape object holding exactly its bytes, at offset 0, with the control
   flag removed; stack, definitions and call count are inherited *)
Theorem C01_later_script_start :
  forall st prev s,
  let tid := fst (next_start st prev s) in
  let st' := snd (next_start st prev s) in
  to_data (nth_tape st' tid) = s /\
  to_count (nth_tape st' tid) = to_count (nth_tape st prev) /\
  to_defs (nth_tape st' tid) = to_defs (nth_tape st prev) /\
  st_stack st' = st_stack st /\ st_defs st' = st_defs st /\
  cache_get (st_cache st') returned_key = None.
Proof. exact next_start_spec. Qed.

(* the only outcomes: a verdict, or (model only) fuel exhausted / unmodelled primitive *)
Theorem C01_never_raises :
  forall orc cfg fuel scripts vals,
  match run_auth_scripts orc cfg fuel scripts vals with
  | AuthVerdict _ _ | AuthFuel | AuthUnmod _ => True
  end.
Proof. intros. destruct (run_auth_scripts orc cfg fuel scripts vals); exact I. Qed.

(* witness for D1: 'true return' followed by 'if { true } verify false' does not authorise *)
Example C01_return_does_not_leak :
  forall orc,
  let cfg := {| c_max_items := 1024; c_max_item_size := 1024; c_limit := 128%Z; c_flags := []; c_sigext := [];
                c_ctplugins := []; c_contracts := []; c_now := 0%Z |} in
  match run_auth_scripts orc cfg 50 [[x01; x30]; [x2b; x00; x01; x01; x20; x00]] [] with
  | AuthVerdict b _ => b = false
  | _ => False
  end.
Proof. intro orc. vm_compute. reflexivity. Qed.

(* every instruction (92 opcodes, NOP, unassigned codes) is typed by the discipline judgement *)
Theorem C01_every_instruction_disciplined :
  forall code, disc (dispatch code) M0 (fun _ m => final m).
Proof. exact dispatch_disc. Qed.

(* one activation of run_tape started with the flag clear: a raise leaves it clear; a normal end leaves it
   clear or the pointer at the end of the tape — for all programs, oracles, configurations, fuel, nestings *)
Theorem C01_run_tape_discipline :
  forall orc cfg fuel tid ptr st,
  flag_clear st ->
  match run_tape orc cfg fuel tid ptr st with
  | Done _ fr' st' => flag_clear st' \/ at_end fr' st'
  | Raised _ _ st' => flag_clear st'
  | _ => True
  end.
Proof. exact run_tape_discipline. Qed.

(* ... and the NEXT fetch again sees a clear flag: no stale RETURN can reach a later instruction *)
Theorem C01_every_fetch_sees_clear_flag :
  forall orc cfg f tid ptr st,
  flag_clear st -> ptr < List.length (to_data (nth_tape st tid)) ->
  match interp orc cfg (fun t s => run_tape orc cfg f t 0 s) (dispatch (code_at st tid ptr))
               {| fr_tid := tid; fr_ptr := S ptr |} st with
  | Done _ fr' st' =>
      fr_tid fr' = tid /\
      (fr_ptr fr' < List.length (to_data (nth_tape st' tid)) -> flag_clear st')
  | Raised _ _ st' => flag_clear st'
  | _ => True
  end.
Proof. intros orc cfg f tid ptr st Hc _. apply fetch_flag_clear, Hc. Qed.

(* every later script of run_auth_scripts starts with the flag clear, whatever the earlier scripts did *)
Theorem C01_later_scripts_start_clear :
  forall st prev s, flag_clear (next_script_state st prev s).
Proof. exact auth_scripts_start_clear. Qed.

Theorem C01_auth_discipline :
  forall orc cfg fuel scripts vals,
  cache_get (init_cache cfg vals) returned_key = None ->
  match scripts with
  | [] => True
  | s :: rest =>
    flag_clear (init_state cfg s vals) /\
    match run_script orc cfg fuel s vals with
    | Done _ fr' st' => (flag_clear st' \/ at_end fr' st') /\ auth_rest_disc orc cfg fuel rest 0 st'
    | Raised _ _ st' => flag_clear st'
    | _ => True
    end
  end.
Proof. exact run_auth_scripts_discipline. Qed.

Print Assumptions C01_verdict_true_iff.
Print Assumptions C01_every_instruction_disciplined.
Print Assumptions C01_run_tape_discipline.
Print Assumptions C01_every_fetch_sees_clear_flag.
Print Assumptions C01_later_scripts_start_clear.
Print Assumptions C01_auth_discipline.
Print Assumptions C01_verdict_false_cases.
Print Assumptions C01_later_script_start.
Print Assumptions C01_never_raises.

(* What OP_RETURN ends, exactly (proofs/ReturnSemantics.v; for every oracle, configuration and runner, hence at every nesting level).
   RETURN sets the control flag and moves the pointer of its own tape to the end.  IF / IF_ELSE / TRY_EXCEPT hand a RETURN of their body
   on: the enclosing tape ends too (pointer at its end, flag set) -- also when the RETURN happened in the EXCEPT body of a TRY whose body
   raised.  CALL, LOOP
   and EVAL (without eval_return) absorb it: flag cleared, execution goes on after the instruction.  Whole-script corollaries: whatever
   follows `true if { return }` or `try { false verify } except { return }` is never executed. *)
Definition C01_return_exact := @ReturnSemantics.op_return_exact.
Definition C01_if_hands_return_on := @ReturnSemantics.op_if_exact.
Definition C01_if_else_hands_return_on := @ReturnSemantics.op_if_else_exact.
Definition C01_try_except_hands_return_on := @ReturnSemantics.op_try_except_exact.
Definition C01_return_in_except_body_ends_the_script := @ReturnSemantics.op_try_except_returned.
Definition C01_call_absorbs_return := @ReturnSemantics.op_call_exact.
Definition C01_loop_absorbs_return := @ReturnSemantics.op_loop_absorbs.
Definition C01_eval_absorbs_or_hands_on := @ReturnSemantics.eval_body_exact.
Definition C01_nothing_after_if_return_runs := @ReturnSemantics.script_if_return_any_post.
Definition C01_nothing_after_try_except_return_runs := @ReturnSemantics.script_try_except_return_any_post.
Check C01_return_exact.
Check C01_try_except_hands_return_on.
Check C01_return_in_except_body_ends_the_script.
Check C01_nothing_after_try_except_return_runs.
Print ReturnSemantics.hand_on.
Print ReturnSemantics.after_body.
Print Assumptions C01_return_exact.
Print Assumptions C01_if_hands_return_on.
Print Assumptions C01_if_else_hands_return_on.
Print Assumptions C01_try_except_hands_return_on.
Print Assumptions C01_return_in_except_body_ends_the_script.
Print Assumptions C01_call_absorbs_return.
Print Assumptions C01_loop_absorbs_return.
Print Assumptions C01_eval_absorbs_or_hands_on.
Print Assumptions C01_nothing_after_if_return_runs.
Print Assumptions C01_nothing_after_try_except_return_runs.
