(* C13 — Lock / witness builder pairs: the authorisation verdict, exactly, at the level of the bytes the
   builders emit (model/Builders.v; tied to tapescript.tools by the correspondence run, command BLD).
   For every oracle, every cache [vals], every configuration with room and every fuel above an explicit
   constant:
     make_single_sig_lock / _witness:
        verdict True  <->  permitted flag /\ the oracle verifies (key, flag-selected message, sig[:64]);
     make_single_sig_lock2 / _witness2 (key committed by its SHAKE256-20 hash):
        verdict True  <->  shake256(pk, 20) = h  /\  the same signature condition;
     make_multisig_lock with m pushed signatures: the verdict is the greedy matching [ms_verdict] of C03
        over the real signature check, signatures and keys in REVERSE order of the builder arguments
        (the stack at OP_CHECK_MULTISIG is pk_n .. pk_1 sig_m .. sig_1, top first).
   Oracle errors (OErr) give verdict False; an answer of the wrong arity is outside the model (AuthUnmod) —
   both are explicit cases for the single-signature locks, and premises for the multisig lock. *)
From Coq Require Import ZArith List Bool.
From Coq.Strings Require Import Byte String.
From TS Require Import Bytes State Prog Ops Interp SigSpec MultisigPure MultisigLink BuilderSpec TapeSteps
  Builders BuilderSpecC13 BuilderSpecC13b TablesCheck.
From TS Require BuilderSpecC13c.
From TS Require BuilderSourcesProofs.
Import ListNotations.
Local Open Scope nat_scope.

Theorem C13_single_sig_bytes :
  forall (pk sig : bytes) (fl : byte),
    Builders.single_sig_lock pk fl = (x03 :: z2b (blen pk) :: pk) ++ [x23; fl] /\
    Builders.single_sig_witness sig = x03 :: z2b (blen sig) :: sig.
Proof. intros. split; [exact (single_sig_lock_bytes pk fl)|exact (single_sig_witness_bytes sig)]. Qed.

Theorem C13_single_sig2_bytes :
  forall (pk sig h : bytes) (fl : byte),
    Builders.single_sig_lock2 h fl = [x1d] ++ [x1f; x14] ++ (x03 :: z2b (blen h) :: h) ++ [x22] ++ [x23; fl] /\
    Builders.single_sig_witness2 sig pk = (x03 :: z2b (blen sig) :: sig) ++ (x03 :: z2b (blen pk) :: pk).
Proof.
  intros. split; [exact (single_sig_lock2_bytes h fl)|].
  rewrite single_sig_witness2_bytes. cbn [pushes_bytes flat_map]. rewrite app_nil_r. reflexivity.
Qed.

Theorem C13_multisig_bytes :
  forall (pks sigs : list bytes) (fl m : byte),
    Builders.multisig_lock pks fl m =
      flat_map (fun v => x03 :: z2b (blen v) :: v) pks ++ [x46; fl; m; z2b (Z.of_nat (List.length pks))] /\
    multisig_witness sigs = flat_map (fun v => x03 :: z2b (blen v) :: v) sigs.
Proof. intros. split; [exact (multisig_lock_bytes pks fl m)|exact (multisig_witness_bytes sigs)]. Qed.

Theorem C13_single_sig_exact :
  forall (orc : oracle) (cfg : config), 65 <= c_max_item_size cfg ->
  forall (f : nat) (pk sig : bytes) (fl : byte) (vals : cache),
  2 <= c_max_items cfg ->
  List.length pk = 32 -> (List.length sig = 64 \/ List.length sig = 65) ->
  match run_auth_scripts orc cfg (S (S (S f)))
          [Builders.single_sig_witness sig; Builders.single_sig_lock pk fl] vals with
  | AuthVerdict b _ => b = true <-> sig_accepts orc cfg pk sig (b2z fl) (init_cache cfg vals)
  | AuthFuel => False
  | AuthUnmod _ => exists m l, msg_of (sig_flag sig) (init_cache cfg vals) = Some m /\
                               orc PVerify [pk; m; firstn 64 sig] = OOk l /\ List.length l <> 1
  end.
Proof.
  intros orc cfg Hsize f pk sig fl vals Hitems. rewrite single_sig_lock_bytes, single_sig_witness_bytes.
  apply (single_sig_exact orc cfg Hsize Hitems).
Qed.

(* [sig_accepts], spelled out *)
Theorem C13_sig_accepts_meaning :
  forall (orc : oracle) (cfg : config) (pk sig : bytes) (allowed : Z) (c : cache),
  sig_accepts orc cfg pk sig allowed c <->
  (flags_permitted (sig_flag sig) allowed = true /\
   exists m x, msg_of (sig_flag sig) c = Some m /\ List.length m <= c_max_item_size cfg /\
               orc PVerify [pk; m; firstn 64 sig] = OOk [x] /\ bytes_to_bool x = true).
Proof. reflexivity. Qed.

Theorem C13_single_sig2_exact :
  forall (orc : oracle) (cfg : config), 65 <= c_max_item_size cfg ->
  forall (f : nat) (pk sig h : bytes) (fl : byte) (vals : cache),
  4 <= c_max_items cfg ->
  List.length pk = 32 -> (List.length sig = 64 \/ List.length sig = 65) -> List.length h = 20 ->
  match run_auth_scripts orc cfg (S (S (S (S (S (S f))))))
          [Builders.single_sig_witness2 sig pk; Builders.single_sig_lock2 h fl] vals with
  | AuthVerdict b _ =>
    b = true <-> (orc PShake256 [pk; [x14]] = OOk [h] /\
                  sig_accepts orc cfg pk sig (b2z fl) (init_cache cfg vals))
  | AuthFuel => False
  | AuthUnmod _ =>
    (exists l, orc PShake256 [pk; [x14]] = OOk l /\ List.length l <> 1) \/
    (orc PShake256 [pk; [x14]] = OOk [h] /\
     exists m l, msg_of (sig_flag sig) (init_cache cfg vals) = Some m /\
                 orc PVerify [pk; m; firstn 64 sig] = OOk l /\ List.length l <> 1)
  end.
Proof. exact single_sig2_exact. Qed.

Theorem C13_multisig_lock_exact :
  forall (orc : oracle) (cfg : config), 65 <= c_max_item_size cfg ->
  forall (f : nat) (pks sigs : list bytes) (fl m : byte) (vals : cache),
  List.length pks < 256 -> b2z m = Z.of_nat (List.length sigs) ->
  List.length pks + List.length sigs <= c_max_items cfg -> 2 <= c_max_items cfg ->
  (forall k, In k pks -> List.length k = 32) ->
  (forall s, In s sigs -> (List.length s = 64 \/ List.length s = 65) /\
                          flags_permitted (sig_flag s) (b2z fl) = true) ->
  (forall s k, In s sigs -> In k pks ->
     exists msg x, msg_of (sig_flag s) (init_cache cfg vals) = Some msg /\
                   List.length msg <= c_max_item_size cfg /\
                   orc PVerify [k; msg; firstn 64 s] = OOk [x]) ->
  match run_auth_scripts orc cfg (S (S (List.length sigs + List.length pks + f)))
          [multisig_witness sigs; Builders.multisig_lock pks fl m] vals with
  | AuthVerdict b _ =>
    b = true <-> ms_verdict (real_chk orc (init_cache cfg vals)) (rev sigs) (rev pks) = true
  | _ => False
  end.
Proof.
  intros orc cfg Hsize f pks sigs fl m vals Hn Hm Hit Hit2 Hk Hsg Hor.
  destruct (multisig_lock_exact orc cfg Hsize f pks sigs fl m vals Hn Hm Hit Hit2 Hk Hsg Hor) as [stf ->].
  reflexivity.
Qed.

(* [real_chk], spelled out: the oracle's verdict on (key, flag-selected message, first 64 signature bytes) *)
Theorem C13_real_chk_meaning :
  forall (orc : oracle) (c : cache) (s k : bytes),
  real_chk orc c s k =
    match msg_of (sig_flag s) c with
    | Some m => match orc PVerify [k; m; firstn 64 s] with OOk [x] => bytes_to_bool x | _ => false end
    | None => false
    end.
Proof. reflexivity. Qed.

(* the premises are satisfiable; one concrete instance of each pair *)

(* [toy] (BuilderSpecC13): PVerify -> OOk [[x01]], PShake256 -> OOk [repeat x07 20], anything else -> OErr;
   [toy_cfg] := default_config 1000 (generated from the live package); [verdict_of] projects the verdict *)

Example C13_room : 65 <= c_max_item_size toy_cfg /\ 4 <= c_max_items toy_cfg.
Proof. split; apply Nat.leb_le; vm_compute; reflexivity. Qed.

Example C13_single_sig_instance :
  let pk := repeat x01 32 in let sig := repeat x02 64 in
  sig_accepts toy toy_cfg pk sig (b2z x00) (init_cache toy_cfg []) /\
  verdict_of (run_auth_scripts toy toy_cfg 3
                [Builders.single_sig_witness sig; Builders.single_sig_lock pk x00] []) = Some true.
Proof.
  cbv zeta. split; [|vm_compute; reflexivity].
  split; [vm_compute; reflexivity|]. exists [], [x01].
  split; [vm_compute; reflexivity|]. split; [apply Nat.le_0_l|]. split; reflexivity.
Qed.

Example C13_single_sig2_instance :
  let pk := repeat x01 32 in let sig := repeat x02 64 in
  toy PShake256 [pk; [x14]] = OOk [repeat x07 20] /\
  verdict_of (run_auth_scripts toy toy_cfg 6
                [Builders.single_sig_witness2 sig pk; Builders.single_sig_lock2 (repeat x07 20) x00] [])
    = Some true /\
  (* a lock committing to another hash refuses the same witness *)
  verdict_of (run_auth_scripts toy toy_cfg 6
                [Builders.single_sig_witness2 sig pk; Builders.single_sig_lock2 (repeat x08 20) x00] [])
    = Some false.
Proof. cbv zeta. split; [reflexivity|]. split; vm_compute; reflexivity. Qed.

Example C13_multisig_instance :
  let pks := [repeat x01 32; repeat x03 32] in
  let sigs := [repeat x02 64; repeat x04 64] in
  ms_verdict (real_chk toy (init_cache toy_cfg [])) (rev sigs) (rev pks) = true /\
  verdict_of (run_auth_scripts toy toy_cfg (S (S (List.length sigs + List.length pks + 0)))
                [multisig_witness sigs; Builders.multisig_lock pks x00 x02] []) = Some true /\
  (* the same signature twice is refused (C03: signatures must be pairwise different) *)
  ms_verdict (real_chk toy (init_cache toy_cfg [])) (rev [repeat x02 64; repeat x02 64]) (rev pks) = false /\
  verdict_of (run_auth_scripts toy toy_cfg 6
                [multisig_witness [repeat x02 64; repeat x02 64]; Builders.multisig_lock pks x00 x02] [])
    = Some false.
Proof. cbv zeta. repeat split; vm_compute; reflexivity. Qed.

(* script-hash lock and graftroot lock (proofs/BuilderSpecC13b.v).
   [verdict_after post o] = the verdict rule of run_auth_scripts applied to the outcome o of the evaluated script:
   True iff it ends normally with exactly [ff] on the stack. *)

(* a script that does not hash to the commitment is refused, and nothing of it starts: the heap holds exactly the
   two top-level tapes, the log is empty *)
Theorem C13_scripthash_other_script_never_starts :
  forall orc cfg f (script h : bytes) n d vals,
  0 < List.length script < 256 -> List.length script <= c_max_item_size cfg ->
  List.length h < 256 -> List.length h <= c_max_item_size cfg -> 3 <= c_max_items cfg ->
  orc PShake256 [script; [n]] = OOk [d] -> d <> h ->
  exists st,
    run_auth_scripts orc cfg (S (S (S (S (S (S f)))))) [sh_witness script; scripthash_lock h n] vals
      = AuthVerdict false st /\
  st_tapes st = sh_tapes script h n /\
  st_log st = st_log (init_state cfg (sh_witness script) vals) /\ st_log st = [].
Proof. exact scripthash_wrong_script. Qed.

(* the committed script runs, from the empty stack, as a fresh tape object (call count 1), and its verdict is the verdict *)
Theorem C13_scripthash_committed_script_runs :
  forall orc cfg f (script h : bytes) n vals,
  0 < List.length script < 256 -> List.length script <= c_max_item_size cfg ->
  List.length h < 256 -> List.length h <= c_max_item_size cfg -> 3 <= c_max_items cfg ->
  no_eval_ban cfg -> (0 < c_limit cfg)%Z ->
  orc PShake256 [script; [n]] = OOk [h] ->
  run_auth_scripts orc cfg (S (S (S (S (S (S f)))))) [sh_witness script; scripthash_lock h n] vals =
    verdict_after (eval_cache cfg) (run_tape orc cfg (S f) 2 0 (sh_eval_state cfg script h n vals)).
Proof. exact scripthash_committed_script. Qed.

(* graftroot, key path: the same condition as the single-signature lock *)
Theorem C13_graftroot_key_path_exact :
  forall orc cfg f (pk sig : bytes) fl vals,
  65 <= c_max_item_size cfg -> 3 <= c_max_items cfg ->
  List.length pk = 32 -> (List.length sig = 64 \/ List.length sig = 65) ->
  match run_auth_scripts orc cfg (S (S (S (S (S (S f))))))
          [graftroot_key_witness sig; graftroot_lock pk fl] vals with
  | AuthVerdict b _ => b = true <-> sig_accepts orc cfg pk sig (b2z fl) (init_cache cfg vals)
  | AuthFuel => False
  | AuthUnmod _ => exists m l, msg_of (sig_flag sig) (init_cache cfg vals) = Some m /\
                               orc PVerify [pk; m; firstn 64 sig] = OOk l /\ List.length l <> 1
  end.
Proof. exact graftroot_key_exact. Qed.

(* graftroot, surrogate path: a surrogate signed by the lock's key runs from the empty stack and decides ... *)
Theorem C13_graftroot_signed_surrogate_runs :
  forall orc cfg f (pk ssig surrogate : bytes) fl vals,
  65 <= c_max_item_size cfg -> 4 <= c_max_items cfg ->
  List.length pk = 32 -> List.length ssig = 64 ->
  0 < List.length surrogate < 256 -> List.length surrogate <= c_max_item_size cfg ->
  no_eval_ban cfg -> (0 < c_limit cfg)%Z ->
  surrogate_verifies orc pk surrogate ssig ->
  run_auth_scripts orc cfg (S (S (S (S (S (S (S (S (S (S f))))))))))
    [graftroot_surrogate_witness ssig surrogate; graftroot_lock pk fl] vals =
    verdict_after (fun s => prop_cache (eval_cache cfg s))
      (run_tape orc cfg (S f) 3 0 (gr_eval_state cfg pk fl ssig surrogate vals)).
Proof. exact graftroot_surrogate_runs. Qed.

(* ... and one that is not (wrong key, altered script, oracle error) never starts *)
Theorem C13_graftroot_unsigned_surrogate_never_starts :
  forall orc cfg f (pk ssig surrogate : bytes) fl vals,
  65 <= c_max_item_size cfg -> 4 <= c_max_items cfg ->
  List.length pk = 32 -> List.length ssig = 64 ->
  0 < List.length surrogate < 256 -> List.length surrogate <= c_max_item_size cfg ->
  no_eval_ban cfg -> (0 < c_limit cfg)%Z ->
  ~ surrogate_verifies orc pk surrogate ssig ->
  exists st,
    run_auth_scripts orc cfg (S (S (S (S (S (S (S (S (S (S f))))))))))
      [graftroot_surrogate_witness ssig surrogate; graftroot_lock pk fl] vals = AuthVerdict false st /\
    st_tapes st = gr_tapes (graftroot_surrogate_witness ssig surrogate) pk fl surr_arm /\
    st_log st = [].
Proof. exact graftroot_surrogate_rejected. Qed.

Print Assumptions C13_scripthash_other_script_never_starts.
Print Assumptions C13_scripthash_committed_script_runs.
Print Assumptions C13_graftroot_key_path_exact.
Print Assumptions C13_graftroot_signed_surrogate_runs.
Print Assumptions C13_graftroot_unsigned_surrogate_never_starts.
(* graftap lock = taproot lock over the committed script  dup ; swap 1 2 ; push pk ; check_sig_stack ; verify ; eval
   (proofs/BuilderSpecC13c.v; bytes checked against the real builders by Examples there).  Closed statements printed by Check:
   key path: True iff the signature is accepted under the root; script path: the pair must recompute to the root, then a
   surrogate signed by pk runs (call count 2) and decides, any other surrogate never starts; a pair that does not recompute
   to the root starts nothing. *)
Definition C13_graftap_bytes := BuilderSpecC13c.graftap_bytes_real.
Definition C13_graftap_key_path := @BuilderSpecC13c.graftap_key_path_pair.
Definition C13_graftap_wrong_commitment_never_starts := @BuilderSpecC13c.graftap_script_path_wrong_commitment.
Definition C13_graftap_signed_surrogate_runs := @BuilderSpecC13c.graftap_script_path_runs.
Definition C13_graftap_unsigned_surrogate_never_starts := @BuilderSpecC13c.graftap_script_path_rejected.
Definition C13_graftap_pair := @BuilderSpecC13c.graftap_script_path_pair.
Definition C13_graftap_example := BuilderSpecC13c.graftap_example.
Check C13_graftap_key_path.
Check C13_graftap_wrong_commitment_never_starts.
Check C13_graftap_signed_surrogate_runs.
Check C13_graftap_unsigned_surrogate_never_starts.
Check C13_graftap_pair.

Print Assumptions C13_graftap_bytes.
Print Assumptions C13_graftap_key_path.
Print Assumptions C13_graftap_wrong_commitment_never_starts.
Print Assumptions C13_graftap_signed_surrogate_runs.
Print Assumptions C13_graftap_unsigned_surrogate_never_starts.
Print Assumptions C13_graftap_pair.
Print Assumptions C13_graftap_example.
(* the builders as SOURCE (proofs/BuilderSourcesProofs.v): the template text of tools.py, mirrored token for token in
   model/BuilderSources.v, compiles, for all arguments, to the bytes of model/Builders.v that the theorems above are about *)
Definition C13_src_single_sig_lock_compiles := @BuilderSourcesProofs.single_sig_lock_compiles.
Definition C13_src_single_sig_lock2_compiles := @BuilderSourcesProofs.single_sig_lock2_compiles.
Definition C13_src_single_sig_lock2_ct_compiles := @BuilderSourcesProofs.single_sig_lock2_ct_compiles.
Definition C13_src_multisig_lock_compiles := @BuilderSourcesProofs.multisig_lock_compiles.
Definition C13_src_scripthash_lock_compiles := @BuilderSourcesProofs.scripthash_lock_compiles.
Definition C13_src_scripthash_lock_ct_compiles := @BuilderSourcesProofs.scripthash_lock_ct_compiles.
Definition C13_src_graftap_committed_compiles := @BuilderSourcesProofs.graftap_committed_compiles.
Definition C13_src_single_sig_witness_compiles := @BuilderSourcesProofs.single_sig_witness_compiles.
Definition C13_src_single_sig_witness2_compiles := @BuilderSourcesProofs.single_sig_witness2_compiles.
Definition C13_src_scripthash_witness_compiles := @BuilderSourcesProofs.scripthash_witness_compiles.
Definition C13_src_any_layout := @BuilderSourcesProofs.any_layout.
Check C13_src_single_sig_lock_compiles.
Check C13_src_single_sig_lock2_compiles.
Check C13_src_single_sig_lock2_ct_compiles.
Print Assumptions C13_src_single_sig_lock_compiles.
Print Assumptions C13_src_single_sig_lock2_compiles.
Print Assumptions C13_src_single_sig_lock2_ct_compiles.
Print Assumptions C13_src_multisig_lock_compiles.
Print Assumptions C13_src_scripthash_lock_compiles.
Print Assumptions C13_src_scripthash_lock_ct_compiles.
Print Assumptions C13_src_graftap_committed_compiles.
Print Assumptions C13_src_single_sig_witness_compiles.
Print Assumptions C13_src_single_sig_witness2_compiles.
Print Assumptions C13_src_scripthash_witness_compiles.
Print Assumptions C13_src_any_layout.

Print Assumptions C13_single_sig_bytes.
Print Assumptions C13_single_sig2_bytes.
Print Assumptions C13_multisig_bytes.
Print Assumptions C13_single_sig_exact.
Print Assumptions C13_sig_accepts_meaning.
Print Assumptions C13_single_sig2_exact.
Print Assumptions C13_multisig_lock_exact.
Print Assumptions C13_real_chk_meaning.
Print Assumptions C13_room.
Print Assumptions C13_single_sig_instance.
Print Assumptions C13_single_sig2_instance.
Print Assumptions C13_multisig_instance.
