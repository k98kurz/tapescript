(* C04 — Merklized scripts: only committed branches run.
   Binding at the instruction: with (script, sibling hash) on the stack, OP_MERKLEVAL either raises a
   script-execution error leaving cache, heap, log untouched — no sub-tape is created, so no instruction of the
   supplied script runs — or continues with exactly EVAL of that script; which of the two is decided by
   sha256(sha256(script)) xor sha256(sibling) = root. SHA-256 is an oracle: the statement holds for every
   hash function.  The tree classes with pack / unpack and the two builder functions are modelled
   (model/MerkleTree.v, model/TreeBuilders.v; tied to tapescript.tools by the MT and TB correspondences); the
   theorems about them follow. *)
From Coq Require Import ZArith List Bool.
From Coq.Strings Require Import Byte.
From TS Require Import Bytes State Prog Ops Interp NopSpec StackLemmas MerkleSpec TapeLemmas Builders MerkleTree MerkleTreeProofs AuthSpec.
From TS Require TreeBuilders TreeBuildersProofs.
From TS Require BuilderSourcesProofs.
Import ListNotations.
Local Open Scope nat_scope.

Theorem C04_merkleval_binding :
  forall orc cfg run fr st root tail script sib rest h1 h2 h3,
  data_at fr st = root ++ tail -> List.length root = 32 ->
  st_stack st = script :: sib :: rest ->
  orc PSha256 [script] = OOk [h1] -> orc PSha256 [h1] = OOk [h2] -> orc PSha256 [sib] = OOk [h3] ->
  fits cfg script -> fits cfg sib -> fits cfg h1 -> fits cfg h2 -> fits cfg h3 ->
  fits cfg (merkle_commit h2 h3) -> fits cfg root ->
  List.length rest + 4 <= c_max_items cfg -> 1 <= c_max_item_size cfg ->
  interp orc cfg run OP_MERKLEVAL fr st =
    if bytes_eqb root (merkle_commit h2 h3)
    then interp orc cfg run eval_body (adv fr 32) (with_stack st (script :: rest))
    else Raised ScriptExecutionError (adv fr 32) (with_stack st (script :: rest)).
Proof. exact merkleval_binding. Qed.

(* the tree classes (model/MerkleTree.v; tied to tapescript.tools by the MT correspondence), for every hash
   function H answered by the oracle with 32-byte values, every tree, every path p *)

(* completeness: the unlocking script of the node at path p followed by the root lock runs EXACTLY the bytes of that
   node, as a fresh tape object in the state [descend] (stack = what lay under the witness, cache/log untouched,
   call count = depth), and the verdict is the verdict of that run *)
Theorem C04_committed_branch_runs :
  forall orc cfg H, (forall b, orc PSha256 [b] = OOk [H b]) -> (forall b, List.length (H b) = 32) ->
  forall p l r u w vals f,
  subtree (Node l r) p = Some u -> p <> [] -> unlock H (Node l r) p = Some w ->
  no_eval_ban cfg -> (Z.of_nat (List.length p) <= c_limit cfg)%Z ->
  fits cfg (tbytes H u) -> 33 <= c_max_item_size cfg -> 2 * List.length p + 2 <= c_max_items cfg ->
  let st2 := lock_state cfg w vals (wstack H (Node l r) p) (lock H l r) in
  run_auth_scripts orc cfg (2 * List.length p + S f) [w; lock H l r] vals =
    auth_finish
      (lock_result cfg 1 (List.length p)
         (run_tape orc cfg (S (List.length p + f)) (fst (descend H (Node l r) p 1 st2)) 0
                   (snd (descend H (Node l r) p 1 st2)))).
Proof. exact merkle_auth. Qed.

(* binding for a node's lock: unless the top pair hashes to the root, the lock raises in its own frame, no tape
   object is created, cache / log / definitions are those of the start *)
Theorem C04_uncommitted_pair_never_starts :
  forall orc cfg H, (forall b, orc PSha256 [b] = OOk [H b]) -> (forall b, List.length (H b) = 32) ->
  forall f tid st l r script sib rest,
  tdata st tid = lock H l r -> st_stack st = script :: sib :: rest ->
  fits cfg script -> fits cfg sib -> 32 <= c_max_item_size cfg -> List.length rest + 4 <= c_max_items cfg ->
  xor_bytes (H sib) (H (H script)) <> root H l r ->
  run_tape orc cfg (S f) tid 0 st =
    Raised ScriptExecutionError {| fr_tid := tid; fr_ptr := 33 |} (with_stack st (script :: rest)).
Proof. exact merkle_binding_tree. Qed.

(* serialisation: unpack (pack t) = t whenever pack does not raise (every packed subtree < 65536 bytes) *)
Theorem C04_pack_unpack :
  forall l r, packable (Node l r) = true -> unpack (pack (Node l r)) = Some (Node l r).
Proof. exact pack_unpack. Qed.

(* non-vacuity: a concrete hash, configuration and depth-2 tree for which the theorem gives verdict True *)
Example C04_committed_branch_demo : exists w st,
  unlock Demo.H (Node Demo.l Demo.r) [L; L] = Some w /\
  run_auth_scripts Demo.orc Demo.cfg (2 * 2 + S 3) [w; lock Demo.H Demo.l Demo.r] [] = AuthVerdict true st.
Proof. exact Demo.demo_true. Qed.

(* the two builder functions (model/TreeBuilders.v, tied to make_merklized_script_prioritized / _balanced by the
   TB correspondence; proofs/TreeBuildersProofs.v).  Every input script is a committed leaf at a known path and depth, the
   builders return its unlocking script at its index, and that script + the lock runs exactly the leaf (any number of
   leaves; fillers of the balanced builder are arbitrary).  Closed statements printed by Check. *)
Definition C04_prioritized_leaf_paths := @TreeBuildersProofs.prioritized_paths.
Definition C04_prioritized_unlocks_are_in_input_order := @TreeBuildersProofs.prioritized_unlocks_spec.
Definition C04_prioritized_builder_complete := @TreeBuildersProofs.builders_complete_prioritized.
Definition C04_balanced_leaves_in_order_same_depth := @TreeBuildersProofs.balanced_leaves.
Definition C04_balanced_depth_is_log2_up := TreeBuildersProofs.bal_depth_log2_up.
Definition C04_balanced_unlocks_are_in_input_order := @TreeBuildersProofs.balanced_unlocks_spec.
Definition C04_balanced_builder_complete := @TreeBuildersProofs.builders_complete_balanced.
Definition C04_growing_a_prioritized_tree_keeps_old_leaves := (@TreeBuildersProofs.prioritized_onto_old, @TreeBuildersProofs.prioritized_onto_new).
Definition C04_one_leaf_filler_is_refused := @TreeBuildersProofs.prioritized_filler_rejects.
Check C04_prioritized_leaf_paths.
Check C04_prioritized_builder_complete.
Check C04_balanced_leaves_in_order_same_depth.
Check C04_balanced_builder_complete.

Print Assumptions C04_prioritized_leaf_paths.
Print Assumptions C04_prioritized_unlocks_are_in_input_order.
Print Assumptions C04_prioritized_builder_complete.
Print Assumptions C04_balanced_leaves_in_order_same_depth.
Print Assumptions C04_balanced_depth_is_log2_up.
Print Assumptions C04_balanced_unlocks_are_in_input_order.
Print Assumptions C04_balanced_builder_complete.
Print Assumptions C04_growing_a_prioritized_tree_keeps_old_leaves.
Print Assumptions C04_one_leaf_filler_is_refused.
(* locking / unlocking scripts of the tree classes as source: model/BuilderSources.v mirrors the f-string templates of
   tools.py token for token (Examples in proofs/BuilderSourcesProofs.v against the real .src / .bytes); there the template
   text compiles, for all arguments, to the bytes of model/Builders.v that the theorems above are about; closed
   statements printed by Check *)
Definition C04_src_merkle_lock_compiles := @BuilderSourcesProofs.merkle_lock_compiles.
Definition C04_src_unlock_piece_compiles := @BuilderSourcesProofs.unlock_piece_compiles.
Check C04_src_merkle_lock_compiles.
Check C04_src_unlock_piece_compiles.
Print Assumptions C04_src_merkle_lock_compiles.
Print Assumptions C04_src_unlock_piece_compiles.

Print Assumptions C04_committed_branch_runs.
Print Assumptions C04_uncommitted_pair_never_starts.
Print Assumptions C04_pack_unpack.
Print Assumptions C04_merkleval_binding.
