(* C13 (continued): the GRAFTAP lock of tools.make_graftap_lock
     make_graftap_lock(pubkey, fl) = make_taproot_lock(pubkey, _make_graftap_committed_script(pubkey), fl)
   on its real bytes, both spending paths, composing the theorems on OP_TAPROOT (TaprootSpec, TaprootNonNative)
   and on the graftroot surrogate arm (BuilderSpecC13b).
   Key path (graftap_key_path): the verdict is True iff the signature is accepted under the ROOT.
   Script path, wrong commitment (graftap_script_path_wrong_commitment): verdict False, no tape object for the
   supplied script is ever created.
   Script path (graftap_script_path_runs / _rejected): the committed script
       dup ; swap 1 2 ; push pk ; check_sig_stack ; verify ; eval
   starts (call count + 1) on  surrogate :: ssig :: rest;  iff the oracle verifies (pk, surrogate, ssig)
   the surrogate starts as a NEW tape object (call count + 2) on the stack rest, and the verdict is read
   from the stack it leaves; otherwise the verdict is False and no tape object holds the surrogate. *)
From Coq Require Import ZArith List Bool Lia.
From Coq.Strings Require Import Byte String.
From TS Require Import Bytes State Prog Ops Interp StateLemmas InterpLemmas NopSpec StackLemmas
  BytesLemmas TapeLemmas AuthSpec TimeSpec Asm Builders BuilderSpec
  BuilderSpecC14 TaprootSpec TaprootNonNative BuilderSpecC13b.
Import ListNotations.
Local Open Scope nat_scope.

(* _make_graftap_committed_script(pubkey):  dup ; swap d1 d2 ; push x<pubkey> ; check_sig_stack ; verify ; eval
   (the surrogate arm of the graftroot lock, BuilderSpecC13b.surr_arm, with PUSH1 pk where that one has
   READ_CACHE "k") *)
Definition graftap_committed_instrs (pk : bytes) : list instr :=
  [IOp0 O_DUP; ISwap x01 x02; P1 pk; IOp0 O_CHECK_SIG_STACK; IOp0 O_VERIFY; IOp0 O_EVAL].
Definition graftap_committed_script (pk : bytes) : bytes := encode (graftap_committed_instrs pk).

(* make_graftap_lock(pubkey, fl) = push x<root> ; tr x<fl>  — the root is computed by the builder *)
Definition graftap_lock (root : bytes) (fl : byte) : bytes := taproot_lock root fl.

(* make_graftap_witness_keyspend = make_taproot_witness_keyspend:  push x<sig [+ flag byte]> *)
Definition graftap_key_witness (sig : bytes) : bytes := encode [P1 sig].
(* make_graftap_witness_scriptspend:  push <ssig> ; push <surrogate> ; push <committed script> ; push <pubkey>
   (a surrogate of ONE byte is pushed by OP_PUSH0: `push x01` assembles to 02 01) *)
Definition graftap_script_witness (ssig surrogate pk : bytes) : bytes :=
  encode [P1 ssig; P1 surrogate; P1 (graftap_committed_script pk); P1 pk].
Definition graftap_script_witness1 (ssig : bytes) (b : byte) (pk : bytes) : bytes :=
  encode [P1 ssig; P0 b; P1 (graftap_committed_script pk); P1 pk].

(* VerifyKey of the seed bytes(range(32)) *)
Definition real_pk : bytes := of_hex "03a107bff3ce10be1d70dd18e74bc09967e4d6309ba50d5f1ddc8664125531b8".
(* the root make_graftap_lock computes for it *)
Definition real_root : bytes := of_hex "ac68d41eaae0328d31ae77f6bf637136486853a4f2c52717370961dde7d93e90".

(* output of
     pk = bytes(SigningKey(bytes(range(32))).verify_key)
     T._make_graftap_committed_script(pk).bytes.hex() ; T.make_graftap_lock(pk, '00').bytes.hex() *)
Example graftap_bytes_real :
  graftap_committed_script real_pk =
    of_hex "1d340102032003a107bff3ce10be1d70dd18e74bc09967e4d6309ba50d5f1ddc8664125531b84a202d" /\
  graftap_lock real_root x00 =
    of_hex "0320ac68d41eaae0328d31ae77f6bf637136486853a4f2c52717370961dde7d93e905b00".
Proof. split; vm_compute; reflexivity. Qed.

(* output of T.make_graftap_witness_scriptspend(bytes(range(32)), Script.from_src('true')).bytes.hex() *)
Example graftap_witness_bytes_real :
  graftap_script_witness1
    (of_hex "ab85b5fbb35e3ef25ce0bbc86cd1b3414294e991d436243af1dbfcc690ed55db31f1fc9d18e5e2f8163d966cc529087a5e69ef5e60e488468b6a091f16a45602")
    x01 real_pk =
  of_hex "0340ab85b5fbb35e3ef25ce0bbc86cd1b3414294e991d436243af1dbfcc690ed55db31f1fc9d18e5e2f8163d966cc529087a5e69ef5e60e488468b6a091f16a45602020103291d340102032003a107bff3ce10be1d70dd18e74bc09967e4d6309ba50d5f1ddc8664125531b84a202d032003a107bff3ce10be1d70dd18e74bc09967e4d6309ba50d5f1ddc8664125531b8".
Proof. vm_compute. reflexivity. Qed.

Lemma committed_bytes pk :
  graftap_committed_script pk = [x1d; x34; x01; x02] ++ push1_bytes pk ++ [x4a; x20; x2d].
Proof.
  unfold graftap_committed_script, graftap_committed_instrs, encode, P1, push1_bytes.
  cbn [flat_map encode1 app]. rewrite <- ?app_assoc. reflexivity.
Qed.

Lemma committed_length pk : List.length pk = 32 -> List.length (graftap_committed_script pk) = 41.
Proof. intro H. rewrite committed_bytes. unfold push1_bytes. rewrite !app_length. cbn [List.length]. rewrite H. reflexivity. Qed.

Lemma committed_nonempty pk : graftap_committed_script pk <> [].
Proof. rewrite committed_bytes. discriminate. Qed.

Lemma graftap_key_witness_bytes sig : graftap_key_witness sig = push1_bytes sig.
Proof. unfold graftap_key_witness, encode, P1, push1_bytes. cbn [flat_map encode1]. rewrite app_nil_r. reflexivity. Qed.

Lemma graftap_script_witness_bytes ssig surrogate pk :
  graftap_script_witness ssig surrogate pk = pushes_bytes [ssig; surrogate; graftap_committed_script pk; pk].
Proof.
  unfold graftap_script_witness, pushes_bytes, encode, P1, push1_bytes. cbn [flat_map encode1].
  rewrite ?app_nil_r. reflexivity.
Qed.

Section Lock.
Variable orc : oracle.
Variable cfg : config.

(* TaprootNonNative.native_script_lock gives the verdict; here the outcome itself (needed to say which tape
   objects exist afterwards): the lock tape ends at offset 36 with the outcome of OP_EVAL on the script *)
Lemma native_script_lock_exact f tid st root fl key script rest hs h point agg :
  tdata st tid = taproot_lock root fl -> tid < List.length (st_tapes st) ->
  st_stack st = key :: script :: rest ->
  List.length root = 32 -> List.length key = 32 -> List.length h = 32 ->
  orc PSha256 [script] = OOk [hs] -> orc PSha256 [key ++ hs] = OOk [h] ->
  orc PBaseMult [clamp32 h] = OOk [point] ->
  orc PValidPoint [point] = OOk [[x01]] -> orc PValidPoint [key] = OOk [[x01]] ->
  orc PPointAdd [point; key] = OOk [agg] ->
  fits cfg script ->
  List.length rest + 3 <= c_max_items cfg -> 32 <= c_max_item_size cfg ->
  run_tape orc cfg (3 + f) tid 0 st =
    if bytes_eqb agg root
    then
      match flag_get (c_flags cfg) (FKStr (str "disallow_OP_EVAL")) with
      | Some _ => Raised ScriptExecutionError {| fr_tid := tid; fr_ptr := 36 |} (with_stack st (script :: rest))
      | None =>
        if (to_count (nth_tape st tid) <? c_limit cfg)%Z
        then if (0 <? blen script)%Z
             then eval_last_outcome cfg tid 36
                    (run_tape orc cfg (S f) (List.length (st_tapes st)) 0 (native_eval_state st tid script rest))
             else Raised ValueError {| fr_tid := tid; fr_ptr := 36 |} (with_stack st rest)
        else Raised ScriptExecutionError {| fr_tid := tid; fr_ptr := 36 |} (with_stack st (script :: rest))
      end
    else Done tt {| fr_tid := tid; fr_ptr := 36 |} (with_stack st ([x00] :: rest)).
Proof.
  intros Hd Ht Hs Lr Lk Lh O1 O2 O3 O4 O5 O6 Fs Hit Hsz.
  assert (Hlen : List.length (taproot_lock root fl) = 36) by (apply native_lock_len; exact Lr).
  assert (Hp : skipn 0 (taproot_lock root fl) = push1_bytes root ++ [x5b; fl])
    by (rewrite native_lock_bytes; reflexivity).
  assert (L34 : 0 + List.length (push1_bytes root) = 34)
    by (unfold push1_bytes; cbn [List.length]; rewrite Lr; reflexivity).
  pose proof (skipn_app_r 0 _ _ _ Hp) as Hp1. rewrite L34 in Hp1.
  change (3 + f) with (S (S (S f))).
  rewrite (runs1_at (code := push1_bytes root)
             (push1_runs orc cfg tid st root (key :: script :: rest) ltac:(lia) Hs ltac:(unfold fits; lia)
                       ltac:(unfold space; simpl; lia)) Hd Hp), L34.
  set (st1 := with_stack st (root :: key :: script :: rest)).
  (* OP_TAPROOT fl is the last instruction: fetch it, and what it does by TaprootSpec *)
  pose proof (run_tape_fetch_at orc cfg (S f) tid 34 st1 _ x5b [fl] Hd Hp1) as Hfetch.
  change (dispatch (N.to_nat (Byte.to_N x5b))) with OP_TAPROOT in Hfetch.
  pose proof (taproot_script_path orc cfg (fun t s => run_tape orc cfg (S f) t 0 s) _ st1 fl [] root key script rest
                hs h point agg (data_at_next tid 34 st1 _ x5b [fl] Hd Hp1) eq_refl Lr Lk Lh O1 O2 O3 O4 O5 O6 Fs
                ltac:(lia) ltac:(lia)) as Htr.
  unfold adv in Htr. cbn [fr_tid fr_ptr Nat.add] in Htr. unfold st1 in Htr at 2 3. rewrite !with_stack_twice in Htr.
  destruct (bytes_eqb agg root).
  2:{ rewrite Hfetch, Htr. cbn [fr_ptr].
      exact (run_tape_end_at orc cfg f tid (with_stack st ([x00] :: rest)) 36 _ Hd
               (skipn_app_r 34 _ [x5b; fl] [] Hp1)). }
  change eval_body with OP_EVAL in Htr.
  destruct (flag_get (c_flags cfg) (FKStr (str "disallow_OP_EVAL"))) as [v|] eqn:Eban.
  { rewrite Hfetch, Htr, (eval_exec_banned orc cfg _ _ _ v Eban). reflexivity. }
  destruct (to_count (nth_tape st tid) <? c_limit cfg)%Z eqn:Elim.
  2:{ rewrite Hfetch, Htr, (eval_exec_limit orc cfg _ tid 36 (with_stack st (script :: rest)) Eban); [reflexivity|].
      apply Z.ltb_ge in Elim. exact Elim. }
  destruct (0 <? blen script)%Z eqn:Ene.
  2:{ rewrite Hfetch, Htr.
      rewrite (eval_exec_empty orc cfg _ tid 36 (with_stack st (script :: rest)) script rest Eban eq_refl Elim Ene).
      reflexivity. }
  assert (Hne : script <> []) by (intro E; subst script; discriminate).
  (* the script is EVALuated by the last instruction of the lock *)
  rewrite <- Hlen.
  apply (eval_finish_last orc cfg f tid 34 st1 (taproot_lock root fl) x5b [fl] _ _ Hd Hp1).
  - unfold native_eval_state, TaprootNonNative.eval_start. cbn [st_tapes with_tapes with_defs with_stack].
    rewrite app_length. lia.
  - rewrite <- Hd. exact (tdata_eval_old (with_stack st rest) tid script tid Ht).
  - change (dispatch (N.to_nat (Byte.to_N x5b))) with OP_TAPROOT. rewrite Htr.
    exact (eval_exec orc cfg _ tid 36 (with_stack st (script :: rest)) script rest Eban eq_refl
             ltac:(apply Z.ltb_lt; exact Elim) Hne).
Qed.

End Lock.

(* As in TaprootNonNative: the lock runs as the LAST script of run_auth_scripts (auth_rest), after ANY witness
   that left the machine in state st0 (previous top-level tape [prev]). *)

Section KeyAndMismatch.
Variable orc : oracle.
Variable cfg : config.

(* the tape object auth_rest creates for the lock *)
Definition lock_tape (st0 : state) (prev : nat) (root : bytes) (fl : byte) : tapeobj :=
  {| to_data := graftap_lock root fl; to_count := to_count (nth_tape st0 prev);
     to_defs := to_defs (nth_tape st0 prev) |}.

(* The witness left exactly [sig] (64 bytes, or 65 with the flag byte): the verdict is that of
   the signature check under the ROOT with the allowed-flags byte fl; it is True exactly when sig is
   accepted (direct corollary of TaprootNonNative.native_key_path) *)
Theorem graftap_key_path f prev st0 root fl sig :
  st_stack st0 = [sig] -> List.length root = 32 -> (List.length sig = 64 \/ List.length sig = 65) ->
  65 <= c_max_item_size cfg -> 2 <= c_max_items cfg ->
  vres_of_auth (auth_rest orc cfg (3 + f) [graftap_lock root fl] prev st0) =
    key_outcome orc cfg root sig fl (st_cache st0) /\
  (vres_of_auth (auth_rest orc cfg (3 + f) [graftap_lock root fl] prev st0) = VBool true <->
   sig_accepts orc cfg root sig (b2z fl) (st_cache st0)).
Proof.
  intros Hs Lr Lsig Hsz Hit. unfold graftap_lock.
  rewrite (native_key_path orc cfg f prev st0 root fl sig Hs Lr Lsig Hsz Hit).
  split; [reflexivity|apply key_outcome_true].
Qed.

(* ... and with the witness of make_graftap_witness_keyspend (push x<sig>) in front *)
Theorem graftap_key_path_pair f root fl sig vals :
  List.length root = 32 -> (List.length sig = 64 \/ List.length sig = 65) ->
  65 <= c_max_item_size cfg -> 2 <= c_max_items cfg ->
  vres_of_auth (run_auth_scripts orc cfg (3 + f) [graftap_key_witness sig; graftap_lock root fl] vals) =
    key_outcome orc cfg root sig fl (init_cache cfg vals) /\
  (vres_of_auth (run_auth_scripts orc cfg (3 + f) [graftap_key_witness sig; graftap_lock root fl] vals) = VBool true <->
   sig_accepts orc cfg root sig (b2z fl) (init_cache cfg vals)).
Proof.
  intros Lr Lsig Hsz Hit. unfold run_auth_scripts.
  rewrite graftap_key_witness_bytes. change (push1_bytes sig) with (single_sig_witness sig).
  change (3 + f) with (S (S (S f))) at 1 3.
  rewrite (witness_runs orc cfg Hsz Hit (S f) sig vals Lsig).
  change (S (S (S f))) with (3 + f).
  exact (graftap_key_path f 0 (with_stack (init_state cfg (single_sig_witness sig) vals) [sig]) root fl sig
           eq_refl Lr Lsig Hsz Hit).
Qed.

(* The witness left key (32 bytes) on top of a script — in particular the graftap committed
   script — but the point recomputed from (key, script) is not the root: OP_TAPROOT pushes False, the
   verdict is False, and the heap holds exactly ONE new tape object, the lock: no tape object for the
   supplied script was created, nothing of it ran; log and definitions untouched *)
Theorem graftap_script_path_wrong_commitment f prev st0 root fl key script rest hs h point agg :
  st_stack st0 = key :: script :: rest ->
  List.length root = 32 -> List.length key = 32 -> List.length h = 32 ->
  orc PSha256 [script] = OOk [hs] -> orc PSha256 [key ++ hs] = OOk [h] ->
  orc PBaseMult [clamp32 h] = OOk [point] ->
  orc PValidPoint [point] = OOk [[x01]] -> orc PValidPoint [key] = OOk [[x01]] ->
  orc PPointAdd [point; key] = OOk [agg] ->
  fits cfg script ->
  List.length rest + 3 <= c_max_items cfg -> 32 <= c_max_item_size cfg ->
  bytes_eqb agg root = false ->
  exists st',
    auth_rest orc cfg (3 + f) [graftap_lock root fl] prev st0 = AuthVerdict false st' /\
    st_tapes st' = st_tapes st0 ++ [lock_tape st0 prev root fl] /\
    st_defs st' = st_defs st0 /\ st_log st' = st_log st0 /\
    (st_stack st' = [] \/ st_stack st' = [x00] :: rest).
Proof.
  intros Hs Lr Lk Lh O1 O2 O3 O4 O5 O6 Fs Hit Hsz Hneq.
  unfold graftap_lock. rewrite (auth_last orc cfg).
  destruct (start_facts st0 prev (taproot_lock root fl)) as (S1 & S2 & S3 & S4 & S5 & S6 & S7 & S8 & S9).
  set (st := snd (next_start st0 prev (taproot_lock root fl))) in *.
  set (tid := fst (next_start st0 prev (taproot_lock root fl))) in *.
  rewrite (native_script_lock_exact orc cfg f tid st root fl key script rest hs h point agg S1 S2
             ltac:(rewrite S3; exact Hs) Lr Lk Lh O1 O2 O3 O4 O5 O6 Fs Hit Hsz).
  rewrite Hneq. cbn [BuilderSpec.finish st_stack with_stack].
  destruct rest as [|r rest'].
  - change (bytes_eqb [x00] [xff]) with false.
    eexists. split; [reflexivity|]. repeat split. left. reflexivity.
  - eexists. split; [reflexivity|]. repeat split. right. reflexivity.
Qed.

End KeyAndMismatch.

Section Committed.
Variable orc : oracle.
Variable cfg : config.

(* dup ; swap 1 2 ; push pk ; check_sig_stack ; verify ; eval   on the stack  surrogate :: ssig :: rest *)
Lemma committed_run f tid st pk ssig surrogate rest :
  65 <= c_max_item_size cfg -> List.length rest + 4 <= c_max_items cfg ->
  tdata st tid = graftap_committed_script pk -> tid < List.length (st_tapes st) ->
  st_stack st = surrogate :: ssig :: rest ->
  List.length pk = 32 -> List.length ssig = 64 -> surrogate <> [] -> fits cfg surrogate ->
  no_eval_ban cfg -> (to_count (nth_tape st tid) < c_limit cfg)%Z ->
  run_tape orc cfg (S (S (S (S (S (S (S f))))))) tid 0 st =
    if css_verdict orc pk surrogate ssig
    then eval_last_outcome cfg tid 41
           (run_tape orc cfg (S f) (List.length (st_tapes st)) 0
              (BuilderSpecC13b.eval_start (with_stack st rest) tid surrogate))
    else Raised ScriptExecutionError {| fr_tid := tid; fr_ptr := 40 |} (with_stack st (surrogate :: rest)).
Proof.
  intros Hsize Hitems Hd Hlt Hst Lpk Lss Hne Fs Hban Hcnt.
  rewrite committed_bytes in Hd.
  rewrite (surrogate_arm_run orc cfg f tid st (push1_bytes pk) pk ssig surrogate rest Hsize Hitems Hd Hlt Hst);
    try assumption.
  - unfold push1_bytes. cbn [List.length]. rewrite Lpk. reflexivity.
  - exact (push1_runs orc cfg tid (with_stack st (surrogate :: ssig :: surrogate :: rest)) pk _ ltac:(lia) eq_refl
             ltac:(unfold fits; lia) ltac:(unfold space; simpl; lia)).
Qed.

End Committed.

Section ScriptPath.
Variable orc : oracle.
Variable cfg : config.

(* the lock tape on the stack  pk :: committed script :: surrogate :: ssig :: rest,  the commitment matching:
   OP_TAPROOT EVALs the committed script (tape object T, call count + 1) on  surrogate :: ssig :: rest;
   the committed script EVALs the surrogate (tape object T + 1, call count + 2) on rest iff the oracle
   verifies (pk, surrogate, ssig), and raises at VERIFY otherwise *)
Lemma graftap_lock_run f tid st root fl pk surrogate ssig rest hs h point :
  tdata st tid = taproot_lock root fl -> tid < List.length (st_tapes st) ->
  st_stack st = pk :: graftap_committed_script pk :: surrogate :: ssig :: rest ->
  List.length root = 32 -> List.length pk = 32 -> List.length h = 32 -> List.length ssig = 64 ->
  surrogate <> [] -> fits cfg surrogate ->
  orc PSha256 [graftap_committed_script pk] = OOk [hs] -> orc PSha256 [pk ++ hs] = OOk [h] ->
  orc PBaseMult [clamp32 h] = OOk [point] ->
  orc PValidPoint [point] = OOk [[x01]] -> orc PValidPoint [pk] = OOk [[x01]] ->
  orc PPointAdd [point; pk] = OOk [root] ->
  List.length rest + 5 <= c_max_items cfg -> 65 <= c_max_item_size cfg ->
  no_eval_ban cfg -> (to_count (nth_tape st tid) + 1 < c_limit cfg)%Z ->
  let T := List.length (st_tapes st) in
  let sC := native_eval_state st tid (graftap_committed_script pk) (surrogate :: ssig :: rest) in
  run_tape orc cfg (9 + f) tid 0 st =
    if css_verdict orc pk surrogate ssig
    then eval_last_outcome cfg tid 36
           (eval_last_outcome cfg T 41
              (run_tape orc cfg (S f) (S T) 0 (BuilderSpecC13b.eval_start (with_stack sC rest) T surrogate)))
    else Raised ScriptExecutionError {| fr_tid := tid; fr_ptr := 36 |} (with_stack sC (surrogate :: rest)).
Proof.
  intros Hd Ht Hs Lr Lk Lh Lss Hne Fs O1 O2 O3 O4 O5 O6 Hit Hsz Hban Hlim T sC.
  change (9 + f) with (3 + (6 + f)).
  rewrite (native_script_lock_exact orc cfg (6 + f) tid st root fl pk (graftap_committed_script pk)
             (surrogate :: ssig :: rest) hs h point root Hd Ht Hs Lr Lk Lh O1 O2 O3 O4 O5 O6);
    [ | unfold fits; rewrite committed_length by exact Lk; lia | simpl; lia | lia ].
  rewrite bytes_eqb_refl.
  pose proof Hban as Hban'. unfold no_eval_ban in Hban'. rewrite Hban'.
  replace (to_count (nth_tape st tid) <? c_limit cfg)%Z with true by (symmetry; apply Z.ltb_lt; lia).
  rewrite (nonempty_blen _ (committed_nonempty pk)).
  fold sC. fold T.
  assert (HlenC : List.length (st_tapes sC) = S T).
  { unfold sC, native_eval_state, TaprootNonNative.eval_start. cbn [st_tapes with_tapes with_defs with_stack].
    rewrite app_length. unfold T. simpl. lia. }
  change (S (6 + f)) with (S (S (S (S (S (S (S f))))))).
  rewrite (committed_run orc cfg f T sC pk ssig surrogate rest); try assumption; try lia.
  - rewrite HlenC. destruct (css_verdict orc pk surrogate ssig); reflexivity.
  - exact (tdata_eval_new (with_stack st (surrogate :: ssig :: rest)) tid (graftap_committed_script pk)).
  - reflexivity.
  - unfold sC, native_eval_state.
    change (TaprootNonNative.eval_start (with_stack st (surrogate :: ssig :: rest)) tid (graftap_committed_script pk))
      with (BuilderSpecC13b.eval_start (with_stack st (surrogate :: ssig :: rest)) tid (graftap_committed_script pk)).
    unfold T. change (st_tapes st) with (st_tapes (with_stack st (surrogate :: ssig :: rest))).
    rewrite count_eval_new.
    change (nth_tape (with_stack st (surrogate :: ssig :: rest)) tid) with (nth_tape st tid). exact Hlim.
Qed.

(* what run_auth_scripts makes of the outcome [o] of the surrogate: the two OP_EVALs on the way back only
   touch the control flag *)
Lemma finish_eval2 tid p tid' p' o :
  BuilderSpec.finish (eval_last_outcome cfg tid p (eval_last_outcome cfg tid' p' o)) =
    verdict_after (fun s => eval_cache cfg (eval_cache cfg s)) o.
Proof.
  rewrite finish_verdict_after, !eval_last_outcome_call, !(verdict_after_call _ _ _ _ _ _ (stack_eval_cache cfg)).
  reflexivity.
Qed.

Lemma vres_verdict_after post o : vres_of_auth (verdict_after post o) = vres_of_run o.
Proof.
  destruct o as [[] fr' st'|e fr' st'| |w']; try reflexivity.
  cbn [verdict_after vres_of_run]. unfold accepting.
  destruct (st_stack st') as [|i [|j l]]; reflexivity.
Qed.

(* the tape object OP_TAPROOT creates for the committed script: call count + 1, a new copy of the
   definitions of the witness *)
Definition committed_tape (st0 : state) (prev : nat) (pk : bytes) : tapeobj :=
  {| to_data := graftap_committed_script pk; to_count := (to_count (nth_tape st0 prev) + 1)%Z;
     to_defs := List.length (st_defs st0) |}.

(* the tape object the committed script creates for the surrogate: call count + 2, one more copy *)
Definition surrogate_tape (st0 : state) (prev : nat) (surrogate : bytes) : tapeobj :=
  {| to_data := surrogate; to_count := (to_count (nth_tape st0 prev) + 1 + 1)%Z;
     to_defs := S (List.length (st_defs st0)) |}.

(* the state in which the committed script starts / has been stopped at VERIFY *)
Definition graftap_committed_state (st0 : state) (prev : nat) (root : bytes) (fl : byte)
    (pk : bytes) (stk : list bytes) : state :=
  with_stack
    (native_eval_state (snd (next_start st0 prev (graftap_lock root fl))) (List.length (st_tapes st0))
       (graftap_committed_script pk) stk) stk.

(* the state in which the surrogate starts *)
Definition graftap_eval_state (st0 : state) (prev : nat) (root : bytes) (fl : byte)
    (pk surrogate : bytes) (rest : list bytes) : state :=
  BuilderSpecC13b.eval_start (graftap_committed_state st0 prev root fl pk rest)
    (S (List.length (st_tapes st0))) surrogate.

Lemma committed_state_facts st0 prev root fl pk stk :
  let sC := graftap_committed_state st0 prev root fl pk stk in
  st_tapes sC = st_tapes st0 ++ [lock_tape st0 prev root fl; committed_tape st0 prev pk] /\
  st_defs sC = st_defs st0 ++ [nth_defs st0 (to_defs (nth_tape st0 prev))] /\
  st_stack sC = stk /\
  st_cache sC = cache_del (st_cache st0) returned_key /\
  st_log sC = st_log st0.
Proof.
  cbv zeta. unfold graftap_committed_state, native_eval_state, TaprootNonNative.eval_start, next_start.
  cbn [snd st_tapes st_defs st_stack st_cache st_log with_tapes with_defs with_stack with_cache].
  (* the lock is the tape object appended last, at index |tapes of st0| *)
  assert (Hn : forall d, nth (List.length (st_tapes st0)) (st_tapes st0 ++ [lock_tape st0 prev root fl]) d =
                         lock_tape st0 prev root fl).
  { intro d. rewrite <- (Nat.add_0_r (List.length _)). apply app_nth2_plus. }
  unfold nth_tape. cbn [st_tapes with_tapes with_defs with_stack with_cache]. rewrite Hn.
  split; [rewrite <- app_assoc; reflexivity|]. repeat split.
Qed.

Lemma eval_state_facts st0 prev root fl pk surrogate rest :
  let sS := graftap_eval_state st0 prev root fl pk surrogate rest in
  let D := nth_defs st0 (to_defs (nth_tape st0 prev)) in
  st_tapes sS = st_tapes st0 ++ [lock_tape st0 prev root fl; committed_tape st0 prev pk;
                                 surrogate_tape st0 prev surrogate] /\
  st_defs sS = st_defs st0 ++ [D; D] /\
  st_stack sS = rest /\
  st_cache sS = cache_del (st_cache st0) returned_key /\
  st_log sS = st_log st0.
Proof.
  cbv zeta. unfold graftap_eval_state.
  destruct (committed_state_facts st0 prev root fl pk rest) as (C1 & C2 & C3 & C4 & C5).
  set (sC := graftap_committed_state st0 prev root fl pk rest) in *.
  unfold BuilderSpecC13b.eval_start.
  cbn [st_tapes st_defs st_stack st_cache st_log with_tapes with_defs].
  (* the calling tape is the committed script, second of the two new tape objects; its definitions are the
     one new table *)
  assert (Hn : nth_tape sC (S (List.length (st_tapes st0))) = committed_tape st0 prev pk).
  { unfold nth_tape. rewrite C1, <- Nat.add_1_r. apply app_nth2_plus. }
  rewrite Hn. cbn [committed_tape to_count to_defs].
  assert (Hd : nth_defs sC (List.length (st_defs st0)) = nth_defs st0 (to_defs (nth_tape st0 prev))).
  { unfold nth_defs at 1. rewrite C2, <- (Nat.add_0_r (List.length _)). apply app_nth2_plus. }
  rewrite Hd, C1, C2, C3, C4, C5. rewrite <- !app_assoc.
  rewrite (app_length (st_defs st0)), Nat.add_comm. cbn [List.length Nat.add].
  repeat split.
Qed.

End ScriptPath.

Section ScriptTheorems.
Variable orc : oracle.
Variable cfg : config.

(* The witness left  pk :: committed script :: surrogate :: ssig :: rest  (make_graftap_witness_scriptspend:
   rest = []), and the point recomputed from (pk, committed script) IS the root (the answer of PPointAdd). *)

(* both cases in one equation *)
Theorem graftap_script_path f prev st0 root fl pk surrogate ssig rest hs h point :
  st_stack st0 = pk :: graftap_committed_script pk :: surrogate :: ssig :: rest ->
  List.length root = 32 -> List.length pk = 32 -> List.length h = 32 -> List.length ssig = 64 ->
  surrogate <> [] -> fits cfg surrogate ->
  orc PSha256 [graftap_committed_script pk] = OOk [hs] -> orc PSha256 [pk ++ hs] = OOk [h] ->
  orc PBaseMult [clamp32 h] = OOk [point] ->
  orc PValidPoint [point] = OOk [[x01]] -> orc PValidPoint [pk] = OOk [[x01]] ->
  orc PPointAdd [point; pk] = OOk [root] ->
  List.length rest + 5 <= c_max_items cfg -> 65 <= c_max_item_size cfg ->
  no_eval_ban cfg -> (to_count (nth_tape st0 prev) + 1 < c_limit cfg)%Z ->
  auth_rest orc cfg (9 + f) [graftap_lock root fl] prev st0 =
    if css_verdict orc pk surrogate ssig
    then verdict_after (fun s => eval_cache cfg (eval_cache cfg s))
           (run_tape orc cfg (S f) (List.length (st_tapes st0) + 2) 0
              (graftap_eval_state st0 prev root fl pk surrogate rest))
    else AuthVerdict false (graftap_committed_state st0 prev root fl pk (surrogate :: rest)).
Proof.
  intros Hs Lr Lk Lh Lss Hne Fs O1 O2 O3 O4 O5 O6 Hit Hsz Hban Hlim.
  unfold graftap_lock at 1. rewrite (auth_last orc cfg).
  destruct (start_facts st0 prev (taproot_lock root fl)) as (S1 & S2 & S3 & S4 & S5 & S6 & S7 & S8 & S9).
  set (st := snd (next_start st0 prev (taproot_lock root fl))) in *.
  set (tid := fst (next_start st0 prev (taproot_lock root fl))) in *.
  rewrite (graftap_lock_run orc cfg f tid st root fl pk surrogate ssig rest hs h point S1 S2
             ltac:(rewrite S3; exact Hs) Lr Lk Lh Lss Hne Fs O1 O2 O3 O4 O5 O6 Hit Hsz Hban
             ltac:(rewrite S4; exact Hlim)).
  cbv zeta.
  destruct (css_verdict orc pk surrogate ssig); [|reflexivity].
  rewrite finish_eval2.
  assert (HT : List.length (st_tapes st) = S (List.length (st_tapes st0))).
  { unfold st, next_start. cbn [snd st_tapes with_cache with_tapes]. rewrite app_length. simpl. lia. }
  rewrite HT.
  replace (List.length (st_tapes st0) + 2) with (S (S (List.length (st_tapes st0)))) by lia.
  reflexivity.
Qed.

(* The oracle verifies (pk, surrogate, ssig): the result is exactly the continuation of
   OP_EVAL on the surrogate — it runs from offset 0 of a NEW tape object (the third one the lock run
   creates: eval_state_facts) on the stack `rest`, call count + 2; the verdict is read from the stack it
   leaves (on the way back the two OP_EVALs only touch the control flag) *)
Theorem graftap_script_path_runs f prev st0 root fl pk surrogate ssig rest hs h point :
  st_stack st0 = pk :: graftap_committed_script pk :: surrogate :: ssig :: rest ->
  List.length root = 32 -> List.length pk = 32 -> List.length h = 32 -> List.length ssig = 64 ->
  surrogate <> [] -> fits cfg surrogate ->
  orc PSha256 [graftap_committed_script pk] = OOk [hs] -> orc PSha256 [pk ++ hs] = OOk [h] ->
  orc PBaseMult [clamp32 h] = OOk [point] ->
  orc PValidPoint [point] = OOk [[x01]] -> orc PValidPoint [pk] = OOk [[x01]] ->
  orc PPointAdd [point; pk] = OOk [root] ->
  List.length rest + 5 <= c_max_items cfg -> 65 <= c_max_item_size cfg ->
  no_eval_ban cfg -> (to_count (nth_tape st0 prev) + 1 < c_limit cfg)%Z ->
  surrogate_verifies orc pk surrogate ssig ->
  auth_rest orc cfg (9 + f) [graftap_lock root fl] prev st0 =
    verdict_after (fun s => eval_cache cfg (eval_cache cfg s))
      (run_tape orc cfg (S f) (List.length (st_tapes st0) + 2) 0
         (graftap_eval_state st0 prev root fl pk surrogate rest)) /\
  vres_of_auth (auth_rest orc cfg (9 + f) [graftap_lock root fl] prev st0) =
    vres_of_run (run_tape orc cfg (S f) (List.length (st_tapes st0) + 2) 0
                   (graftap_eval_state st0 prev root fl pk surrogate rest)).
Proof.
  intros Hs Lr Lk Lh Lss Hne Fs O1 O2 O3 O4 O5 O6 Hit Hsz Hban Hlim Hver.
  apply css_verdict_true in Hver.
  rewrite (graftap_script_path f prev st0 root fl pk surrogate ssig rest hs h point) by assumption.
  rewrite Hver. split; [reflexivity|].
  apply vres_verdict_after.
Qed.

(* The oracle does not verify: verdict False; the committed script was stopped at its VERIFY;
   the heap holds exactly TWO new tape objects, the lock and the committed script — no tape object for the
   surrogate was created; log untouched *)
Theorem graftap_script_path_rejected f prev st0 root fl pk surrogate ssig rest hs h point :
  st_stack st0 = pk :: graftap_committed_script pk :: surrogate :: ssig :: rest ->
  List.length root = 32 -> List.length pk = 32 -> List.length h = 32 -> List.length ssig = 64 ->
  surrogate <> [] -> fits cfg surrogate ->
  orc PSha256 [graftap_committed_script pk] = OOk [hs] -> orc PSha256 [pk ++ hs] = OOk [h] ->
  orc PBaseMult [clamp32 h] = OOk [point] ->
  orc PValidPoint [point] = OOk [[x01]] -> orc PValidPoint [pk] = OOk [[x01]] ->
  orc PPointAdd [point; pk] = OOk [root] ->
  List.length rest + 5 <= c_max_items cfg -> 65 <= c_max_item_size cfg ->
  no_eval_ban cfg -> (to_count (nth_tape st0 prev) + 1 < c_limit cfg)%Z ->
  ~ surrogate_verifies orc pk surrogate ssig ->
  exists st',
    auth_rest orc cfg (9 + f) [graftap_lock root fl] prev st0 = AuthVerdict false st' /\
    st_tapes st' = st_tapes st0 ++ [lock_tape st0 prev root fl; committed_tape st0 prev pk] /\
    st_stack st' = surrogate :: rest /\
    st_log st' = st_log st0.
Proof.
  intros Hs Lr Lk Lh Lss Hne Fs O1 O2 O3 O4 O5 O6 Hit Hsz Hban Hlim Hver.
  assert (Hv : css_verdict orc pk surrogate ssig = false).
  { destruct (css_verdict orc pk surrogate ssig) eqn:E; [|reflexivity].
    apply css_verdict_true in E. contradiction. }
  rewrite (graftap_script_path f prev st0 root fl pk surrogate ssig rest hs h point) by assumption.
  rewrite Hv.
  destruct (committed_state_facts st0 prev root fl pk (surrogate :: rest)) as (C1 & C2 & C3 & C4 & C5).
  eexists. split; [reflexivity|]. split; [exact C1|]. split; [exact C3|exact C5].
Qed.

End ScriptTheorems.

Section Pair.
Variable orc : oracle.
Variable cfg : config.

(* graftap_script_path for the pair (witness, lock): the surrogate runs as tape object 3 with call count 2 on the EMPTY
   stack (pair_eval_state_facts), or the run stops with the tape objects 0..2 only *)
Theorem graftap_script_path_pair f ssig surrogate pk root fl vals hs h point :
  List.length root = 32 -> List.length pk = 32 -> List.length h = 32 -> List.length ssig = 64 ->
  0 < List.length surrogate < 256 -> fits cfg surrogate ->
  orc PSha256 [graftap_committed_script pk] = OOk [hs] -> orc PSha256 [pk ++ hs] = OOk [h] ->
  orc PBaseMult [clamp32 h] = OOk [point] ->
  orc PValidPoint [point] = OOk [[x01]] -> orc PValidPoint [pk] = OOk [[x01]] ->
  orc PPointAdd [point; pk] = OOk [root] ->
  5 <= c_max_items cfg -> 65 <= c_max_item_size cfg ->
  no_eval_ban cfg -> (1 < c_limit cfg)%Z ->
  let w := graftap_script_witness ssig surrogate pk in
  let st1 := with_stack (init_state cfg w vals) [pk; graftap_committed_script pk; surrogate; ssig] in
  run_auth_scripts orc cfg (9 + f) [w; graftap_lock root fl] vals =
    if css_verdict orc pk surrogate ssig
    then verdict_after (fun s => eval_cache cfg (eval_cache cfg s))
           (run_tape orc cfg (S f) 3 0 (graftap_eval_state st1 0 root fl pk surrogate []))
    else AuthVerdict false (graftap_committed_state st1 0 root fl pk [surrogate]).
Proof.
  intros Lr Lk Lh Lss Ls Fs O1 O2 O3 O4 O5 O6 Hit Hsz Hban Hlim w st1.
  assert (Hne : surrogate <> []) by (intro E; subst surrogate; simpl in Ls; lia).
  (* the witness: push ssig ; push surrogate ; push committed script ; push pk *)
  assert (Hv : forall v, In v [ssig; surrogate; graftap_committed_script pk; pk] -> List.length v < 256 /\ fits cfg v).
  { unfold fits in *. intros v [<-|[<-|[<-|[<-|[]]]]]; rewrite ?committed_length by exact Lk; lia. }
  pose proof (pushes_witness_runs orc cfg (9 + f) [ssig; surrogate; graftap_committed_script pk; pk] vals
                ltac:(simpl; lia) ltac:(simpl; lia) Hv) as Hw.
  rewrite <- graftap_script_witness_bytes in Hw.
  unfold run_auth_scripts. fold w in Hw. rewrite Hw.
  exact (graftap_script_path orc cfg f 0 st1 root fl pk surrogate ssig [] hs h point eq_refl Lr Lk Lh Lss Hne Fs
           O1 O2 O3 O4 O5 O6 Hit Hsz Hban Hlim).
Qed.

Lemma pair_eval_state_facts ssig surrogate pk root fl vals :
  let w := graftap_script_witness ssig surrogate pk in
  let st1 := with_stack (init_state cfg w vals) [pk; graftap_committed_script pk; surrogate; ssig] in
  let sS := graftap_eval_state st1 0 root fl pk surrogate [] in
  st_tapes sS = [ {| to_data := w; to_count := 0; to_defs := 0 |};
                  {| to_data := graftap_lock root fl; to_count := 0; to_defs := 0 |};
                  {| to_data := graftap_committed_script pk; to_count := 1; to_defs := 1 |};
                  {| to_data := surrogate; to_count := 2; to_defs := 2 |} ] /\
  st_defs sS = [[]; []; []] /\
  st_stack sS = [] /\
  st_cache sS = cache_del (init_cache cfg vals) returned_key /\
  st_log sS = [].
Proof.
  intros w st1 sS. exact (eval_state_facts st1 0 root fl pk surrogate []).
Qed.

End Pair.

(* the toy oracle of TaprootNonNative (every commitment recomputes to toy_root), which also verifies every
   signature; the configuration of TaprootNonNative with callstack limit 64 *)
Definition toy2 : oracle := fun p a =>
  match p with
  | PVerify => OOk [[x01]]
  | _ => toy_orc p a
  end.
Definition toy2_cfg : config := TaprootNonNative.toy_cfg 64.
Definition toy_ssig : bytes := repeat x05 64.

(* pk = toy_key, surrogate = [x01] (OP_TRUE), the witness exactly as the builder assembles it
   (the one-byte surrogate is pushed by OP_PUSH0): the verdict is True, and it is the verdict
   graftap_script_path_runs computes from the run of the surrogate as tape object 3 *)
Example graftap_example :
  let w := graftap_script_witness1 toy_ssig x01 toy_key in
  let st1 := with_stack (init_state toy2_cfg w []) [toy_key; graftap_committed_script toy_key; [x01]; toy_ssig] in
  run_auth_scripts toy2 toy2_cfg 10 [w; graftap_lock toy_root x00] [] =
    verdict_after (fun s => eval_cache toy2_cfg (eval_cache toy2_cfg s))
      (run_tape toy2 toy2_cfg 2 3 0 (graftap_eval_state st1 0 toy_root x00 toy_key [x01] [])) /\
  vres_of_auth (run_auth_scripts toy2 toy2_cfg 10 [w; graftap_lock toy_root x00] []) = VBool true /\
  (* the key path of the same lock *)
  vres_of_auth (run_auth_scripts toy2 toy2_cfg 10 [graftap_key_witness toy_ssig; graftap_lock toy_root x00] [])
    = VBool true.
Proof.
  intros w st1. split; [|split; vm_compute; reflexivity].
  assert (Hw : run_script toy2 toy2_cfg 10 w [] = Done tt {| fr_tid := 0; fr_ptr := List.length w |} st1)
    by (vm_compute; reflexivity).
  unfold run_auth_scripts. rewrite Hw.
  apply (graftap_script_path_runs toy2 toy2_cfg 1 0 st1 toy_root x00 toy_key [x01] toy_ssig []
           (repeat x11 32) (repeat x11 32) (repeat x22 32) eq_refl eq_refl eq_refl eq_refl eq_refl
           ltac:(discriminate) ltac:(apply Nat.leb_le; reflexivity) eq_refl eq_refl eq_refl eq_refl eq_refl eq_refl
           ltac:(apply Nat.leb_le; reflexivity) ltac:(apply Nat.leb_le; reflexivity) eq_refl eq_refl).
  exists [x01]. split; reflexivity.
Qed.

(* the same lock, the oracle refusing every signature: both paths reject *)
Definition toy3 : oracle := fun p a =>
  match p with
  | PVerify => OOk [[x00]]
  | _ => toy_orc p a
  end.
Example graftap_example_rejected :
  vres_of_auth (run_auth_scripts toy3 toy2_cfg 10
                  [graftap_script_witness1 toy_ssig x01 toy_key; graftap_lock toy_root x00] []) = VBool false /\
  vres_of_auth (run_auth_scripts toy3 toy2_cfg 10
                  [graftap_key_witness toy_ssig; graftap_lock toy_root x00] []) = VBool false.
Proof. split; vm_compute; reflexivity. Qed.

Print Assumptions graftap_bytes_real.
Print Assumptions graftap_witness_bytes_real.
Print Assumptions native_script_lock_exact.
Print Assumptions graftap_key_path.
Print Assumptions graftap_key_path_pair.
Print Assumptions graftap_script_path_wrong_commitment.
Print Assumptions committed_run.
Print Assumptions graftap_lock_run.
Print Assumptions eval_state_facts.
Print Assumptions graftap_script_path.
Print Assumptions graftap_script_path_runs.
Print Assumptions graftap_script_path_rejected.
Print Assumptions graftap_script_path_pair.
Print Assumptions pair_eval_state_facts.
Print Assumptions graftap_example.
Print Assumptions graftap_example_rejected.
