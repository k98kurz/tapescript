(* C20: what an unassigned opcode does — exactly. *)
From Coq Require Import ZArith List Bool Lia.
From Coq.Strings Require Import Byte String.
From TS Require Import Bytes Codec State Prog Ops Interp InterpLemmas BytesLemmas.
Import ListNotations.
Open Scope Z_scope.

(* the count byte read as a signed integer *)
Definition signed8 (b : byte) : Z := if b2z b <? 128 then b2z b else b2z b - 256.

Lemma b2i_single b : bytes_to_int [b] = Some (signed8 b).
Proof.
  unfold bytes_to_int, signed8, blen, be_to_Z. cbn [be_acc List.length].
  pose proof (b2z_range b) as H. rewrite shiftl8.
  replace (0 * 256 + b2z b) with (b2z b) by lia.
  change (8 * Z.of_nat 1) with 8. change (8 - 1) with 7.
  rewrite Z.shiftr_div_pow2 by lia. change (2 ^ 7) with 128. change (2 ^ 8) with 256.
  destruct (b2z b <? 128) eqn:E.
  - apply Z.ltb_lt in E. rewrite Z.div_small by lia. reflexivity.
  - apply Z.ltb_ge in E. assert (b2z b / 128 = 1) by (symmetry; apply Z.div_unique with (r := b2z b - 128); lia).
    rewrite H0. reflexivity.
Qed.

Section Nop.
Variable orc : oracle.
Variable cfg : config.
Variable run : nat -> state -> outcome unit.

Definition data_at (fr : frame) (st : state) : bytes := skipn (fr_ptr fr) (to_data (cur fr st)).
Definition adv (fr : frame) (n : nat) : frame := {| fr_tid := fr_tid fr; fr_ptr := (fr_ptr fr + n)%nat |}.

Lemma read1 fr st b rest A (k : bytes -> prog A) :
  data_at fr st = b :: rest ->
  interp orc cfg run (Act (ARead 1) k) fr st = interp orc cfg run (k [b]) (adv fr 1) st.
Proof.
  intro H. cbn [interp step]. unfold data_at in H.
  assert (Hl : (fr_ptr fr + 1 <= List.length (to_data (cur fr st)))%nat).
  { destruct (Nat.le_gt_cases (List.length (to_data (cur fr st))) (fr_ptr fr)) as [Hle|Hgt].
    - rewrite skipn_all2 in H by exact Hle. discriminate.
    - lia. }
  change (Z.to_nat 1) with 1%nat.
  destruct (List.length (to_data (cur fr st)) <? fr_ptr fr + 1)%nat eqn:E; [apply Nat.ltb_lt in E; lia|].
  rewrite H. reflexivity.
Qed.

Lemma read1_end fr st A (k : bytes -> prog A) :
  data_at fr st = [] ->
  interp orc cfg run (Act (ARead 1) k) fr st = Raised ScriptExecutionError fr st.
Proof.
  intro H. cbn [interp step]. unfold data_at in H.
  assert (Hl : (List.length (to_data (cur fr st)) <= fr_ptr fr)%nat).
  { destruct (Nat.le_gt_cases (List.length (to_data (cur fr st))) (fr_ptr fr)) as [Hle|Hgt]; [exact Hle|].
    assert (List.length (skipn (fr_ptr fr) (to_data (cur fr st))) = 0%nat) by (rewrite H; reflexivity).
    rewrite skipn_length in H0. lia. }
  change (Z.to_nat 1) with 1%nat.
  destruct (List.length (to_data (cur fr st)) <? fr_ptr fr + 1)%nat eqn:E; [reflexivity|].
  apply Nat.ltb_ge in E. lia.
Qed.

(* the whole behaviour of NOP, by cases on the count byte and the stack depth *)
Theorem nop_spec fr st b rest :
  data_at fr st = b :: rest ->
  interp orc cfg run NOP fr st =
    let c := signed8 b in
    if c <? 0 then Raised ScriptExecutionError (adv fr 1) st
    else if (Z.to_nat c <=? List.length (st_stack st))%nat
         then Done tt (adv fr 1) (with_stack st (skipn (Z.to_nat c) (st_stack st)))
         else Raised IndexError (adv fr 1) (with_stack st []).
Proof.
  intro H. unfold NOP, read, act, b2i, sert.
  cbn [bind]. rewrite (read1 fr st b rest) by exact H.
  rewrite b2i_single. cbn [bind interp]. cbv zeta.
  destruct (signed8 b <? 0) eqn:E.
  - apply Z.ltb_lt in E. replace (0 <=? signed8 b) with false by (symmetry; apply Z.leb_gt; lia). reflexivity.
  - apply Z.ltb_ge in E. replace (0 <=? signed8 b) with true by (symmetry; apply Z.leb_le; lia).
    cbn [bind interp]. rewrite interp_bind. unfold nat_of.
    destruct (Z.to_nat (signed8 b) <=? List.length (st_stack st))%nat eqn:E2.
    + apply Nat.leb_le in E2. rewrite repeat_get_ok by exact E2. reflexivity.
    + apply Nat.leb_gt in E2. rewrite repeat_get_underflow by exact E2. reflexivity.
Qed.

Theorem nop_truncated fr st :
  data_at fr st = [] -> interp orc cfg run NOP fr st = Raised ScriptExecutionError fr st.
Proof. intro H. unfold NOP, read, act. cbn [bind]. apply read1_end. exact H. Qed.

End Nop.
