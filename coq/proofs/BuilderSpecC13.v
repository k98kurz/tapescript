(* C13: lock / witness builder pairs — the authorisation verdict, exactly, at the level of the bytes the
   builders emit (model/Builders.v): make_single_sig_lock2 / _witness2 (key committed by its SHAKE256-20 hash) and
   make_multisig_lock with a witness of m pushed signatures (any number of keys and signatures).  The bytes of
   make_single_sig_lock / _witness are the ones BuilderSpec.single_sig_exact speaks of.
   Every oracle answer shape is handled explicitly, except where a theorem states it as a premise. *)
From Coq Require Import ZArith List Bool Lia.
From Coq.Strings Require Import Byte String.
From TS Require Import Bytes State Prog Ops Interp StateLemmas NopSpec StackLemmas
  BytesLemmas TimeSpec TapeLemmas SigSpec AuthSpec Asm MultisigPure MultisigLink BuilderSpec
  Builders TablesCheck.
Import ListNotations.
Local Open Scope nat_scope.

Lemma single_sig_lock_bytes pk fl : Builders.single_sig_lock pk fl = BuilderSpec.single_sig_lock pk fl.
Proof. reflexivity. Qed.

Lemma single_sig_witness_bytes sig : Builders.single_sig_witness sig = BuilderSpec.single_sig_witness sig.
Proof. symmetry. apply single_sig_witness_encoding. Qed.

Lemma single_sig_witness2_bytes sig pk : Builders.single_sig_witness2 sig pk = pushes_bytes [sig; pk].
Proof. reflexivity. Qed.

Lemma single_sig_lock2_bytes h fl :
  Builders.single_sig_lock2 h fl = [x1d] ++ [x1f; x14] ++ push1_bytes h ++ [x22] ++ [x23; fl].
Proof. reflexivity. Qed.

Lemma encode_pushes vs : encode (map P1 vs) = pushes_bytes vs.
Proof.
  unfold encode, pushes_bytes. induction vs as [|v vs IH]; [reflexivity|].
  cbn [map flat_map]. rewrite IH. reflexivity.
Qed.

Lemma multisig_lock_bytes pks fl m :
  Builders.multisig_lock pks fl m = pushes_bytes pks ++ [x46; fl; m; z2b (Z.of_nat (List.length pks))].
Proof.
  unfold Builders.multisig_lock, encode. rewrite flat_map_app. fold (encode (map P1 pks)).
  rewrite encode_pushes. reflexivity.
Qed.

Definition multisig_witness (sigs : list bytes) : bytes := flat_map Builders.single_sig_witness sigs.

Lemma multisig_witness_bytes sigs : multisig_witness sigs = pushes_bytes sigs.
Proof.
  unfold multisig_witness, pushes_bytes. induction sigs as [|s t IH]; [reflexivity|].
  cbn [flat_map]. rewrite IH, single_sig_witness_bytes. reflexivity.
Qed.

(* a toy oracle and configuration for the non-vacuity examples of props/C13.v *)
Definition toy : oracle := fun p _ =>
  match p with
  | PVerify => OOk [[x01]]
  | PShake256 => OOk [repeat x07 20]
  | _ => OErr OtherError
  end.
Definition toy_cfg : config := default_config 1000.
Definition verdict_of (r : auth_result) : option bool :=
  match r with AuthVerdict b _ => Some b | _ => None end.

(* ms_verdict depends on the check only through its values *)
Lemma pfind_ext (c1 c2 : bytes -> bytes -> bool) (H : forall s k, c1 s k = c2 s k) s keys :
  pfind c1 s keys = pfind c2 s keys.
Proof. induction keys as [|k t IH]; cbn [pfind]; [reflexivity|]. rewrite H, IH. reflexivity. Qed.

Lemma pgo_ext (c1 c2 : bytes -> bytes -> bool) (H : forall s k, c1 s k = c2 s k) sigs :
  forall keys conf, pgo c1 sigs keys conf = pgo c2 sigs keys conf.
Proof.
  induction sigs as [|s t IH]; intros keys conf; cbn [pgo]; [reflexivity|].
  rewrite (pfind_ext c1 c2 H). destruct (pfind c2 s keys); apply IH.
Qed.

Lemma ms_verdict_ext (c1 c2 : bytes -> bytes -> bool) (H : forall s k, c1 s k = c2 s k) sigs keys :
  ms_verdict c1 sigs keys = ms_verdict c2 sigs keys.
Proof. unfold ms_verdict. rewrite (pgo_ext c1 c2 H). reflexivity. Qed.

Lemma real_chk_del_returned orc c s k : real_chk orc (cache_del c returned_key) s k = real_chk orc c s k.
Proof. unfold real_chk. rewrite msg_of_del_returned. reflexivity. Qed.

Section Locks.
Variable orc : oracle.
Variable cfg : config.
Hypothesis Hsize : 65 <= c_max_item_size cfg.

Theorem single_sig2_exact f (pk sig h : bytes) fl vals :
  4 <= c_max_items cfg ->
  List.length pk = 32 -> (List.length sig = 64 \/ List.length sig = 65) -> List.length h = 20 ->
  match run_auth_scripts orc cfg (S (S (S (S (S (S f))))))
          [Builders.single_sig_witness2 sig pk; Builders.single_sig_lock2 h fl] vals with
  | AuthVerdict b _ =>
    b = true <-> (orc PShake256 [pk; [x14]] = OOk [h] /\
                  sig_accepts orc cfg pk sig (b2z fl) (init_cache cfg vals))
  | AuthFuel => False
  | AuthUnmod _ =>
    (exists l, orc PShake256 [pk; [x14]] = OOk l /\ List.length l <> 1) \/
    (orc PShake256 [pk; [x14]] = OOk [h] /\
     exists m l, msg_of (sig_flag sig) (init_cache cfg vals) = Some m /\
                 orc PVerify [pk; m; firstn 64 sig] = OOk l /\ List.length l <> 1)
  end.
Proof.
  intros Hitems Hpk Hsig Hh.
  assert (Hv : forall v, In v [sig; pk] -> List.length v < 256 /\ fits cfg v).
  { intros v [<-|[<-|[]]]; unfold fits; lia. }
  rewrite single_sig_witness2_bytes,
    (auth_two orc cfg _ _ _ vals _ _ (pushes_witness_runs orc cfg (S (S (S (S (S (S f)))))) [sig; pk] vals
                                        ltac:(simpl; lia) ltac:(simpl; lia) Hv)).
  cbn [rev app].
  set (st1 := with_stack (init_state cfg _ vals) _).
  pose proof (next_start_tdata st1 0 (Builders.single_sig_lock2 h fl)) as Hd.
  pose proof (next_start_msg st1 0 (Builders.single_sig_lock2 h fl) (sig_flag sig)) as Hm.
  set (tid := fst (next_start st1 0 (Builders.single_sig_lock2 h fl))) in *.
  set (st2 := snd (next_start st1 0 (Builders.single_sig_lock2 h fl))) in *.
  assert (Hs : st_stack st2 = [pk; sig]) by reflexivity.
  clearbody st2 tid.
  assert (Hp : skipn (0 + 3 + List.length (push1_bytes h) + 1) (Builders.single_sig_lock2 h fl) = [x23; fl]).
  { rewrite single_sig_lock2_bytes. apply (skipn_app_r _ _ [x22]), (skipn_app_r 3 _ (push1_bytes h)). reflexivity. }
  rewrite (hash_commit_step orc cfg (S (S f)) tid 0 st2 _ [x23; fl] x14 h pk [sig] Hd (single_sig_lock2_bytes h fl) Hs
             ltac:(unfold fits; lia) ltac:(lia) ltac:(unfold fits; lia) ltac:(simpl; lia) ltac:(lia)).
  destruct (orc PShake256 [pk; [x14]]) as [[|d [|d' l]]|e] eqn:Eo.
  { cbn [finish]. left. exists []. split; [reflexivity|discriminate]. }
  3:{ cbn [finish]. split; [discriminate|]. intros [H _]. discriminate. }
  2:{ cbn [finish]. left. exists (d :: d' :: l). split; [reflexivity|discriminate]. }
  destruct (Nat.ltb_spec (c_max_item_size cfg) (List.length d)) as [Ed|Ed].
  { cbn [finish]. split; [discriminate|]. intros [H _]. injection H as ->. lia. }
  destruct (bytes_eqb h d) eqn:Ehd.
  2:{ cbn [finish]. split; [discriminate|]. intros [H _]. injection H as ->.
      rewrite bytes_eqb_refl in Ehd. discriminate. }
  apply bytes_eqb_eq in Ehd. subst d.
  apply (verdict_spec_iff _ (sig_accepts orc cfg pk sig (b2z fl) (init_cache cfg vals)) _
           (bad_arity orc pk sig (init_cache cfg vals))); [tauto|intro H; right; split; [reflexivity|exact H]|].
  apply finish_spec. eapply check_sig_last;
    [exact Hd|exact Hp|reflexivity|exact Hpk|exact Hsig|unfold room; simpl; lia|exact Hm].
Qed.

Lemma nat_of_byte n : n < 256 -> nat_of (be_to_Z [z2b (Z.of_nat n)]) = n.
Proof. intro H. rewrite be1, b2z_z2b_small by lia. unfold nat_of. apply Nat2Z.id. Qed.

Lemma check_multisig_runs tid st fl m nb keys sigs rest :
  st_stack st = keys ++ sigs ++ rest ->
  List.length keys = nat_of (be_to_Z [nb]) -> List.length sigs = nat_of (be_to_Z [m]) ->
  (forall s k, In s sigs -> In k keys ->
     (blen k = 32)%Z /\ (blen s = 64 \/ blen s = 65)%Z /\
     flags_permitted (sig_flag s) (be_to_Z [fl]) = true /\
     exists msg x, msg_of (sig_flag s) (st_cache st) = Some msg /\
                   List.length msg <= c_max_item_size cfg /\
                   orc PVerify [k; msg; firstn 64 s] = OOk [x]) ->
  List.length rest + 2 <= c_max_items cfg ->
  runs orc cfg 1 tid [x46; fl; m; nb] st
    (with_stack (sigext_log cfg st) (boolb (ms_verdict (real_chk orc (st_cache st)) sigs keys) :: rest)).
Proof using Hsize.
  intros Hs Hn Hm H Hit. apply (runs_op orc cfg tid x46 [fl; m; nb]); [reflexivity|]. intros f p tl Hd.
  change (dispatch (N.to_nat (Byte.to_N x46))) with OP_CHECK_MULTISIG.
  rewrite (check_multisig_real orc cfg _ fl m nb tl keys sigs rest _ st Hd Hs Hn Hm H Hsize Hit).
  unfold adv. cbn [fr_tid fr_ptr List.length]. do 2 f_equal. lia.
Qed.

(* keys pk_1 .. pk_n in the lock, signatures sig_1 .. sig_m pushed by the witness: at CHECK_MULTISIG the
   stack is pk_n .. pk_1 sig_m .. sig_1 (top first), so the greedy loop of the instruction sees the
   signatures and the keys in REVERSE order of the builder arguments *)
Theorem multisig_lock_exact f (pks sigs : list bytes) fl m vals :
  List.length pks < 256 -> b2z m = Z.of_nat (List.length sigs) ->
  List.length pks + List.length sigs <= c_max_items cfg -> 2 <= c_max_items cfg ->
  (forall k, In k pks -> List.length k = 32) ->
  (forall s, In s sigs -> (List.length s = 64 \/ List.length s = 65) /\
                          flags_permitted (sig_flag s) (b2z fl) = true) ->
  (forall s k, In s sigs -> In k pks ->
     exists msg x, msg_of (sig_flag s) (init_cache cfg vals) = Some msg /\
                   List.length msg <= c_max_item_size cfg /\
                   orc PVerify [k; msg; firstn 64 s] = OOk [x]) ->
  exists stf,
    run_auth_scripts orc cfg (S (S (List.length sigs + List.length pks + f)))
      [multisig_witness sigs; Builders.multisig_lock pks fl m] vals =
    AuthVerdict (ms_verdict (real_chk orc (init_cache cfg vals)) (rev sigs) (rev pks)) stf.
Proof.
  intros Hn Hm Hit Hit2 Hk Hsg Hor.
  assert (Hvs : forall s, In s sigs -> List.length s < 256 /\ fits cfg s).
  { intros s Hs. unfold fits. destruct (proj1 (Hsg s Hs)) as [H|H]; rewrite H; lia. }
  assert (Hvk : forall k, In k pks -> List.length k < 256 /\ fits cfg k).
  { intros k Hk'. unfold fits. rewrite (Hk k Hk'). lia. }
  rewrite multisig_witness_bytes,
    (auth_two orc cfg _ _ _ vals _ _
       (pushes_witness_runs orc cfg (S (S (List.length sigs + List.length pks + f))) sigs vals
          ltac:(blia) ltac:(blia) Hvs)).
  set (st1 := with_stack (init_state cfg _ vals) _).
  set (lock := Builders.multisig_lock pks fl m).
  pose proof (next_start_tdata st1 0 lock) as Hd.
  set (tid := fst (next_start st1 0 lock)) in *.
  set (st2 := snd (next_start st1 0 lock)) in *.
  assert (Hs : st_stack st2 = rev sigs) by reflexivity.
  assert (Hc : st_cache st2 = cache_del (init_cache cfg vals) returned_key) by reflexivity.
  clearbody st2 tid. unfold lock in Hd. clear st1 lock. rewrite multisig_lock_bytes in Hd.
  set (nb := z2b (Z.of_nat (List.length pks))) in *.
  set (st3 := with_stack st2 (rev pks ++ rev sigs)).
  assert (Hcm : runs orc cfg 1 tid [x46; fl; m; nb] st3
                  (with_stack (sigext_log cfg st3)
                     [boolb (ms_verdict (real_chk orc (st_cache st3)) (rev sigs) (rev pks))])).
  { apply check_multisig_runs.
      - unfold st3. cbn [st_stack with_stack]. rewrite app_nil_r. reflexivity.
      - rewrite rev_length. unfold nb. symmetry. apply nat_of_byte. exact Hn.
      - rewrite rev_length, be1, Hm. unfold nat_of. rewrite Nat2Z.id. reflexivity.
      - intros s k Hs' Hk'. apply in_rev in Hs'. apply in_rev in Hk'.
        destruct (Hsg s Hs') as [Hl Hf]. destruct (Hor s k Hs' Hk') as (msg & x & Hmsg & Hlen & Ho).
        unfold blen. rewrite (Hk k Hk'). split; [reflexivity|]. split; [lia|].
        rewrite be1. split; [exact Hf|]. exists msg, x.
        change (st_cache st3) with (st_cache st2). rewrite Hc, msg_of_del_returned. auto.
      - simpl. lia. }
  rewrite (runs_end (p := 0) (runs_app (pushes_runs orc cfg tid pks st2 (rev sigs) Hvk Hs ltac:(rewrite rev_length; lia)) Hcm)
             Hd eq_refl) by lia.
  cbn [finish st_stack with_stack]. rewrite boolb_is_true.
  eexists. f_equal. apply ms_verdict_ext. intros s k.
  change (st_cache st3) with (st_cache st2). rewrite Hc. apply real_chk_del_returned.
Qed.

End Locks.

Print Assumptions single_sig2_exact.
Print Assumptions multisig_lock_exact.
