(* C18 link: the byte-level model of /repo/tapescript/AMHL.py and tools.release_left_amhl_lock (model/AMHL.v)
   computes exactly the abstract functions of Algebra.v (Y_list, scalar_sum / total, prefix_sum, check_setup,
   release, verify_lock_key, release_left) whenever the oracle is interpreted by an algebraic structure through
   byte encodings.  Hence the algebraic theorems amhl_points, amhl_check_setup, amhl_final_key, amhl_release and
   amhl_cascade of Algebra.v are theorems about what AMHL.py returns.

   Scalars as byte strings.  AMHL.py feeds to libsodium byte strings that are NOT canonical encodings of reduced
   scalars: a sample is clamp(sha256(..)), any 255-bit number.  As in AdapterLink.v ([key_repr]) a byte string kb
   REPRESENTS a scalar x when the oracle's answers on kb are those of x.  Here the relation is a Section variable
   [srep : bytes -> scalar -> Prop] (for libsodium: kb is the little-endian encoding of a number congruent to x
   modulo the group order) with exactly these premises:
     R_es      every canonical encoding es a represents a;
     O_base    PBaseMult  [kb]      = ep (x G)          whenever kb represents x;
     O_sadd    PScalarAdd [ka; kb]  = es (a + b)        whenever ka represents a and kb represents b;
     O_ssub    PScalarSub [ka; kb]  = es (a - b)        whenever ka represents a and kb represents b;
     R_sample  the sample byte string  clamp (h256 (seed ++ i as 8 bytes big endian))  represents [yv seed i].
   SHA-256 stays abstract: [h256] is any function with 32-byte values that the oracle's PSha256 answers with, and
   [yv] is any family of scalars satisfying R_sample.  Points are used only through their encodings ep P
   (O_padd, O_valid). *)
From Coq Require Import ZArith List Bool Lia Ring Ring_theory.
From Coq.Strings Require Import Byte.
From TS Require Import Bytes State Prog Ops Interp StateLemmas BytesLemmas TaprootSpec Algebra AMHL.
Import ListNotations.
Local Open Scope nat_scope.


(* the pure clamp of model/AMHL.v is the clamp32 of the development ... *)
Lemma clamp_pure_clamp32 h : clamp_pure h = clamp32 h.
Proof. reflexivity. Qed.

(* ... and [clamp_false] is what the VM's clamp_scalar _ false returns *)
Lemma clamp_false_interp orc cfg run h c fr st :
  clamp_false h = Some c -> interp orc cfg run (clamp_scalar h false) fr st = Done c fr st.
Proof.
  unfold clamp_false, clamp_scalar. destruct (blen h <? 32)%Z; [discriminate|].
  intro H. injection H as <-. reflexivity.
Qed.

Lemma omap_map {A B} (f : A -> option B) (g : A -> B) l :
  (forall a, In a l -> f a = Some (g a)) -> omap f l = Some (map g l).
Proof.
  induction l as [|a l IH]; intro H; [reflexivity|].
  cbn [omap map]. rewrite (H a (or_introl eq_refl)). cbn [obind].
  rewrite IH by (intros b Hb; apply H; right; exact Hb). reflexivity.
Qed.

Lemma nth_error_map_nth {A B} (f : A -> B) l i d :
  i < List.length l -> nth_error (map f l) i = Some (f (nth i l d)).
Proof. intro H. apply map_nth_error. apply nth_error_nth'. exact H. Qed.

Lemma last_map {A B} (f : A -> B) l d d' : l <> [] -> last (map f l) d' = f (last l d).
Proof.
  induction l as [|a l IH]; intro H; [congruence|].
  destruct l as [|b l]; [reflexivity|].
  change (last (map f (a :: b :: l)) d') with (last (map f (b :: l)) d').
  change (last (a :: b :: l) d) with (last (b :: l) d). apply IH. discriminate.
Qed.


Section Link.
  (* the algebraic structure: the interface of Algebra.v (Section Alg), the part its AMHL theorems use *)
  Variable scalar : Type.
  Variables (s0 s1 : scalar) (sadd smul ssub : scalar -> scalar -> scalar) (sopp : scalar -> scalar).
  Hypothesis scalar_ring : ring_theory s0 s1 sadd smul ssub sopp (@eq scalar).
  Variable point : Type.
  Variables (p0 : point) (padd : point -> point -> point).
  Hypothesis padd_comm : forall P Q, padd P Q = padd Q P.
  Hypothesis padd_assoc : forall P Q R, padd P (padd Q R) = padd (padd P Q) R.
  Variable sact : scalar -> point -> point.          (* [act] of Algebra.v *)
  Hypothesis act_add_l : forall a b P, sact (sadd a b) P = padd (sact a P) (sact b P).
  Hypothesis act_mul : forall a b P, sact (smul a b) P = sact a (sact b P).
  Variable G : point.

  Variables (es : scalar -> bytes) (ep : point -> bytes).
  Hypothesis len_es : forall a, List.length (es a) = 32.
  Hypothesis len_ep : forall P, List.length (ep P) = 32.
  Hypothesis ep_inj : forall P Q, ep P = ep Q -> P = Q.

  Variable h256 : bytes -> bytes.
  Hypothesis len_h256 : forall b, List.length (h256 b) = 32.

  Variable srep : bytes -> scalar -> Prop.
  Hypothesis R_es : forall a, srep (es a) a.

  Variable orc : oracle.
  Hypothesis O_sha : forall b, orc PSha256 [b] = OOk [h256 b].
  Hypothesis O_base : forall kb x, srep kb x -> orc PBaseMult [kb] = OOk [ep (sact x G)].
  Hypothesis O_sadd : forall ka a kb b, srep ka a -> srep kb b -> orc PScalarAdd [ka; kb] = OOk [es (sadd a b)].
  Hypothesis O_ssub : forall ka a kb b, srep ka a -> srep kb b -> orc PScalarSub [ka; kb] = OOk [es (ssub a b)].
  Hypothesis O_padd : forall P Q, orc PPointAdd [ep P; ep Q] = OOk [ep (padd P Q)].
  Hypothesis O_valid : forall P, orc PValidPoint [ep P] = OOk [[x01]].

  (* the samples: the byte string AMHL.sample(seed, i) returns, and the scalar it represents *)
  Definition sampleb (seed : bytes) (i : nat) : bytes := clamp_pure (h256 (seed ++ Z_to_be 8 (Z.of_nat i))).
  Variable yv : bytes -> nat -> scalar.
  Hypothesis R_sample : forall seed i, srep (sampleb seed i) (yv seed i).

  (* the setup of n users from the (effective) seed, as byte strings and as scalars / points *)
  Definition ysb (seed : bytes) (n : nat) : list bytes := map (sampleb seed) (seq 0 n).
  Definition ysv (seed : bytes) (n : nat) : list scalar := map (yv seed) (seq 0 n).
  Definition Ysv (seed : bytes) (n : nat) : list point := Y_list padd sact G (ysv seed n).

  Notation psum := (prefix_sum s0 sadd).
  Notation totalA := (total s0 sadd).


  Lemma oprim1_ok p args r : orc p args = OOk [r] -> oprim1 orc p args = Some r.
  Proof. intro H. unfold oprim1. rewrite H. reflexivity. Qed.

  Lemma oneway_ok kb x : srep kb x -> oneway orc kb = Some (ep (sact x G)).
  Proof. intro H. apply oprim1_ok, O_base, H. Qed.

  Lemma aggregate2_ok P Q : AMHL.aggregate_points orc [ep P; ep Q] = Some (ep (padd P Q)).
  Proof.
    unfold AMHL.aggregate_points. cbn [AMHL.check_points AMHL.sum_with].
    rewrite !(oprim1_ok _ _ _ (O_valid _)). cbn [obind].
    change (bytes_to_bool [x01]) with true. cbn [obind].
    rewrite (oprim1_ok _ _ _ (O_padd P Q)). reflexivity.
  Qed.

  Lemma sample_ok seed i : (Z.of_nat i < 2 ^ 64)%Z -> sample orc seed i = Some (sampleb seed i).
  Proof.
    intro Hi. unfold sample, index_bytes.
    destruct (Z.ltb_spec (Z.of_nat i) (2 ^ 64)) as [_|Hc]; [|lia]. cbn [obind].
    rewrite (oprim1_ok _ _ _ (O_sha _)). cbn [obind].
    unfold clamp_false, blen. rewrite len_h256. reflexivity.
  Qed.

  Lemma samples_ok fresh n seed : (Z.of_nat n <= 2 ^ 64)%Z ->
    samples orc fresh n seed = Some (ysb (eff_seed fresh seed) n).
  Proof.
    intro Hn. unfold samples, ysb. apply omap_map.
    intros i Hi. apply in_seq in Hi. apply sample_ok. lia.
  Qed.

  Lemma ys_length seed n : List.length (ysv seed n) = n.
  Proof. unfold ysv. rewrite map_length, seq_length. reflexivity. Qed.

  Lemma ysb_length seed n : List.length (ysb seed n) = n.
  Proof. unfold ysb. rewrite map_length, seq_length. reflexivity. Qed.

  Lemma Ys_length seed n : List.length (Ysv seed n) = n.
  Proof. unfold Ysv. rewrite Y_list_length. apply ys_length. Qed.

  Lemma ys_nth seed n i : i < n -> nth i (ysv seed n) s0 = yv seed i.
  Proof.
    intro Hi. unfold ysv.
    rewrite (nth_indep _ s0 (yv seed 0)) by (rewrite map_length, seq_length; exact Hi).
    rewrite map_nth, seq_nth by exact Hi. reflexivity.
  Qed.

  Lemma ysb_nth_error seed n i : i < n -> nth_error (ysb seed n) i = Some (sampleb seed i).
  Proof.
    intro Hi. unfold ysb. rewrite (nth_error_map_nth _ _ _ 0) by (rewrite seq_length; exact Hi).
    rewrite seq_nth by exact Hi. reflexivity.
  Qed.

  Lemma Yb_nth seed n i : i < n -> nth i (map ep (Ysv seed n)) [] = ep (nth i (Ysv seed n) p0).
  Proof.
    intro Hi. rewrite (nth_indep _ [] (ep p0)) by (rewrite map_length, Ys_length; exact Hi). apply map_nth.
  Qed.

  Lemma ys_ne seed n : 1 <= n -> ysv seed n <> [].
  Proof. intros Hn E. apply (f_equal (@List.length _)) in E. rewrite ys_length in E. cbn in E. lia. Qed.

  Lemma srep_samples seed l : Forall2 srep (map (sampleb seed) l) (map (yv seed) l).
  Proof. induction l as [|i l IH]; cbn [map]; constructor; [apply R_sample | exact IH]. Qed.


  Lemma setup_loop_ok kbs : forall xs prev, Forall2 srep kbs xs ->
    setup_loop orc (ep prev) kbs = Some (map ep (Y_from padd sact G prev xs)).
  Proof.
    induction kbs as [|kb kbs IH]; intros xs prev H; inversion H as [|? x ? xs' Hx Hr]; subst.
    - reflexivity.
    - cbn [setup_loop Y_from map]. rewrite (oneway_ok kb x Hx). cbn [obind].
      rewrite aggregate2_ok. cbn [obind]. rewrite (IH xs' _ Hr). reflexivity.
  Qed.

  Theorem amhl_setup_computes fresh n seed :
    1 <= n -> (Z.of_nat n <= 2 ^ 64)%Z ->
    let sd := eff_seed fresh seed in
    AMHL.setup orc fresh n seed = Some (ysb sd n, map ep (Ysv sd n)).
  Proof.
    intros Hn Hb sd. unfold AMHL.setup. rewrite (samples_ok fresh n seed Hb). fold sd. cbn [obind].
    destruct n as [|m]; [lia|].
    unfold Ysv, ysv, ysb. cbn [seq map Y_list].
    rewrite (oneway_ok _ _ (R_sample sd 0)). cbn [obind].
    rewrite (setup_loop_ok _ _ _ (srep_samples sd (seq 1 m))). reflexivity.
  Qed.

  (* the i-th point of the setup is (y_0 + ... + y_i) G   (Algebra.amhl_points) *)
  Corollary amhl_setup_points seed n i : i < n ->
    nth i (map ep (Ysv seed n)) [] = ep (sact (psum (ysv seed n) i) G).
  Proof.
    intro Hi. rewrite Yb_nth by exact Hi. unfold Ysv.
    rewrite (amhl_points scalar s0 sadd point p0 padd sact act_add_l G) by (rewrite ys_length; exact Hi).
    reflexivity.
  Qed.


  Lemma sum_with_sadd_ok kbs : forall xs accb acc, srep accb acc -> Forall2 srep kbs xs ->
    exists k, AMHL.sum_with orc PScalarAdd accb kbs = Some k /\ srep k (fold_left sadd xs acc).
  Proof.
    induction kbs as [|kb kbs IH]; intros xs accb acc Ha H; inversion H as [|? x ? xs' Hx Hr]; subst.
    - exists accb. split; [reflexivity | exact Ha].
    - cbn [AMHL.sum_with fold_left]. rewrite (oprim1_ok _ _ _ (O_sadd _ _ _ _ Ha Hx)). cbn [obind].
      apply IH; [apply R_es | exact Hr].
  Qed.

  Lemma scalar_sum_ok kbs xs : Forall2 srep kbs xs -> kbs <> [] ->
    exists k, AMHL.scalar_sum orc kbs = Some k /\ srep k (Algebra.scalar_sum s0 sadd xs).
  Proof.
    intros H Hne. inversion H as [|kb x kbs' xs' Hx Hr]; subst; [congruence|].
    cbn [AMHL.scalar_sum Algebra.scalar_sum]. apply sum_with_sadd_ok; assumption.
  Qed.


  Lemma setup_for_first seed n : 1 <= n ->
    AMHL.setup_for orc (ysb seed n, map ep (Ysv seed n)) 0 = Some (VFirst (sampleb seed 0)).
  Proof.
    intro Hn. unfold AMHL.setup_for. cbn [Nat.eqb fst]. rewrite ysb_nth_error by lia. reflexivity.
  Qed.

  Lemma setup_for_mid seed n i : 0 < i < n ->
    AMHL.setup_for orc (ysb seed n, map ep (Ysv seed n)) i =
    Some (VMid (ep (nth (i - 1) (Ysv seed n) p0)) (ep (nth i (Ysv seed n) p0)) (sampleb seed i)).
  Proof.
    intro Hi. unfold AMHL.setup_for. cbn [fst snd]. rewrite ysb_length.
    destruct (Nat.eqb_spec i 0) as [E|_]; [lia|].
    destruct (Nat.eqb_spec i n) as [E|_]; [lia|].
    rewrite !(nth_error_map_nth ep _ _ p0) by (rewrite Ys_length; lia). cbn [obind].
    rewrite ysb_nth_error by lia. reflexivity.
  Qed.

  Lemma setup_for_last seed n : 1 <= n ->
    exists k, AMHL.setup_for orc (ysb seed n, map ep (Ysv seed n)) n =
                Some (VLast (ep (nth (n - 1) (Ysv seed n) p0)) k) /\
              srep k (totalA (ysv seed n)).
  Proof.
    intro Hn. unfold AMHL.setup_for. cbn [fst snd]. rewrite ysb_length.
    destruct (Nat.eqb_spec n 0) as [E|_]; [lia|]. rewrite Nat.eqb_refl.
    rewrite (nth_error_map_nth ep _ _ p0) by (rewrite Ys_length; lia). cbn [obind].
    destruct (scalar_sum_ok (ysb seed n) (ysv seed n)) as [k [E R]].
    - apply srep_samples.
    - intro E. apply (f_equal (@List.length _)) in E. rewrite ysb_length in E. cbn in E. lia.
    - exists k. rewrite E. split; [reflexivity | exact R].
  Qed.

  (* check_setup on the three shapes *)
  Lemma check_setup_first y0 n : AMHL.check_setup orc (VFirst y0) 0 n = Some true.
  Proof. reflexivity. Qed.

  Lemma check_setup_last Yl k n : 1 <= n -> AMHL.check_setup orc (VLast Yl k) n n = Some true.
  Proof.
    intro Hn. unfold AMHL.check_setup. destruct (Nat.eqb_spec n 0); [lia|]. rewrite Nat.eqb_refl. reflexivity.
  Qed.

  (* 0 < i < n: the verdict is the truth value of Algebra.check_setup *)
  Lemma check_setup_mid Yl Yr yb y i n : 0 < i < n -> srep yb y ->
    AMHL.check_setup orc (VMid (ep Yl) (ep Yr) yb) i n =
    Some (bytes_eqb (ep (padd Yl (sact y G))) (ep Yr)).
  Proof.
    intros Hi Hy. unfold AMHL.check_setup.
    destruct (Nat.eqb_spec i 0) as [E|_]; [lia|].
    destruct (Nat.eqb_spec i n) as [E|_]; [lia|].
    rewrite (oneway_ok _ _ Hy). cbn [obind]. rewrite aggregate2_ok. reflexivity.
  Qed.

  Lemma check_setup_mid_iff Yl Yr yb y i n : 0 < i < n -> srep yb y ->
    AMHL.check_setup orc (VMid (ep Yl) (ep Yr) yb) i n = Some true <-> Algebra.check_setup padd sact G Yl y Yr.
  Proof.
    intros Hi Hy. rewrite (check_setup_mid Yl Yr yb y i n Hi Hy). unfold Algebra.check_setup. split.
    - intro H. injection H as H. apply bytes_eqb_eq in H. apply ep_inj, H.
    - intros ->. rewrite bytes_eqb_refl. reflexivity.
  Qed.

  (* the view of a middle user of the explicit setup passes: Algebra.amhl_check_setup *)
  Lemma check_setup_mid_ok sd n i : 0 < i < n ->
    AMHL.check_setup orc (VMid (ep (nth (i - 1) (Ysv sd n) p0)) (ep (nth i (Ysv sd n) p0)) (sampleb sd i)) i n =
    Some true.
  Proof.
    intro Hr. apply (check_setup_mid_iff _ _ _ (yv sd i) i n Hr (R_sample sd i)).
    rewrite <- (ys_nth sd n i) by lia. unfold Ysv.
    apply (amhl_check_setup scalar s0 sadd point p0 padd sact act_add_l G). rewrite ys_length. exact Hr.
  Qed.

  Lemma check_setup_for_ok seed n i : 1 <= n -> i <= n ->
    exists v, AMHL.setup_for orc (ysb seed n, map ep (Ysv seed n)) i = Some v /\
              AMHL.check_setup orc v i n = Some true.
  Proof.
    intros Hn Hi.
    destruct (Nat.eq_dec i 0) as [->|Hi0]; [|destruct (Nat.eq_dec i n) as [->|Hin]].
    - eexists. split; [apply setup_for_first; exact Hn | apply check_setup_first].
    - destruct (setup_for_last seed n Hn) as [k [E _]].
      eexists. split; [exact E | apply check_setup_last; exact Hn].
    - eexists. split; [apply setup_for_mid | apply check_setup_mid_ok]; lia.
  Qed.

  (* check_setup accepts the view setup_for gives to every user 0 <= i <= n of the model's setup *)
  Theorem amhl_check_setup_ok fresh n seed i :
    1 <= n -> (Z.of_nat n <= 2 ^ 64)%Z -> i <= n ->
    exists s v, AMHL.setup orc fresh n seed = Some s /\
                AMHL.setup_for orc s i = Some v /\
                AMHL.check_setup orc v i n = Some true.
  Proof.
    intros Hn Hb Hi. eexists.
    destruct (check_setup_for_ok (eff_seed fresh seed) n i Hn Hi) as [v [E1 E2]].
    exists v. split; [apply (amhl_setup_computes fresh n seed Hn Hb)|]. split; [exact E1 | exact E2].
  Qed.

  (* the three cases with the views written out *)
  Theorem amhl_check_setup_cases fresh n seed :
    1 <= n -> (Z.of_nat n <= 2 ^ 64)%Z ->
    let sd := eff_seed fresh seed in
    exists s, AMHL.setup orc fresh n seed = Some s /\
      (* i = 0 *)
      (AMHL.setup_for orc s 0 = Some (VFirst (sampleb sd 0)) /\
       AMHL.check_setup orc (VFirst (sampleb sd 0)) 0 n = Some true) /\
      (* 0 < i < n *)
      (forall i, 0 < i < n ->
         let v := VMid (ep (nth (i - 1) (Ysv sd n) p0)) (ep (nth i (Ysv sd n) p0)) (sampleb sd i) in
         AMHL.setup_for orc s i = Some v /\ AMHL.check_setup orc v i n = Some true) /\
      (* i = n *)
      (exists k, let v := VLast (ep (nth (n - 1) (Ysv sd n) p0)) k in
         AMHL.setup_for orc s n = Some v /\ AMHL.check_setup orc v n n = Some true /\
         srep k (totalA (ysv sd n))).
  Proof.
    intros Hn Hb sd. eexists. split; [apply (amhl_setup_computes fresh n seed Hn Hb)|]. fold sd.
    split; [|split].
    - split; [apply setup_for_first; exact Hn | reflexivity].
    - intros i Hr v. split; [apply setup_for_mid | apply check_setup_mid_ok]; exact Hr.
    - destruct (setup_for_last sd n Hn) as [k [E R]]. exists k. intro v.
      split; [exact E|]. split; [apply check_setup_last; exact Hn | exact R].
  Qed.


  Lemma verify_lock_key_ok L kb k : srep kb k ->
    AMHL.verify_lock_key orc (ep L) kb = Some (bytes_eqb (ep L) (ep (sact k G))).
  Proof. intro H. unfold AMHL.verify_lock_key. rewrite (oneway_ok _ _ H). reflexivity. Qed.

  (* the verdict is the truth value of Algebra.verify_lock_key *)
  Lemma verify_lock_key_iff L kb k : srep kb k ->
    AMHL.verify_lock_key orc (ep L) kb = Some true <-> Algebra.verify_lock_key sact G L k.
  Proof.
    intro H. rewrite (verify_lock_key_ok L kb k H). unfold Algebra.verify_lock_key. split.
    - intro E. injection E as E. apply bytes_eqb_eq in E. apply ep_inj, E.
    - intros <-. rewrite bytes_eqb_refl. reflexivity.
  Qed.

  Theorem amhl_final_key_ok fresh n seed :
    1 <= n -> (Z.of_nat n <= 2 ^ 64)%Z ->
    let sd := eff_seed fresh seed in
    exists s Yl k,
      AMHL.setup orc fresh n seed = Some s /\
      AMHL.setup_for orc s n = Some (VLast Yl k) /\
      Yl = last (snd s) [] /\
      srep k (totalA (ysv sd n)) /\
      AMHL.verify_lock_key orc (last (snd s) []) k = Some true.
  Proof.
    intros Hn Hb sd.
    destruct (setup_for_last sd n Hn) as [k [E R]].
    assert (HL : last (map ep (Ysv sd n)) [] = ep (nth (n - 1) (Ysv sd n) p0)).
    { rewrite (last_map ep _ p0).
      - rewrite last_nth, Ys_length. reflexivity.
      - intro E0. apply (f_equal (@List.length _)) in E0. rewrite Ys_length in E0. cbn in E0. lia. }
    eexists. exists (ep (nth (n - 1) (Ysv sd n) p0)), k.
    split; [apply (amhl_setup_computes fresh n seed Hn Hb)|]. fold sd. cbn [snd].
    split; [exact E|]. split; [symmetry; exact HL|]. split; [exact R|].
    rewrite HL. apply (verify_lock_key_iff _ _ _ R).
    rewrite <- (Ys_length sd n) at 1. rewrite <- last_nth. unfold Ysv.
    apply (amhl_final_key scalar s0 sadd point p0 padd sact act_add_l G). apply ys_ne. exact Hn.
  Qed.


  Theorem amhl_release_computes kb k yb y : srep kb k -> srep yb y ->
    AMHL.release orc kb yb = Some (es (Algebra.release ssub k y)).
  Proof. intros Hk Hy. unfold AMHL.release, Algebra.release. apply oprim1_ok, O_ssub; assumption. Qed.

  (* general form: the two 32-byte fields represent sa and s *)
  Theorem amhl_release_left_computes_gen w sg yb sa s y :
    List.length w = 68 -> List.length sg = 64 ->
    srep (firstn 32 (skipn 2 w)) sa -> srep (skipn 32 sg) s -> srep yb y ->
    AMHL.release_left_amhl_lock orc w sg yb = Some (es (release_left ssub sa s y)).
  Proof.
    intros Hw Hs Ra Rs Ry. unfold AMHL.release_left_amhl_lock. rewrite Hw, Hs. cbn [Nat.eqb negb]. cbv zeta.
    erewrite (oprim1_ok PScalarSub) by (apply O_ssub; eassumption). cbn [obind].
    unfold release_left, recover. apply amhl_release_computes; [apply R_es | exact Ry].
  Qed.

  (* the scalars sa, s embedded (as their encodings) in witness and signature bytes:
     witness = 2 bytes (push opcode, length) ++ es sa ++ 34 bytes ; signature = 32 bytes (R) ++ es s *)
  Theorem amhl_release_left_computes pre post Rb yb sa s y :
    List.length pre = 2 -> List.length post = 34 -> List.length Rb = 32 -> srep yb y ->
    AMHL.release_left_amhl_lock orc (pre ++ es sa ++ post) (Rb ++ es s) yb =
    Some (es (release_left ssub sa s y)).
  Proof.
    intros Hpre Hpost HR Ry.
    apply amhl_release_left_computes_gen.
    - rewrite !app_length, len_es, Hpre, Hpost. reflexivity.
    - rewrite app_length, len_es, HR. reflexivity.
    - rewrite (skipn_len_app pre _ 2 Hpre), (firstn_len_app (es sa) post 32 (len_es sa)). apply R_es.
    - rewrite (skipn_len_app Rb _ 32 HR). apply R_es.
    - exact Ry.
  Qed.

  (* the length checks *)
  Lemma release_left_bad_witness w sg yb : List.length w <> 68 -> AMHL.release_left_amhl_lock orc w sg yb = None.
  Proof.
    intro H. unfold AMHL.release_left_amhl_lock. destruct (Nat.eqb_spec (List.length w) 68); [contradiction | reflexivity].
  Qed.

  Lemma release_left_bad_signature w sg yb : List.length sg <> 64 -> AMHL.release_left_amhl_lock orc w sg yb = None.
  Proof.
    intro H. unfold AMHL.release_left_amhl_lock. destruct (Nat.eqb (List.length w) 68); [|reflexivity].
    destruct (Nat.eqb_spec (List.length sg) 64); [contradiction | reflexivity].
  Qed.

  (* the chain: Algebra.amhl_release / amhl_cascade on bytes *)

  (* From hop i's adapter scalar sa and published signature scalar s (s - sa = the hop key y_0 + ... + y_i) and
     his own sample y_i, the left neighbour computes the encoding of y_0 + ... + y_{i-1}, and verify_lock_key of
     hop i-1's point (the (i-1)-th point returned by setup) accepts it. *)
  Theorem amhl_release_chain fresh n seed i pre post Rb sa s :
    1 <= n -> (Z.of_nat n <= 2 ^ 64)%Z -> 0 < i < n ->
    List.length pre = 2 -> List.length post = 34 -> List.length Rb = 32 ->
    let sd := eff_seed fresh seed in
    recover ssub s sa = psum (ysv sd n) i ->
    exists yb Yb kb,
      AMHL.setup orc fresh n seed = Some (yb, Yb) /\
      AMHL.release_left_amhl_lock orc (pre ++ es sa ++ post) (Rb ++ es s) (nth i yb []) = Some kb /\
      kb = es (psum (ysv sd n) (i - 1)) /\
      srep kb (psum (ysv sd n) (i - 1)) /\
      AMHL.verify_lock_key orc (nth (i - 1) Yb []) kb = Some true.
  Proof.
    intros Hn Hb Hi Hpre Hpost HR sd Hrec.
    destruct (amhl_release scalar s0 s1 sadd smul ssub sopp scalar_ring point p0 padd sact act_add_l G
                (ysv sd n) i) as [E1 E2]; [rewrite ys_length; exact Hi|].
    rewrite ys_nth in E1, E2 by lia.
    do 3 eexists. split; [apply (amhl_setup_computes fresh n seed Hn Hb)|]. fold sd.
    assert (Hy : nth i (ysb sd n) [] = sampleb sd i).
    { apply nth_error_nth. apply ysb_nth_error. lia. }
    rewrite Hy.
    assert (Hk : release_left ssub sa s (yv sd i) = psum (ysv sd n) (i - 1)).
    { unfold release_left. rewrite Hrec. exact E1. }
    split; [apply (amhl_release_left_computes pre post Rb _ sa s (yv sd i) Hpre Hpost HR (R_sample sd i))|].
    rewrite Hk. split; [reflexivity|]. split; [apply R_es|].
    rewrite Yb_nth by lia. apply (verify_lock_key_iff _ _ _ (R_es _)). rewrite <- E1. exact E2.
  Qed.

  (* The same with hop i's adapter and signature produced as in Algebra.amhl_cascade: the adapter is made for
     T_i = Y_i by signer x with nonce r on m, and decrypted with the hop key y_0 + ... + y_i.  The released key
     also decrypts hop i-1's adapter into a valid signature. *)
  Theorem amhl_cascade_chain (msg : Type) (chal : point -> point -> msg -> scalar)
      fresh n seed i pre post x r m x' r' m' :
    1 <= n -> (Z.of_nat n <= 2 ^ 64)%Z -> 0 < i < n ->
    List.length pre = 2 -> List.length post = 34 ->
    let sd := eff_seed fresh seed in
    let Ti := nth i (Ysv sd n) p0 in
    let Tl := nth (i - 1) (Ysv sd n) p0 in
    let ad_i := make_adapter_public sadd smul padd sact G chal x r Ti m in
    let dec_i := decrypt_adapter sadd padd sact G (psum (ysv sd n) i) (fst ad_i) (snd ad_i) in
    exists yb Yb kb k,
      AMHL.setup orc fresh n seed = Some (yb, Yb) /\
      nth i Yb [] = ep Ti /\ nth (i - 1) Yb [] = ep Tl /\
      (* hop i's decrypted adapter is an ordinary signature *)
      sig_valid padd sact G chal (pub sact G x) m (fst dec_i) (snd dec_i) /\
      (* the left neighbour's computation on the witness and signature bytes *)
      AMHL.release_left_amhl_lock orc (pre ++ es (snd ad_i) ++ post) (ep (fst dec_i) ++ es (snd dec_i))
        (nth i yb []) = Some kb /\
      kb = es k /\ k = psum (ysv sd n) (i - 1) /\
      AMHL.verify_lock_key orc (nth (i - 1) Yb []) kb = Some true /\
      (* ... and k decrypts hop i-1's adapter (signer x', nonce r', message m') into a valid signature *)
      let ad_l := make_adapter_public sadd smul padd sact G chal x' r' Tl m' in
      let dec_l := decrypt_adapter sadd padd sact G k (fst ad_l) (snd ad_l) in
      sig_valid padd sact G chal (pub sact G x') m' (fst dec_l) (snd dec_l).
  Proof.
    intros Hn Hb Hi Hpre Hpost sd Ti Tl ad_i dec_i.
    destruct (amhl_cascade scalar s0 s1 sadd smul ssub sopp scalar_ring point p0 padd padd_comm padd_assoc
                sact act_add_l act_mul G msg chal (ysv sd n) i) with (x := x) (r := r) (m := m)
                (x' := x') (r' := r') (m' := m') as [C1 [C2 [C3 C4]]]; [rewrite ys_length; exact Hi|].
    fold (Ysv sd n) in C1, C2, C3, C4. fold Ti in C1, C2. fold Tl in C3, C4. fold ad_i in C1, C2. fold dec_i in C1, C2.
    assert (Hrec : recover ssub (snd dec_i) (snd ad_i) = psum (ysv sd n) i).
    { unfold dec_i, decrypt_adapter. cbn [snd].
      apply (recover_decrypt scalar s0 s1 sadd smul ssub sopp scalar_ring). }
    destruct (amhl_release_chain fresh n seed i pre post (ep (fst dec_i)) (snd ad_i) (snd dec_i)
                Hn Hb Hi Hpre Hpost (len_ep _) Hrec) as [yb [Yb [kb [S1 [S2 [S3 [_ S5]]]]]]].
    exists yb, Yb, kb, (psum (ysv sd n) (i - 1)).
    split; [exact S1|].
    rewrite (amhl_setup_computes fresh n seed Hn Hb) in S1. fold sd in S1. injection S1 as <- <-.
    split; [apply Yb_nth; lia|]. split; [apply Yb_nth; lia|].
    split; [exact C1|]. split; [exact S2|]. split; [exact S3|]. split; [reflexivity|]. split; [exact S5|].
    cbv zeta. rewrite <- C2. exact C4.
  Qed.

End Link.


(* Non-vacuity.  scalar = point = the field of 5 elements, a . P = a * P, G = 1.  A byte string represents
   the residue modulo 5 of its first byte (so the representation is not injective, like libsodium's), es / ep
   are injective 32-byte encodings, "sha256" is the byte sum padded to 32 bytes, a point is valid iff it has
   32 bytes.  All Section hypotheses hold, and setup / setup_for / check_setup / release run for n = 3. *)

Inductive F5 := f0 | f1 | f2 | f3 | f4.
Definition f2n (a : F5) : nat := match a with f0 => 0 | f1 => 1 | f2 => 2 | f3 => 3 | f4 => 4 end.
Definition n2f (n : nat) : F5 :=
  match n mod 5 with 0 => f0 | 1 => f1 | 2 => f2 | 3 => f3 | _ => f4 end.
Definition fadd (a b : F5) : F5 := n2f (f2n a + f2n b).
Definition fmul (a b : F5) : F5 := n2f (f2n a * f2n b).
Definition fopp (a : F5) : F5 := n2f (5 - f2n a).
Definition fsub (a b : F5) : F5 := fadd a (fopp b).

Lemma F5_ring : ring_theory f0 f1 fadd fmul fsub fopp (@eq F5).
Proof.
  constructor.
  - intros []; reflexivity.
  - intros [] []; reflexivity.
  - intros [] [] []; reflexivity.
  - intros []; reflexivity.
  - intros [] []; reflexivity.
  - intros [] [] []; reflexivity.
  - intros [] [] []; reflexivity.
  - intros [] []; reflexivity.
  - intros []; reflexivity.
Qed.

Lemma F5_padd_comm : forall P Q, fadd P Q = fadd Q P. Proof. intros [] []; reflexivity. Qed.
Lemma F5_padd_assoc : forall P Q R, fadd P (fadd Q R) = fadd (fadd P Q) R. Proof. intros [] [] []; reflexivity. Qed.
Lemma F5_act_add_l : forall a b P, fmul (fadd a b) P = fadd (fmul a P) (fmul b P). Proof. intros [] [] []; reflexivity. Qed.
Lemma F5_act_mul : forall a b P, fmul (fmul a b) P = fmul a (fmul b P). Proof. intros [] [] []; reflexivity. Qed.

Definition f2b (a : F5) : byte := match a with f0 => x00 | f1 => x01 | f2 => x02 | f3 => x03 | f4 => x04 end.
Definition es5 (a : F5) : bytes := f2b a :: repeat x00 31.
Definition ep5 (P : F5) : bytes := f2b P :: repeat x01 31.
Definition dec5 (b : bytes) : F5 := match b with x :: _ => n2f (N.to_nat (Byte.to_N x)) | [] => f0 end.
Definition h5 (b : bytes) : bytes := z2b (fold_left (fun acc x => (acc + b2z x)%Z) b 0%Z) :: repeat x00 31.
Definition srep5 (kb : bytes) (x : F5) : Prop := dec5 kb = x.
Definition yv5 (seed : bytes) (i : nat) : F5 := dec5 (sampleb h5 seed i).

Definition orc5 : oracle := fun p args =>
  match p, args with
  | PSha256, [b] => OOk [h5 b]
  | PBaseMult, [a] => OOk [ep5 (fmul (dec5 a) f1)]
  | PPointAdd, [P; Q] => OOk [ep5 (fadd (dec5 P) (dec5 Q))]
  | PScalarAdd, [a; b] => OOk [es5 (fadd (dec5 a) (dec5 b))]
  | PScalarSub, [a; b] => OOk [es5 (fsub (dec5 a) (dec5 b))]
  | PValidPoint, [P] => OOk [if Nat.eqb (List.length P) 32 then [x01] else [x00]]
  | _, _ => OErr OtherError
  end.

Lemma F5_len_es : forall a, List.length (es5 a) = 32. Proof. intros []; reflexivity. Qed.
Lemma F5_len_ep : forall P, List.length (ep5 P) = 32. Proof. intros []; reflexivity. Qed.
Lemma F5_ep_inj : forall P Q, ep5 P = ep5 Q -> P = Q. Proof. intros [] [] H; try reflexivity; discriminate H. Qed.
Lemma F5_len_h : forall b, List.length (h5 b) = 32. Proof. reflexivity. Qed.
Lemma F5_dec_es a : dec5 (es5 a) = a. Proof. destruct a; reflexivity. Qed.
Lemma F5_dec_ep P : dec5 (ep5 P) = P. Proof. destruct P; reflexivity. Qed.
Lemma F5_R_es : forall a, srep5 (es5 a) a. Proof. exact F5_dec_es. Qed.
Lemma F5_O_sha : forall b, orc5 PSha256 [b] = OOk [h5 b]. Proof. reflexivity. Qed.
Lemma F5_O_base : forall kb x, srep5 kb x -> orc5 PBaseMult [kb] = OOk [ep5 (fmul x f1)].
Proof. intros kb x <-. reflexivity. Qed.
Lemma F5_O_sadd : forall ka a kb b, srep5 ka a -> srep5 kb b -> orc5 PScalarAdd [ka; kb] = OOk [es5 (fadd a b)].
Proof. intros ka a kb b <- <-. reflexivity. Qed.
Lemma F5_O_ssub : forall ka a kb b, srep5 ka a -> srep5 kb b -> orc5 PScalarSub [ka; kb] = OOk [es5 (fsub a b)].
Proof. intros ka a kb b <- <-. reflexivity. Qed.
Lemma F5_O_padd : forall P Q, orc5 PPointAdd [ep5 P; ep5 Q] = OOk [ep5 (fadd P Q)].
Proof. intros P Q. cbn [orc5]. rewrite !F5_dec_ep. reflexivity. Qed.
Lemma F5_O_valid : forall P, orc5 PValidPoint [ep5 P] = OOk [[x01]].
Proof. intro P. cbn [orc5]. rewrite F5_len_ep. reflexivity. Qed.
Lemma F5_R_sample : forall seed i, srep5 (sampleb h5 seed i) (yv5 seed i). Proof. reflexivity. Qed.

(* the theorems at this model: every Section hypothesis discharged *)
Example F5_setup_computes fresh n seed :=
  amhl_setup_computes F5 F5 fadd fmul f1 ep5 h5 F5_len_h srep5 orc5
    F5_O_sha F5_O_base F5_O_padd F5_O_valid yv5 F5_R_sample fresh n seed.

Example F5_check_setup_ok fresh n seed i :=
  amhl_check_setup_ok F5 f0 fadd F5 f0 fadd fmul F5_act_add_l f1 es5 ep5 F5_ep_inj h5 F5_len_h srep5 F5_R_es orc5
    F5_O_sha F5_O_base F5_O_sadd F5_O_padd F5_O_valid yv5 F5_R_sample fresh n seed i.

Example F5_check_setup_cases fresh n seed :=
  amhl_check_setup_cases F5 f0 fadd F5 f0 fadd fmul F5_act_add_l f1 es5 ep5 F5_ep_inj h5 F5_len_h srep5 F5_R_es orc5
    F5_O_sha F5_O_base F5_O_sadd F5_O_padd F5_O_valid yv5 F5_R_sample fresh n seed.

Example F5_final_key_ok fresh n seed :=
  amhl_final_key_ok F5 f0 fadd F5 f0 fadd fmul F5_act_add_l f1 es5 ep5 F5_ep_inj h5 F5_len_h srep5 F5_R_es orc5
    F5_O_sha F5_O_base F5_O_sadd F5_O_padd F5_O_valid yv5 F5_R_sample fresh n seed.

Example F5_release_computes kb k yb y :=
  amhl_release_computes F5 fsub es5 srep5 orc5 F5_O_ssub kb k yb y.

Example F5_release_left_computes pre post Rb yb sa s y :=
  amhl_release_left_computes F5 fsub es5 F5_len_es srep5 F5_R_es orc5 F5_O_ssub pre post Rb yb sa s y.

Example F5_release_chain fresh n seed i pre post Rb sa s :=
  amhl_release_chain F5 f0 f1 fadd fmul fsub fopp F5_ring F5 f0 fadd fmul F5_act_add_l f1 es5 ep5
    F5_len_es F5_ep_inj h5 F5_len_h srep5 F5_R_es orc5
    F5_O_sha F5_O_base F5_O_ssub F5_O_padd F5_O_valid yv5 F5_R_sample fresh n seed i pre post Rb sa s.

Example F5_cascade_chain (chal : F5 -> F5 -> bytes -> F5) fresh n seed i pre post x r m x' r' m' :=
  amhl_cascade_chain F5 f0 f1 fadd fmul fsub fopp F5_ring F5 f0 fadd F5_padd_comm F5_padd_assoc fmul
    F5_act_add_l F5_act_mul f1 es5 ep5 F5_len_es F5_len_ep F5_ep_inj h5 F5_len_h srep5 F5_R_es orc5
    F5_O_sha F5_O_base F5_O_ssub F5_O_padd F5_O_valid yv5 F5_R_sample bytes chal
    fresh n seed i pre post x r m x' r' m'.

(* a concrete three-hop run, computed: seed 02, samples y = 2, 3, 4 (as non-canonical byte strings), points
   Y = 2, 0, 4, final key 4; hop 2's key 4 released with y_2 = 4 gives 0 = y_0 + y_1, the key of Y_1 = 0 *)
Definition seed5 : bytes := [x02].
Definition y5 (i : nat) : bytes := sampleb h5 seed5 i.
Definition s5 : list bytes * list bytes := ([y5 0; y5 1; y5 2], [ep5 f2; ep5 f0; ep5 f4]).
Definition pre5 : bytes := [x00; x20].
Definition post5 : bytes := repeat xaa 34.

Example F5_concrete_run :
  map (yv5 seed5) [0; 1; 2] = [f2; f3; f4] /\
  AMHL.setup orc5 [] 3 (Some seed5) = Some s5 /\
  (* an empty or absent seed is replaced by the fresh random bytes *)
  AMHL.setup orc5 seed5 3 (Some []) = Some s5 /\
  AMHL.setup orc5 seed5 3 None = Some s5 /\
  (* n = 0: IndexError *)
  AMHL.setup orc5 [] 0 (Some seed5) = None /\
  AMHL.setup_for orc5 s5 0 = Some (VFirst (y5 0)) /\
  AMHL.setup_for orc5 s5 1 = Some (VMid (ep5 f2) (ep5 f0) (y5 1)) /\
  AMHL.setup_for orc5 s5 2 = Some (VMid (ep5 f0) (ep5 f4) (y5 2)) /\
  AMHL.setup_for orc5 s5 3 = Some (VLast (ep5 f4) (es5 f4)) /\
  AMHL.setup_for orc5 s5 4 = None /\
  AMHL.check_setup orc5 (VFirst (y5 0)) 0 3 = Some true /\
  AMHL.check_setup orc5 (VMid (ep5 f2) (ep5 f0) (y5 1)) 1 3 = Some true /\
  AMHL.check_setup orc5 (VMid (ep5 f0) (ep5 f4) (y5 2)) 2 3 = Some true /\
  AMHL.check_setup orc5 (VLast (ep5 f4) (es5 f4)) 3 3 = Some true /\
  (* a wrong right point is rejected, an invalid (short) left point raises, a wrong shape raises *)
  AMHL.check_setup orc5 (VMid (ep5 f2) (ep5 f1) (y5 1)) 1 3 = Some false /\
  AMHL.check_setup orc5 (VMid [x02] (ep5 f0) (y5 1)) 1 3 = None /\
  AMHL.check_setup orc5 (VFirst (y5 0)) 1 3 = None /\
  (* i = n checks only the shape: any left point and any key pass *)
  AMHL.check_setup orc5 (VLast [] []) 3 3 = Some true /\
  AMHL.verify_lock_key orc5 (ep5 f4) (es5 f4) = Some true /\
  AMHL.verify_lock_key orc5 (ep5 f0) (es5 f4) = Some false /\
  AMHL.release orc5 (es5 f4) (y5 2) = Some (es5 f0) /\
  AMHL.verify_lock_key orc5 (ep5 f0) (es5 f0) = Some true /\
  (* adapter scalar sa = 3, signature scalar s = sa + 4 = 2 *)
  AMHL.release_left_amhl_lock orc5 (pre5 ++ es5 f3 ++ post5) (ep5 f1 ++ es5 f2) (y5 2) = Some (es5 f0) /\
  AMHL.release_left_amhl_lock orc5 (pre5 ++ es5 f3) (ep5 f1 ++ es5 f2) (y5 2) = None /\
  AMHL.release_left_amhl_lock orc5 (pre5 ++ es5 f3 ++ post5) (es5 f2) (y5 2) = None.
Proof. vm_compute. repeat split. Qed.

Print Assumptions amhl_setup_computes.
Print Assumptions amhl_setup_points.
Print Assumptions amhl_check_setup_ok.
Print Assumptions amhl_check_setup_cases.
Print Assumptions check_setup_mid_iff.
Print Assumptions verify_lock_key_iff.
Print Assumptions amhl_final_key_ok.
Print Assumptions amhl_release_computes.
Print Assumptions amhl_release_left_computes_gen.
Print Assumptions amhl_release_left_computes.
Print Assumptions amhl_release_chain.
Print Assumptions amhl_cascade_chain.
Print Assumptions F5_setup_computes.
Print Assumptions F5_check_setup_ok.
Print Assumptions F5_check_setup_cases.
Print Assumptions F5_final_key_ok.
Print Assumptions F5_release_chain.
Print Assumptions F5_cascade_chain.
Print Assumptions F5_concrete_run.
