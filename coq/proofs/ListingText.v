(* C12 end to end, on the model of the real compiler front end: the text of the decompiler's listing
   (the lines of decompile_script joined with newline characters) goes through str.split(), the pop
   loop of get_symbols and assemble (compile_text = parsing.compile_script) to the original bytes.
   str.split() of the text gives the listing's tokens; the pop loop leaves each of them as it is, except
   that d<negative> becomes D<negative>; the tokens so changed are still a spelling of the program. *)
From Coq Require Import ZArith List Bool Lia NArith String Ascii DecimalString DecimalZ.
From Coq.Strings Require Import Byte.
From TS Require Import Bytes Codec Ops Names Asm AsmProofs Tokenizer Assembler AssemblerProofs TokenizerProofs.
Import ListNotations.
Open Scope string_scope.
Open Scope list_scope.

Definition lf : ascii := ascii_of_nat 10.
Definition cr : ascii := ascii_of_nat 13.

(* sep.join(lines) *)
Fixpoint join_with (sep : string) (ls : list string) : string :=
  match ls with
  | [] => ""
  | [l] => l
  | l :: t => (l ++ sep ++ join_with sep t)%string
  end.

Definition join_lines : list string -> string := join_with (String lf "").        (* '\n'.join *)
Definition join_lines_crlf : list string -> string := join_with (String cr (String lf "")).
Definition join_lines_nl (ls : list string) : string := (join_lines ls ++ String lf "")%string.   (* + final newline *)

Definition listing_text (fl2 : Z -> Z) (p : list instr) : string := join_lines (print fl2 0 p).

Lemma join_with_cons2 : forall sep l m t, join_with sep (l :: m :: t) = (l ++ sep ++ join_with sep (m :: t))%string.
Proof. reflexivity. Qed.

Lemma cons_tok_app : forall w ts l, cons_tok w ts ++ l = cons_tok w (ts ++ l).
Proof. intros [|c w] ts l; reflexivity. Qed.

(* str.split() of  a <whitespace character> b *)
Lemma split_go_sep : forall a c b, is_ws c = true ->
  split_go (a ++ String c b)%string = (fst (split_go a), snd (split_go a) ++ split_py b).
Proof.
  induction a as [|x a IH]; intros c b H.
  - cbn [append split_go fst snd app]. unfold split_py. destruct (split_go b) as [w ts]. rewrite H. reflexivity.
  - cbn [append split_go]. rewrite (IH c b H). destruct (split_go a) as [wa tsa]. cbn [fst snd].
    destruct (is_ws x); cbn [fst snd]; [rewrite cons_tok_app|]; reflexivity.
Qed.
Lemma split_py_sep1 : forall a c b, is_ws c = true -> split_py (a ++ String c b)%string = split_py a ++ split_py b.
Proof.
  intros a c b H. unfold split_py at 1 2. rewrite (split_go_sep a c b H). destruct (split_go a) as [wa tsa].
  cbn [fst snd]. rewrite cons_tok_app. reflexivity.
Qed.
Lemma split_py_sep : forall a sep b, nonempty sep = true -> sall is_ws sep = true ->
  split_py (a ++ sep ++ b)%string = split_py a ++ split_py b.
Proof.
  intros a [|c w] b N H; [discriminate N|]. cbn [sall] in H. apply andb_prop in H as [H1 H2].
  cbn [append]. rewrite split_py_sep1 by exact H1. rewrite split_py_ws by exact H2. reflexivity.
Qed.
Lemma split_py_trail : forall a w, sall is_ws w = true -> split_py (a ++ w)%string = split_py a.
Proof.
  intros a [|c w] H; [rewrite AsmProofs.append_nil_r; reflexivity|].
  cbn [sall] in H. apply andb_prop in H as [H1 H2]. rewrite split_py_sep1 by exact H1.
  rewrite (split_py_allws w H2). apply app_nil_r.
Qed.

Lemma split_py_join : forall sep ls, nonempty sep = true -> sall is_ws sep = true ->
  split_py (join_with sep ls) = flat_map split_py ls.
Proof.
  intros sep ls N H. induction ls as [|l ls IH]; [reflexivity|]. destruct ls as [|m t].
  - cbn [join_with flat_map]. rewrite app_nil_r. reflexivity.
  - rewrite join_with_cons2, split_py_sep by assumption. rewrite IH. reflexivity.
Qed.

(* the characters of a listing: printable ASCII and the blank *)
Definition lchar (c : ascii) : bool := let n := N_of_ascii c in (32 <=? n)%N && (n <? 127)%N.

(* str.split() (model: split_py) also splits at \x1c..\x1f, the listing reader's split_ws does not:
   they agree on the texts without these four characters *)
Lemma lchar_ws : forall c, lchar c = true -> Bool.eqb (is_ws c) (is_space c) = true.
Proof. apply char_imp_spec. vm_compute. reflexivity. Qed.
Lemma lchar_ascii : forall c, lchar c = true -> (N_of_ascii c <? 128)%N = true.
Proof. apply char_imp_spec. vm_compute. reflexivity. Qed.

Lemma split_go_aux : forall s, sall (fun c => Bool.eqb (is_ws c) (is_space c)) s = true -> split_go s = split_aux s.
Proof.
  induction s as [|c s IH]; intros H; [reflexivity|]. cbn [sall] in H. apply andb_prop in H as [H1 H2].
  apply eqb_prop in H1. cbn [split_go split_aux]. rewrite (IH H2), H1. destruct (split_aux s) as [w ts].
  destruct (is_space c); reflexivity.
Qed.
Theorem split_py_split_ws : forall s, sall (fun c => Bool.eqb (is_ws c) (is_space c)) s = true ->
  split_py s = split_ws s.
Proof.
  intros s H. unfold split_py, split_ws. rewrite (split_go_aux s H). destruct (split_aux s) as [w ts].
  destruct w; reflexivity.
Qed.
(* ... and they DO differ on the others *)
Example split_py_ws_differ :
  let s := String "a" (String (ascii_of_nat 28) "b") in split_py s = ["a"; "b"] /\ split_ws s = [s].
Proof. split; reflexivity. Qed.

Lemma split_py_lchar : forall s, sall lchar s = true -> split_py s = split_ws s.
Proof.
  intros s H. apply split_py_split_ws. revert H. apply sall_imp. exact lchar_ws.
Qed.

Lemma all_ascii_join : forall sep ls, all_ascii sep = true -> Forall (fun l => all_ascii l = true) ls ->
  all_ascii (join_with sep ls) = true.
Proof.
  intros sep ls S F. induction F as [|l ls Hl Fl IH]; [reflexivity|]. destruct ls as [|m t]; [exact Hl|].
  rewrite join_with_cons2, !all_ascii_app, Hl, S, IH. reflexivity.
Qed.

Lemma lchar_nib : forall a b c d, lchar (nib a b c d) = true.
Proof. intros [] [] [] []; reflexivity. Qed.
Lemma lchar_hex : forall v, sall lchar (hex v) = true.
Proof.
  induction v as [|x t IH]; [reflexivity|]. cbn [hex].
  destruct (Byte.to_bits x) as (b0 & b1 & b2 & b3 & b4 & b5 & b6 & b7).
  cbn [sall]. rewrite !lchar_nib, IH. reflexivity.
Qed.
Lemma lchar_uint : forall d, sall lchar (NilEmpty.string_of_uint d) = true.
Proof. induction d; cbn [NilEmpty.string_of_uint sall]; try rewrite IHd; reflexivity. Qed.
Lemma lchar_dec : forall z, sall lchar (dec z) = true.
Proof.
  intros z. unfold dec. destruct (Z.to_int z); cbn [NilEmpty.string_of_int sall]; rewrite lchar_uint; reflexivity.
Qed.
Lemma lchar_tok_d : forall z, sall lchar (tok_d z) = true.
Proof. intros. unfold tok_d. cbn [sall]. rewrite lchar_dec. reflexivity. Qed.
Lemma lchar_tok_x : forall v, sall lchar (tok_x v) = true.
Proof. intros. unfold tok_x. cbn [sall]. rewrite lchar_hex. reflexivity. Qed.
Lemma lchar_name : forall o, sall lchar (opcode_name o) = true.
Proof. destruct o; reflexivity. Qed.
Lemma lchar_nop : forall c, sall lchar (nop_name c) = true.
Proof. intros. unfold nop_name. cbn [append sall]. rewrite lchar_dec. reflexivity. Qed.

Lemma lchar_pad : forall ind s, sall lchar (pad ind s) = sall lchar s.
Proof. induction ind; intros s; cbn [pad sall]; [reflexivity|]. rewrite IHind. reflexivity. Qed.
Definition lwords (ws : list string) : Prop := Forall (fun w => sall lchar w = true) ws.
Lemma lchar_unwords : forall ws, lwords ws -> sall lchar (unwords ws) = true.
Proof.
  induction 1 as [|w ws Hw Hws IH]; [reflexivity|]. destruct ws as [|w2 ws]; [exact Hw|].
  change (unwords (w :: w2 :: ws)) with (w ++ String " " (unwords (w2 :: ws)))%string.
  rewrite sall_app, Hw. cbn [sall]. rewrite IH. reflexivity.
Qed.
Lemma lchar_line : forall ind ws, lwords ws -> sall lchar (line ind ws) = true.
Proof. intros. unfold line. rewrite lchar_pad. apply lchar_unwords. assumption. Qed.

Section Lines.
  Variable fl2 : Z -> Z.

  Lemma lwords_simple : forall i, lwords (simple_toks fl2 i).
  Proof. apply simple_toks_all; [exact lchar_name|exact lchar_nop|exact lchar_tok_d|exact lchar_tok_x]. Qed.

  Definition llines (ls : list string) : Prop := Forall (fun l => sall lchar l = true) ls.

  Lemma llines_flat : forall (f : instr -> list string) p, Forall (fun i => llines (f i)) p -> llines (flat_map f p).
  Proof.
    intros f p F. induction F as [|i p Hi _ IH]; [apply Forall_nil|]. cbn [flat_map]. apply Forall_app. split; assumption.
  Qed.

  Local Ltac lw := unfold lwords; repeat (apply Forall_cons; [first [reflexivity | apply lchar_dec]|]); apply Forall_nil.

  Lemma llines_print1 : forall i ind, llines (print1 fl2 ind i).
  Proof.
    assert (L : forall p, Forall (fun i => forall ind, llines (print1 fl2 ind i)) p ->
                forall ind, llines (flat_map (print1 fl2 ind) p)).
    { intros p F ind. apply llines_flat. revert F. apply Forall_impl. intros i H. apply H. }
    assert (W : forall ind ws, lwords ws -> llines [line ind ws]).
    { intros. apply Forall_cons; [apply lchar_line; assumption|apply Forall_nil]. }
    assert (W1 : forall ind ws rest, lwords ws -> llines rest -> llines (line ind ws :: rest)).
    { intros. apply Forall_cons; [apply lchar_line; assumption|assumption]. }
    induction i using instr_ind'; intros ind;
      try (cbn [print1]; apply W; apply lwords_simple).
    - cbn [print1]. apply Forall_app. split; [apply W1; [lw|apply L; assumption]|apply W; lw].
    - cbn [print1]. apply Forall_app. split; [apply W1; [lw|apply L; assumption]|apply W; lw].
    - cbn [print1]. apply Forall_app. split; [apply W1; [lw|apply L; assumption]|].
      apply Forall_app. split; [apply W1; [lw|apply L; assumption]|apply W; lw].
    - cbn [print1]. apply Forall_app. split; [apply W1; [lw|apply L; assumption]|].
      apply Forall_app. split; [|apply W; lw].
      pose proof (L _ H0 (S ind)) as E. destruct (flat_map (print1 fl2 (S ind)) b2); [apply Forall_nil|].
      apply W1; [lw|exact E].
    - cbn [print1]. apply Forall_app. split; [apply W1; [lw|apply L; assumption]|apply W; lw].
  Qed.

  Lemma llines_print : forall p ind, llines (print fl2 ind p).
  Proof.
    intros p ind. unfold print. apply llines_flat. apply Forall_forall. intros i _. apply llines_print1.
  Qed.

  Lemma split_py_listing_sep : forall sep p ind, nonempty sep = true -> sall is_ws sep = true ->
    split_py (join_with sep (print fl2 ind p)) = tokens_of (print fl2 ind p).
  Proof.
    intros sep p ind N H. rewrite split_py_join by assumption. unfold tokens_of.
    pose proof (llines_print p ind) as L. induction L as [|l ls Hl _ IH]; [reflexivity|].
    cbn [flat_map]. rewrite IH, (split_py_lchar l Hl). reflexivity.
  Qed.

  Theorem listing_text_tokens : forall p, split_py (listing_text fl2 p) = tokens_of (print fl2 0 p).
  Proof. intros p. apply split_py_listing_sep; reflexivity. Qed.

  Lemma all_ascii_listing_sep : forall sep p ind, all_ascii sep = true ->
    all_ascii (join_with sep (print fl2 ind p)) = true.
  Proof.
    intros sep p ind S. apply all_ascii_join; [exact S|]. pose proof (llines_print p ind) as L. revert L.
    apply Forall_impl. intros l. apply sall_imp. exact lchar_ascii.
  Qed.

  Theorem listing_text_ascii : forall p, all_ascii (listing_text fl2 p) = true.
  Proof. intros p. apply all_ascii_listing_sep. reflexivity. Qed.
End Lines.

(* what the decompiler prints: no quote, no comment character, no string value, no "@" / "!" *)
Inductive ltok : string -> Prop :=
| lt_name : forall o, ltok (opcode_name o)
| lt_kw : forall s, In s ["OP_TRY"; "{"; "}"; "ELSE"; "EXCEPT"] -> ltok s
| lt_nop : forall code, ltok (nop_name code)
| lt_num : forall z, (0 <= z)%Z -> ltok (dec z)          (* the number of a DEF *)
| lt_d : forall z, ltok (tok_d z)
| lt_x : forall v, ltok (tok_x v).

Lemma upper_uint : forall d, upper_s (NilEmpty.string_of_uint d) = NilEmpty.string_of_uint d.
Proof. unfold upper_s. induction d; cbn [NilEmpty.string_of_uint smap]; try rewrite IHd; reflexivity. Qed.
Lemma upper_dec : forall z, upper_s (dec z) = dec z.
Proof.
  intros z. unfold dec. destruct (Z.to_int z); cbn [NilEmpty.string_of_int]; [apply upper_uint|].
  unfold upper_s. cbn [smap]. fold (upper_s (NilEmpty.string_of_uint d)). rewrite upper_uint. reflexivity.
Qed.

Lemma norm_name : forall o, norm_token (opcode_name o) = opcode_name o.
Proof. destruct o; reflexivity. Qed.
Lemma plain_name : forall o, plain_tok (opcode_name o).
Proof. destruct o; repeat split. Qed.
Lemma stable_name : forall o, stable_tok (opcode_name o).
Proof. intros o. split; [apply plain_name|apply norm_name]. Qed.

Lemma stable_kw : forall s, In s ["OP_TRY"; "{"; "}"; "ELSE"; "EXCEPT"] -> stable_tok s.
Proof. intros s H. cbn [In] in H. destruct H as [<-|[<-|[<-|[<-|[<-|[]]]]]]; repeat split. Qed.

Lemma stable_nop : forall code, stable_tok (nop_name code).
Proof.
  intros code. unfold nop_name. cbn [append]. apply stable_upper; try reflexivity.
  unfold upper_s. cbn [smap]. fold (upper_s (dec (Z.of_nat code))). rewrite upper_dec. reflexivity.
Qed.

Lemma stable_num : forall z, (0 <= z)%Z -> stable_tok (dec z).
Proof.
  intros z H. pose proof (dec_nonempty z) as N. pose proof (upper_dec z) as U.
  destruct (dec_nonneg z H) as (u & E & _). rewrite E in *.
  destruct u; cbn [NilEmpty.string_of_uint] in *; try congruence; apply stable_upper; try reflexivity; exact U.
Qed.

Lemma isnumeric_dec : forall z, (0 <= z)%Z -> isnumeric (dec z) = true.
Proof. intros z H. unfold isnumeric. rewrite nonempty_dec, dec_digits by exact H. reflexivity. Qed.
Lemma isnumeric_dec_neg : forall z, (z < 0)%Z -> isnumeric (dec z) = false.
Proof. intros z H. rewrite (dec_neg z H). reflexivity. Qed.

Lemma plain_tok_d : forall z, plain_tok (tok_d z).
Proof.
  intros z. unfold tok_d. pose proof (dec_nonempty z) as N. destruct (dec z) as [|c r]; [congruence|].
  repeat split.
Qed.
Lemma stable_tok_d : forall z, (0 <= z)%Z -> stable_tok (tok_d z).
Proof. intros z H. apply stable_d. apply isnumeric_dec. exact H. Qed.
(* the one token the loop changes: d<negative> becomes D<negative> (token.upper(), as "-5" is not numeric) *)
Lemma norm_tok_d_neg : forall z, (z < 0)%Z -> norm_token (tok_d z) = String "D" (dec z).
Proof.
  intros z H. unfold tok_d, norm_token. change (Ascii.eqb "d" "d") with true. cbv iota.
  rewrite (isnumeric_dec_neg z H). unfold upper_s. cbn [smap]. fold (upper_s (dec z)). rewrite upper_dec. reflexivity.
Qed.
Lemma norm_tok_d : forall z, exists c, dD c /\ norm_token (tok_d z) = String c (dec z).
Proof.
  intros z. destruct (Z.ltb_spec z 0) as [H|H].
  - exists "D"%char. split; [right; reflexivity|apply norm_tok_d_neg; exact H].
  - exists "d"%char. split; [left; reflexivity|apply (stable_tok_d z H)].
Qed.

Lemma stable_tok_x : forall v, stable_tok (tok_x v).
Proof. intros v. apply stable_x. apply is_hex_hex. Qed.
Lemma norm_tok_x : forall v, norm_token (tok_x v) = tok_x v.
Proof. intros v. apply (stable_tok_x v). Qed.

(* every printed token is an ordinary token for the loop ... *)
Lemma ltok_plain : forall t, ltok t -> plain_tok t.
Proof.
  intros t [o|s H|code|z H|z|v].
  - apply plain_name.
  - apply (stable_kw s H).
  - apply stable_nop.
  - apply (stable_num z H).
  - apply plain_tok_d.
  - apply stable_tok_x.
Qed.
(* ... and is left unchanged, except d<negative> *)
Lemma norm_ltok : forall t, ltok t ->
  norm_token t = t \/ exists z, (z < 0)%Z /\ t = tok_d z /\ norm_token t = String "D" (dec z).
Proof.
  intros t [o|s H|code|z H|z|v].
  - left. apply norm_name.
  - left. apply (stable_kw s H).
  - left. apply stable_nop.
  - left. apply (stable_num z H).
  - destruct (Z.ltb_spec z 0) as [H|H].
    + right. exists z. split; [exact H|]. split; [reflexivity|apply norm_tok_d_neg; exact H].
    + left. apply (stable_tok_d z H).
  - left. apply norm_tok_x.
Qed.

Lemma posts_plain : forall l, Forall plain_tok l -> posts l (map norm_token l).
Proof. induction 1 as [|t l Ht _ IH]; [apply ps_nil|]. cbn [map]. apply ps_tok; assumption. Qed.

Lemma map_fixed : forall l, Forall (fun t => norm_token t = t) l -> map norm_token l = l.
Proof. induction 1 as [|t l Ht _ IH]; [reflexivity|]. cbn [map]. rewrite Ht, IH. reflexivity. Qed.

Section Tokens.
  Variable fl2 : Z -> Z.

  Theorem listing_tokens_ltok : forall p ind, Forall ltok (tokens_of (print fl2 ind p)).
  Proof.
    intros p ind. rewrite tokens_print. apply ptoks_all. apply Forall_forall. intros i _.
    apply ptoks1_all; [exact lt_name|exact lt_kw|exact lt_nop|exact lt_num|exact lt_d|exact lt_x].
  Qed.

  Theorem listing_tokens_posts : forall p ind,
    posts (tokens_of (print fl2 ind p)) (map norm_token (tokens_of (print fl2 ind p))).
  Proof.
    intros p ind. apply posts_plain. pose proof (listing_tokens_ltok p ind) as L. revert L.
    apply Forall_impl. exact ltok_plain.
  Qed.

  (* when no d-operand is negative the symbols are the tokens themselves *)
  Theorem listing_tokens_posts_stable : forall p ind,
    Forall (fun t => norm_token t = t) (tokens_of (print fl2 ind p)) ->
    posts (tokens_of (print fl2 ind p)) (tokens_of (print fl2 ind p)).
  Proof.
    intros p ind S. pose proof (listing_tokens_posts p ind) as P.
    rewrite (map_fixed _ S) in P. exact P.
  Qed.
End Tokens.

(* The loop does not leave every token of a listing unchanged.  OP_PUSH0 with the operand byte ff is listed "OP_PUSH0 d-1"; get_symbols
   gives the symbols OP_PUSH0 D-1 (the same in the Python: parsing.get_symbols('OP_PUSH0 d-1') ==
   ['OP_PUSH0', 'D-1']).  The compiler accepts the upper-case prefix, so the round trip still holds. *)
Theorem listing_tokens_not_stable :
  let p := [IOp1 O_PUSH0 xff] in
  tokens_of (print fl2_exact 0 p) = ["OP_PUSH0"; "d-1"] /\
  get_symbols (listing_text fl2_exact p) = Ok ["OP_PUSH0"; "D-1"] /\
  ~ posts (tokens_of (print fl2_exact 0 p)) (tokens_of (print fl2_exact 0 p)).
Proof.
  cbv zeta. split; [reflexivity|]. split; [vm_compute; reflexivity|].
  change (tokens_of (print fl2_exact 0 [IOp1 O_PUSH0 xff])) with ["OP_PUSH0"; "d-1"].
  intros P. apply gs_posts in P. vm_compute in P. discriminate P.
Qed.

Theorem listing_spells_norm : forall fl2, fl2_small fl2 -> forall p, wf_prog p = true ->
  forallb (ldef_ok false) p = true -> spells fl2 p (map norm_token (ptoks fl2 p)).
Proof.
  intros fl2 F. apply (listing_spells_map fl2 F norm_token).
  - exact norm_name.
  - intros code. apply (stable_nop code).
  - repeat split.
  - exact norm_tok_x.
  - intros z H. split; [apply (stable_num z H)|apply (stable_tok_d z H)].
  - exact norm_tok_d.
Qed.

Section Main.
  Variable fl2 : Z -> Z.
  Variable ct : bytes -> res (option bytes).
  Hypothesis F : fl2_small fl2.

  (* every ASCII text whose str.split() gives the listing's tokens compiles to the program's code *)
  Theorem listing_tokens_compile : forall p ind text, wf_prog p = true -> forallb (ldef_ok false) p = true ->
    all_ascii text = true -> split_py text = tokens_of (print fl2 ind p) ->
    compile_text fl2 ct text = Ok (encode p).
  Proof.
    intros p ind text W D A E. unfold compile_text.
    rewrite (tokenise_split text (map norm_token (tokens_of (print fl2 ind p))) A)
      by (rewrite E; apply listing_tokens_posts).
    cbn [rbind]. rewrite tokens_print. apply assemble_r_spells; [|exact W].
    apply listing_spells_norm; assumption.
  Qed.

  Theorem listing_text_symbols : forall p,
    get_symbols (listing_text fl2 p) = Ok (map norm_token (tokens_of (print fl2 0 p))).
  Proof.
    intros p. apply tokenise_split; [apply listing_text_ascii|]. rewrite listing_text_tokens.
    apply listing_tokens_posts.
  Qed.

  (* '\n'.join(decompile_script(code)) compiles to code *)
  Theorem listing_text_compiles : forall p, wf_prog p = true -> forallb (ldef_ok false) p = true ->
    compile_text fl2 ct (listing_text fl2 p) = Ok (encode p).
  Proof.
    intros p W D. apply (listing_tokens_compile p 0); try assumption;
      [apply listing_text_ascii|apply listing_text_tokens].
  Qed.

  (* on bytes: whatever byte string decompiles, the text of its listing compiles back to it *)
  Theorem listing_text_compiles_bytes : forall b p, decode b = Some p -> forallb (ldef_ok false) p = true ->
    compile_text fl2 ct (listing_text fl2 p) = Ok b.
  Proof.
    intros b p E D. apply decode_sound in E as [E W]. rewrite <- E. apply listing_text_compiles; assumption.
  Qed.

  Corollary decompile_compile_text_bytes : forall b ls, decompile fl2 b = Some ls ->
    (forall p, decode b = Some p -> forallb (ldef_ok false) p = true) ->
    compile_text fl2 ct (join_lines ls) = Ok b.
  Proof.
    intros b ls H D. unfold decompile in H. destruct (decode b) as [p|] eqn:E; [|discriminate H].
    injection H as <-. apply (listing_text_compiles_bytes b p E). apply D. reflexivity.
  Qed.

  (* for the output of the compiler / of the builders (the encoding of a well-formed program) *)
  Corollary decompile_compile_text : forall p, wf_prog p = true -> forallb (ldef_ok false) p = true ->
    option_map (fun ls => compile_text fl2 ct (join_lines ls)) (decompile fl2 (encode p)) = Some (Ok (encode p)).
  Proof.
    intros p W D. unfold decompile. rewrite (decode_encode p W). cbn [option_map]. f_equal.
    apply listing_text_compiles; assumption.
  Qed.

  (* the layout does not matter: any indentation, any whitespace separator between the lines
     (newline, CR LF, several newlines = blank lines), whitespace before and after *)
  Theorem listing_layout_compiles : forall p ind sep w1 w2,
    wf_prog p = true -> forallb (ldef_ok false) p = true ->
    nonempty sep = true -> sall is_ws sep = true -> all_ascii sep = true ->
    sall is_ws w1 = true -> all_ascii w1 = true -> sall is_ws w2 = true -> all_ascii w2 = true ->
    compile_text fl2 ct (w1 ++ join_with sep (print fl2 ind p) ++ w2)%string = Ok (encode p).
  Proof.
    intros p ind sep w1 w2 W D N S A S1 A1 S2 A2. apply (listing_tokens_compile p ind); try assumption.
    - rewrite !all_ascii_app, A1, A2, all_ascii_listing_sep by exact A. reflexivity.
    - rewrite split_py_ws by exact S1. rewrite split_py_trail by exact S2. apply split_py_listing_sep; assumption.
  Qed.

  Corollary listing_text_nl_compiles : forall p ind, wf_prog p = true -> forallb (ldef_ok false) p = true ->
    compile_text fl2 ct (join_lines_nl (print fl2 ind p)) = Ok (encode p).
  Proof.
    intros p ind W D. apply (listing_layout_compiles p ind (String lf "") "" (String lf "")); try assumption; reflexivity.
  Qed.
  Corollary listing_text_crlf_compiles : forall p ind, wf_prog p = true -> forallb (ldef_ok false) p = true ->
    compile_text fl2 ct (join_lines_crlf (print fl2 ind p)) = Ok (encode p).
  Proof.
    intros p ind W D. unfold join_lines_crlf.
    rewrite <- (AsmProofs.append_nil_r (join_with _ _)).
    apply (listing_layout_compiles p ind (String cr (String lf "")) "" ""); try assumption; reflexivity.
  Qed.

  (* any rendering (TokenizerProofs.rend: tokens separated by arbitrary non-empty whitespace, e.g.
     with blank lines, tabs, everything on one line) of the listing's tokens *)
  Theorem listing_rend_compiles : forall p ind text, wf_prog p = true -> forallb (ldef_ok false) p = true ->
    rend (tokens_of (print fl2 ind p)) text -> all_ascii text = true ->
    compile_text fl2 ct text = Ok (encode p).
  Proof.
    intros p ind text W D R A. apply (listing_tokens_compile p ind); try assumption. apply split_rend. exact R.
  Qed.

  (* and all these texts have the same symbols as the listing text itself *)
  Corollary listing_whitespace_irrelevant : forall p text,
    rend (tokens_of (print fl2 0 p)) text -> all_ascii text = true ->
    get_symbols text = get_symbols (listing_text fl2 p).
  Proof.
    intros p text R A. unfold get_symbols. rewrite A, (listing_text_ascii fl2 p), (split_rend _ _ R), listing_text_tokens.
    reflexivity.
  Qed.
End Main.

(* the premise [ldef_ok] is necessary (AssemblerProofs.assemble_listing_needs_ldef_ok, here on the text):
   a DEF directly in a DEF body decompiles, but the compiler refuses the listing *)
Theorem listing_text_needs_ldef_ok :
  let p := [IDef x00 [IDef x01 [IOp0 O_TRUE]]] in
  wf_prog p = true /\ decode (encode p) = Some p /\
  compile_text fl2_exact ct0 (listing_text fl2_exact p) = Err.
Proof. cbv zeta. split; [reflexivity|]. split; vm_compute; reflexivity. Qed.

Definition ex1 : list instr :=
  [IOp0 O_TRUE;
   IIfElse [IOp1 O_PUSH0 xff; IVar1 O_PUSH1 []] [IVar1 O_PUSH1 [x01]; INop 200 x05];
   ITry [IOp0 O_FALSE; IOp0 O_VERIFY] [IIf [IOp1 O_PUSH0 x01]];
   ITry [IOp0 O_DUP] []].

Definition ex2 : list instr :=
  [IDef x03 [IOp0 O_DUP; ILoop [IOp1 O_ADD_INTS x02; IIf [IDef x04 [IOp0 O_NOT]]]];
   IOp1 O_CALL x03;
   IPush2 (List.repeat x07 300);
   IVar1 O_DIV_INT [xff; x7f]; IVar1 O_MOD_INT [x00; x01]; IVar1 O_DIV_INT [x80];
   INop 200 x80; INop 255 x7f].

Definition ex3 : list instr :=
  [IWriteCache [x6b] x02; IVar1 O_READ_CACHE [x6b]; ISwap x00 xff;
   IMultisig O_CHECK_MULTISIG x00 x02 x03; IFix O_DIV_FLOAT [x3f; x80; x00; x00];
   IFix O_MERKLEVAL (List.repeat xab 32);
   ILoop [ITry [IIfElse [IOp1 O_CHECK_SIG x00] [IOp1 O_POP1 x80]] [ILoop [IOp0 O_RETURN]]];
   IOp1 O_TAPROOT x01].

Example ex1_text :
  listing_text fl2_exact [IOp0 O_TRUE; IIfElse [IOp1 O_PUSH0 xff] [INop 200 x05]] =
  ("OP_TRUE" ++ String lf "OP_IF {" ++ String lf "    OP_PUSH0 d-1" ++ String lf "} ELSE {" ++ String lf
   "    NOP200 d5" ++ String lf "}")%string.
Proof. vm_compute. reflexivity. Qed.

Example ex1_compiles :
  wf_prog ex1 = true /\ compile_text fl2_exact ct0 (listing_text fl2_exact ex1) = Ok (encode ex1).
Proof. split; vm_compute; reflexivity. Qed.
Example ex2_compiles :
  wf_prog ex2 = true /\ compile_text fl2_exact ct0 (listing_text fl2_exact ex2) = Ok (encode ex2).
Proof. split; vm_compute; reflexivity. Qed.
Example ex3_compiles :
  wf_prog ex3 = true /\ compile_text fl2_exact ct0 (listing_text fl2_exact ex3) = Ok (encode ex3).
Proof. split; vm_compute; reflexivity. Qed.
(* the same by the theorem *)
Example ex2_compiles_thm : forall ct, compile_text fl2_exact ct (listing_text fl2_exact ex2) = Ok (encode ex2).
Proof. intros ct. apply listing_text_compiles; [apply fl2_exact_small|vm_compute; reflexivity|reflexivity]. Qed.

Print Assumptions split_py_split_ws.
Print Assumptions listing_text_tokens.
Print Assumptions listing_tokens_ltok.
Print Assumptions listing_tokens_posts.
Print Assumptions listing_tokens_not_stable.
Print Assumptions listing_spells_norm.
Print Assumptions listing_text_ascii.
Print Assumptions listing_text_symbols.
Print Assumptions listing_text_compiles.
Print Assumptions listing_text_compiles_bytes.
Print Assumptions decompile_compile_text_bytes.
Print Assumptions decompile_compile_text.
Print Assumptions listing_layout_compiles.
Print Assumptions listing_text_nl_compiles.
Print Assumptions listing_text_crlf_compiles.
Print Assumptions listing_rend_compiles.
Print Assumptions listing_whitespace_irrelevant.
Print Assumptions listing_text_needs_ldef_ok.
Print Assumptions ex1_compiles.
Print Assumptions ex2_compiles.
Print Assumptions ex3_compiles.
