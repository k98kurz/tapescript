(* C06 (control scoping): CALL and LOOP absorb a RETURN — after them the control flag is clear, so a RETURN
   executed inside a function or a loop body never ends anything outside of it. *)
From Coq Require Import ZArith List Bool Lia.
From Coq.Strings Require Import Byte String.
From TS Require Import State Prog Ops Interp Discipline.
Import ListNotations.
Local Open Scope nat_scope.

Section S.
Variable orc : oracle.
Variable cfg : config.

(* an instruction that ends in a quiet mode leaves the flag clear, whatever the sub-tapes did *)
Lemma quiet_absorbs_return run (p : prog unit) fr st :
  run_ok run -> disc p M0 (fun _ m' => quiet m') -> flag_clear st ->
  match interp orc cfg run p fr st with
  | Done _ _ st' | Raised _ _ st' => flag_clear st'
  | _ => True
  end.
Proof.
  intros Hrun Hd Hc.
  pose proof (disc_sound orc cfg _ Hrun unit p M0 _ Hd fr st Hc) as H.
  destruct (interp orc cfg _ p fr st) as [a fr' st'|e fr' st'| |w]; try exact I; [|exact H].
  destruct H as (m' & Hq & Hs). eapply quiet_clear; eassumption.
Qed.

Lemma run_tape_run_ok f : run_ok (fun t s => run_tape orc cfg f t 0 s).
Proof. apply tape_post_run_ok. intros t s. apply run_tape_inv. Qed.

(* after OP_CALL / OP_LOOP (normal end or raise), started with the flag clear, the flag is clear, whatever
   the callee or the loop body did — for every fuel and every definition table *)
Theorem call_absorbs_return f fr st :
  flag_clear st ->
  match interp orc cfg (fun t s => run_tape orc cfg f t 0 s) OP_CALL fr st with
  | Done _ _ st' | Raised _ _ st' => flag_clear st'
  | _ => True
  end.
Proof. apply quiet_absorbs_return; [apply run_tape_run_ok|apply disc_OP_CALL_quiet, quiet_M0]. Qed.

Theorem loop_absorbs_return f fr st :
  flag_clear st ->
  match interp orc cfg (fun t s => run_tape orc cfg f t 0 s) OP_LOOP fr st with
  | Done _ _ st' | Raised _ _ st' => flag_clear st'
  | _ => True
  end.
Proof. apply quiet_absorbs_return; [apply run_tape_run_ok|apply disc_OP_LOOP_quiet, quiet_M0]. Qed.

End S.
