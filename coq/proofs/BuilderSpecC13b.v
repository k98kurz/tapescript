(* C13 (continued): make_scripthash_lock and make_graftroot_lock with their witnesses — the authorisation
   result, exactly, on the bytes the builders emit (model/Builders.v).
   Script-hash lock: a wrong script never starts; the committed script runs as a NEW tape object (call count 1,
   a new copy of the definitions) on the EMPTY stack, and the verdict is read from the stack it leaves.
   Graftroot lock, key path: the verdict is that of the single-signature lock.  Surrogate path: the surrogate
   script runs (on the EMPTY stack) exactly when the oracle verifies (pk, surrogate, ssig); otherwise the
   verdict is False and the surrogate never starts.
   Both locks end with an instruction that runs another tape (OP_EVAL, OP_IF_ELSE): [call_last]. *)
From Coq Require Import ZArith List Bool Lia.
From Coq.Strings Require Import Byte String.
From TS Require Import Bytes State Prog Ops Interp StateLemmas InterpLemmas StackLemmas
  BytesLemmas TapeLemmas SigSpec ConfigSpec TimeSpec Asm Builders BuilderSpec
  BuilderSpecC13 BuilderSpecC14 BuilderSpecC15.
Import ListNotations.
Local Open Scope nat_scope.

Definition sh_witness (script : bytes) : bytes := encode [scripthash_witness script].
Definition graftroot_key_witness (sig : bytes) : bytes := encode [P1 sig; IOp0 O_FALSE].
Definition graftroot_surrogate_witness (ssig surrogate : bytes) : bytes :=
  encode [P1 ssig; P1 surrogate; IOp0 O_TRUE].

(* the two arms of the graftroot lock *)
Definition surr_arm : bytes := [x1d; x34; x01; x02; x0a; x01; x6b; x4a; x20; x2d].
Definition key_arm (fl : byte) : bytes := [x0a; x01; x6b; x23; fl].
Definition wc_k : bytes := [x09; x01; x6b; x01].

Lemma surr_arm_encoding :
  surr_arm = encode [IOp0 O_DUP; ISwap x01 x02; RC [x6b]; IOp0 O_CHECK_SIG_STACK; IOp0 O_VERIFY; IOp0 O_EVAL].
Proof. reflexivity. Qed.
Lemma key_arm_encoding fl : key_arm fl = encode [RC [x6b]; IOp1 O_CHECK_SIG fl].
Proof. reflexivity. Qed.

Lemma sh_witness_bytes script : sh_witness script = push1_bytes script.
Proof. unfold sh_witness, scripthash_witness, encode. cbn [flat_map encode1 P1]. rewrite app_nil_r. reflexivity. Qed.

Lemma scripthash_lock_bytes h n :
  scripthash_lock h n = [x1d] ++ [x1f; n] ++ push1_bytes h ++ [x22] ++ [x2d].
Proof. reflexivity. Qed.

Lemma graftroot_lock_bytes pk fl :
  graftroot_lock pk fl = (push1_bytes pk ++ wc_k) ++ x2c :: ifelse_ops surr_arm (key_arm fl).
Proof. rewrite <- app_assoc. reflexivity. Qed.

Lemma graftroot_key_witness_bytes sig : graftroot_key_witness sig = pushes_bytes [sig] ++ [x00].
Proof.
  unfold graftroot_key_witness, pushes_bytes, encode. cbn [flat_map encode1 P1]. rewrite !app_nil_r. reflexivity.
Qed.

Lemma graftroot_surrogate_witness_bytes ssig surrogate :
  graftroot_surrogate_witness ssig surrogate = pushes_bytes [ssig; surrogate] ++ [x01].
Proof.
  unfold graftroot_surrogate_witness, pushes_bytes, encode. cbn [flat_map encode1 P1].
  rewrite !app_nil_r, <- !app_assoc. reflexivity.
Qed.

Lemma scripthash_bytes (script h : bytes) (n : byte) :
  scripthash_lock h n = [x1d; x1f; n; x03; z2b (blen h)] ++ h ++ [x22; x2d] /\
  sh_witness script = x03 :: z2b (blen script) :: script.
Proof. split; [reflexivity|apply sh_witness_bytes]. Qed.

Lemma graftroot_bytes (pk sig ssig surrogate : bytes) (fl : byte) :
  graftroot_lock pk fl =
    (x03 :: z2b (blen pk) :: pk) ++
    [x09; x01; x6b; x01; x2c; x00; x0a; x1d; x34; x01; x02; x0a; x01; x6b; x4a; x20; x2d;
     x00; x05; x0a; x01; x6b; x23; fl] /\
  graftroot_key_witness sig = (x03 :: z2b (blen sig) :: sig) ++ [x00] /\
  graftroot_surrogate_witness ssig surrogate =
    (x03 :: z2b (blen ssig) :: ssig) ++ (x03 :: z2b (blen surrogate) :: surrogate) ++ [x01].
Proof.
  split; [reflexivity|]. split.
  - rewrite graftroot_key_witness_bytes. unfold pushes_bytes. cbn [flat_map]. rewrite app_nil_r. reflexivity.
  - rewrite graftroot_surrogate_witness_bytes. unfold pushes_bytes. cbn [flat_map].
    rewrite app_nil_r, <- app_assoc. reflexivity.
Qed.

Section Eval.
Variable orc : oracle.
Variable cfg : config.

Definition no_eval_ban : Prop := flag_get (c_flags cfg) (FKStr (str "disallow_OP_EVAL")) = None.
Definition eval_ret : bool := flag_on (c_flags cfg) (FKStr (str "eval_return")).

(* the state in which an EVALuated script starts: a NEW tape object (call count + 1) holding the script,
   with a NEW copy of the definition table of the calling tape *)
Definition eval_start (st : state) (tid : nat) (body : bytes) : state :=
  with_tapes (with_defs st (st_defs st ++ [nth_defs st (to_defs (nth_tape st tid))]))
    (st_tapes st ++ [{| to_data := body; to_count := (to_count (nth_tape st tid) + 1)%Z;
                        to_defs := List.length (st_defs st) |}]).

(* what OP_EVAL does with the control flag once the script has ended normally: with the flag
   "eval_return" the flag stays set (and the calling tape ends), otherwise it is cleared *)
Definition eval_cache (st' : state) : state :=
  match cache_get (st_cache st') returned_key with
  | Some _ =>
    if eval_ret then with_cache st' (cache_set (st_cache st') returned_key (VOne (ABool true)))
    else with_cache st' (cache_del (st_cache st') returned_key)
  | None => st'
  end.

Definition eval_finish (tid ptr : nat) (o : outcome unit) : outcome unit :=
  match o with
  | Done _ _ st' =>
    Done tt {| fr_tid := tid;
               fr_ptr := match cache_get (st_cache st') returned_key with
                         | Some _ => if eval_ret then List.length (tdata st' tid) else ptr
                         | None => ptr
                         end |} (eval_cache st')
  | Raised e _ st' => Raised e {| fr_tid := tid; fr_ptr := ptr |} st'
  | OutOfFuel => OutOfFuel
  | Unmodelled w => Unmodelled w
  end.

(* OP_EVAL, the pointer standing just behind the opcode *)
Lemma eval_exec run tid ptr st script rest :
  no_eval_ban -> st_stack st = script :: rest ->
  (to_count (nth_tape st tid) < c_limit cfg)%Z -> script <> [] ->
  interp orc cfg run OP_EVAL {| fr_tid := tid; fr_ptr := ptr |} st =
    eval_finish tid ptr (run (List.length (st_tapes st)) (eval_start (with_stack st rest) tid script)).
Proof.
  intros Hfl Hs Hc Hne.
  unfold OP_EVAL, eval_body, config_, get, act. cbn [bind interp step].
  unfold no_eval_ban in Hfl. rewrite Hfl. unfold sert at 1. cbn [bind interp step].
  unfold cur. cbn [fr_tid].
  replace (to_count (nth_tape st tid) <? c_limit cfg)%Z with true by (symmetry; apply Z.ltb_lt; exact Hc).
  unfold sert at 1. cbn [bind interp step]. rewrite Hs. cbn [bind interp step].
  replace (0 <? blen script)%Z with true by (symmetry; apply nonempty_blen; exact Hne).
  unfold vert at 1. cbn [bind interp step].
  match goal with |- match ?X with _ => _ end = _ =>
    change X with (after_run {| fr_tid := tid; fr_ptr := ptr |}
                     (run (List.length (st_tapes st)) (eval_start (with_stack st rest) tid script))) end.
  destruct (run _ _) as [[] fr' st'|e fr' st'| |w]; cbn [after_run eval_finish]; try reflexivity.
  unfold eval_cache, eval_ret.
  destruct (cache_get (st_cache st') returned_key); [|reflexivity].
  destruct (flag_on _ _); reflexivity.
Qed.

(* the refusals of OP_EVAL *)
Lemma eval_exec_banned run fr st v :
  flag_get (c_flags cfg) (FKStr (str "disallow_OP_EVAL")) = Some v ->
  interp orc cfg run OP_EVAL fr st = Raised ScriptExecutionError fr st.
Proof. apply eval_disallowed. Qed.

Lemma eval_exec_limit run tid ptr st :
  no_eval_ban -> (c_limit cfg <= to_count (nth_tape st tid))%Z ->
  interp orc cfg run OP_EVAL {| fr_tid := tid; fr_ptr := ptr |} st =
    Raised ScriptExecutionError {| fr_tid := tid; fr_ptr := ptr |} st.
Proof.
  intros Hfl Hc. unfold OP_EVAL, eval_body, config_, get, act. cbn [bind interp step].
  unfold no_eval_ban in Hfl. rewrite Hfl. unfold sert at 1. cbn [bind interp step].
  unfold cur. cbn [fr_tid].
  replace (to_count (nth_tape st tid) <? c_limit cfg)%Z with false by (symmetry; apply Z.ltb_ge; exact Hc).
  reflexivity.
Qed.

Lemma eval_exec_empty run tid ptr st script rest :
  no_eval_ban -> st_stack st = script :: rest ->
  (to_count (nth_tape st tid) <? c_limit cfg)%Z = true -> (0 <? blen script)%Z = false ->
  interp orc cfg run OP_EVAL {| fr_tid := tid; fr_ptr := ptr |} st =
    Raised ValueError {| fr_tid := tid; fr_ptr := ptr |} (with_stack st rest).
Proof.
  intros Hfl Hs Hc He. unfold OP_EVAL, eval_body, config_, get, act. cbn [bind interp step].
  unfold no_eval_ban in Hfl. rewrite Hfl. unfold sert at 1. cbn [bind interp step].
  unfold cur. cbn [fr_tid]. rewrite Hc.
  unfold sert at 1. cbn [bind interp step]. rewrite Hs. cbn [bind interp step]. rewrite He.
  reflexivity.
Qed.

Lemma tdata_eval_cache st' t : tdata (eval_cache st') t = tdata st' t.
Proof.
  unfold eval_cache. destruct (cache_get _ _); [|reflexivity]. destruct eval_ret; reflexivity.
Qed.

Lemma stack_eval_cache st' : st_stack (eval_cache st') = st_stack st'.
Proof.
  unfold eval_cache. destruct (cache_get _ _); [|reflexivity]. destruct eval_ret; reflexivity.
Qed.

Lemma tapes_eval_cache st' : st_tapes (eval_cache st') = st_tapes st'.
Proof.
  unfold eval_cache. destruct (cache_get _ _); [|reflexivity]. destruct eval_ret; reflexivity.
Qed.

Lemma tdata_eval_new st tid body : tdata (eval_start st tid body) (List.length (st_tapes st)) = body.
Proof. exact (tdata_new st (eval_start st tid body) _ eq_refl). Qed.

Lemma tdata_eval_old st tid body t :
  t < List.length (st_tapes st) -> tdata (eval_start st tid body) t = tdata st t.
Proof. exact (tdata_old st (eval_start st tid body) _ t eq_refl). Qed.

Lemma count_eval_new st tid body :
  to_count (nth_tape (eval_start st tid body) (List.length (st_tapes st))) = (to_count (nth_tape st tid) + 1)%Z.
Proof. rewrite (nth_tape_new st (eval_start st tid body) _ eq_refl). reflexivity. Qed.

(* the outcome of a tape whose LAST instruction is OP_EVAL, from the outcome of the EVALuated script *)
Definition eval_last_outcome (tid ptr : nat) (o : outcome unit) : outcome unit :=
  match o with
  | Done _ _ st' => Done tt {| fr_tid := tid; fr_ptr := ptr |} (eval_cache st')
  | Raised e _ st' => Raised e {| fr_tid := tid; fr_ptr := ptr |} st'
  | OutOfFuel => OutOfFuel
  | Unmodelled w => Unmodelled w
  end.

Lemma eval_last_outcome_call tid ptr o :
  eval_last_outcome tid ptr o = call_outcome eval_cache (fun _ => ptr) tid ptr o.
Proof. reflexivity. Qed.

(* an instruction that comes down to OP_EVAL, as the last one of its tape: wherever OP_EVAL leaves the pointer,
   the tape is over *)
Lemma eval_finish_last f tid p st data c tail T st1 :
  tdata st tid = data -> skipn p data = c :: tail ->
  tid < List.length (st_tapes st1) -> tdata st1 tid = data ->
  interp orc cfg (fun t s => run_tape orc cfg (S f) t 0 s) (dispatch (N.to_nat (Byte.to_N c)))
         {| fr_tid := tid; fr_ptr := S p |} st =
    eval_finish tid (S p + List.length tail) (run_tape orc cfg (S f) T 0 st1) ->
  run_tape orc cfg (S (S f)) tid p st =
    eval_last_outcome tid (List.length data) (run_tape orc cfg (S f) T 0 st1).
Proof.
  intros Hd Hp Hlt Hd1 Hi. rewrite eval_last_outcome_call.
  apply (call_last orc cfg f tid p st data c tail T st1 eval_cache
           (fun st' => match cache_get (st_cache st') returned_key with
                       | Some _ => if eval_ret then List.length (tdata st' tid) else S p + List.length tail
                       | None => S p + List.length tail
                       end) Hd Hp Hlt Hd1).
  - intro s. apply tdata_eval_cache.
  - intro s. destruct (cache_get _ _); [destruct eval_ret|]; auto.
  - exact Hi.
Qed.

Lemma eval_last_at f tid p st data script rest :
  tdata st tid = data -> skipn p data = [x2d] -> tid < List.length (st_tapes st) ->
  no_eval_ban -> st_stack st = script :: rest ->
  (to_count (nth_tape st tid) < c_limit cfg)%Z -> script <> [] ->
  run_tape orc cfg (S (S f)) tid p st =
    eval_last_outcome tid (List.length data)
      (run_tape orc cfg (S f) (List.length (st_tapes st)) 0 (eval_start (with_stack st rest) tid script)).
Proof.
  intros Hd Hp Hlt Hfl Hs Hc Hne.
  apply (eval_finish_last f tid p st data x2d [] _ _ Hd Hp).
  - unfold eval_start. cbn [st_tapes with_tapes]. rewrite app_length. cbn [st_tapes with_stack]. lia.
  - rewrite tdata_eval_old by exact Hlt. exact Hd.
  - change (dispatch (N.to_nat (Byte.to_N x2d))) with OP_EVAL. rewrite Nat.add_0_r.
    exact (eval_exec _ tid (S p) st script rest Hfl Hs Hc Hne).
Qed.

End Eval.

(* the verdict of run_auth_scripts once the last script has produced [o]; [post] is what the instructions
   that enclose the last sub-tape still do to the state (they never touch the stack) *)
Definition verdict_after (post : state -> state) (o : outcome unit) : auth_result :=
  match o with
  | Done _ _ st'' =>
    match st_stack st'' with
    | [item] => AuthVerdict (bytes_eqb item [xff]) (with_stack (post st'') [])
    | _ => AuthVerdict false (post st'')
    end
  | Raised _ _ st'' => AuthVerdict false st''
  | OutOfFuel => AuthFuel
  | Unmodelled w => AuthUnmod w
  end.

Lemma finish_verdict_after o : BuilderSpec.finish o = verdict_after (fun s => s) o.
Proof. reflexivity. Qed.

Lemma verdict_after_call post0 post q tid r o :
  (forall s, st_stack (post s) = st_stack s) ->
  verdict_after post0 (call_outcome post q tid r o) = verdict_after (fun s => post0 (post s)) o.
Proof.
  intro Hpost. destruct o as [[] fr' st'|e fr' st'| |w']; try reflexivity.
  cbn [call_outcome verdict_after]. rewrite Hpost. reflexivity.
Qed.

Section ScriptHash.
Variable orc : oracle.
Variable cfg : config.

Lemma sh_witness_runs f script vals :
  List.length script < 256 -> fits cfg script -> 1 <= c_max_items cfg ->
  run_script orc cfg (S (S f)) (sh_witness script) vals =
    Done tt {| fr_tid := 0; fr_ptr := List.length (sh_witness script) |}
         (with_stack (init_state cfg (sh_witness script) vals) [script]).
Proof.
  intros Hl Hf Hit. apply (script_runs orc cfg 1); [|lia]. rewrite sh_witness_bytes.
  apply push1_runs; [exact Hl|reflexivity|exact Hf|exact Hit].
Qed.

(* the tape objects of the two scripts *)
Definition sh_tapes (script h : bytes) (n : byte) : list tapeobj :=
  [{| to_data := sh_witness script; to_count := 0; to_defs := 0 |};
   {| to_data := scripthash_lock h n; to_count := 0; to_defs := 0 |}].

(* a script with another hash does not start: verdict False, no sub-tape, empty log *)
Theorem scripthash_wrong_script f (script h : bytes) n d vals :
  0 < List.length script < 256 -> List.length script <= c_max_item_size cfg ->
  List.length h < 256 -> List.length h <= c_max_item_size cfg -> 3 <= c_max_items cfg ->
  orc PShake256 [script; [n]] = OOk [d] -> d <> h ->
  exists st,
    run_auth_scripts orc cfg (S (S (S (S (S (S f)))))) [sh_witness script; scripthash_lock h n] vals
      = AuthVerdict false st /\
  st_tapes st = sh_tapes script h n /\
  st_log st = st_log (init_state cfg (sh_witness script) vals) /\ st_log st = [].
Proof.
  intros Ls Fs Lh Fh Hit Ho Hdh.
  rewrite (auth_pair orc cfg _ _ _ vals _ _ (sh_witness_runs _ script vals ltac:(lia) Fs ltac:(lia))).
  rewrite (hash_commit_step orc cfg (S (S f)) 1 0 (pair_start cfg _ _ [script] vals) _ [x2d] n h script []
             eq_refl (scripthash_lock_bytes h n) eq_refl Fs Lh Fh Hit ltac:(lia)).
  rewrite Ho, bytes_eqb_neq by congruence.
  destruct (c_max_item_size cfg <? List.length d); eexists; (split; [reflexivity|]); (split; [reflexivity|]);
    split; reflexivity.
Qed.

(* the state in which the committed script starts *)
Definition sh_eval_state (script h : bytes) (n : byte) (vals : cache) : state :=
  {| st_stack := [];
     st_cache := cache_del (init_cache cfg vals) returned_key;
     st_tapes := sh_tapes script h n ++ [{| to_data := script; to_count := 1; to_defs := 1 |}];
     st_defs := [[]; []];
     st_log := [];
     st_rand := 0 |}.

Lemma sh_eval_state_facts script h n vals :
  let st' := sh_eval_state script h n vals in
  tdata st' 2 = script /\ st_stack st' = [] /\ List.length (st_tapes st') = 3 /\
  to_count (nth_tape st' 2) = 1%Z /\ nth_defs st' (to_defs (nth_tape st' 2)) = [] /\
  cache_get (st_cache st') returned_key = None /\
  (forall g, msg_of g (st_cache st') = msg_of g (init_cache cfg vals)).
Proof.
  cbv zeta. repeat split.
  - apply cache_get_del_same.
  - intro g. apply msg_of_del_returned.
Qed.

(* the committed script: the result is exactly the continuation of OP_EVAL on it — the script runs from
   offset 0 of a new tape object on the empty stack; the verdict is read from the stack it leaves *)
Theorem scripthash_committed_script f (script h : bytes) n vals :
  0 < List.length script < 256 -> List.length script <= c_max_item_size cfg ->
  List.length h < 256 -> List.length h <= c_max_item_size cfg -> 3 <= c_max_items cfg ->
  no_eval_ban cfg -> (0 < c_limit cfg)%Z ->
  orc PShake256 [script; [n]] = OOk [h] ->
  run_auth_scripts orc cfg (S (S (S (S (S (S f)))))) [sh_witness script; scripthash_lock h n] vals =
    verdict_after (eval_cache cfg) (run_tape orc cfg (S f) 2 0 (sh_eval_state script h n vals)).
Proof.
  intros Ls Fs Lh Fh Hit Hban Hlim Ho.
  assert (Hne : script <> []) by (intro E; subst script; simpl in Ls; lia).
  rewrite (auth_pair orc cfg _ _ _ vals _ _ (sh_witness_runs _ script vals ltac:(lia) Fs ltac:(lia))).
  set (st2 := pair_start cfg _ _ _ vals).
  rewrite (hash_commit_step orc cfg (S (S f)) 1 0 st2 _ [x2d] n h script [] eq_refl (scripthash_lock_bytes h n)
             eq_refl Fs Lh Fh Hit ltac:(lia)).
  rewrite Ho, bytes_eqb_refl.
  replace (c_max_item_size cfg <? List.length h) with false by (symmetry; apply Nat.ltb_ge; exact Fh).
  assert (Hp : skipn (0 + 3 + List.length (push1_bytes h) + 1) (scripthash_lock h n) = [x2d])
    by (apply (skipn_app_r _ _ [x22]), (skipn_app_r 3 _ (push1_bytes h)); reflexivity).
  rewrite (eval_last_at orc cfg f 1 _ (with_stack st2 [script]) _ script [] eq_refl Hp ltac:(simpl; lia) Hban eq_refl
             Hlim Hne).
  rewrite finish_verdict_after, eval_last_outcome_call, (verdict_after_call _ _ _ _ _ _ (stack_eval_cache cfg)).
  reflexivity.
Qed.

End ScriptHash.

(* what propagate_return (the end of OP_IF / OP_IF_ELSE / OP_TRY_EXCEPT) does to the state *)
Definition prop_cache (st : state) : state :=
  match cache_get (st_cache st) returned_key with
  | Some _ => with_cache st (cache_set (st_cache st) returned_key (VOne (ABool true)))
  | None => st
  end.

Lemma stack_prop_cache st : st_stack (prop_cache st) = st_stack st.
Proof. unfold prop_cache. destruct (cache_get _ _); reflexivity. Qed.
Lemma tapes_prop_cache st : st_tapes (prop_cache st) = st_tapes st.
Proof. unfold prop_cache. destruct (cache_get _ _); reflexivity. Qed.
Lemma tdata_prop_cache st t : tdata (prop_cache st) t = tdata st t.
Proof. unfold prop_cache. destruct (cache_get _ _); reflexivity. Qed.
Lemma prop_cache_none st : cache_get (st_cache st) returned_key = None -> prop_cache st = st.
Proof. intro H. unfold prop_cache. rewrite H. reflexivity. Qed.

Definition ifelse_last_outcome (tid ptr : nat) (o : outcome unit) : outcome unit :=
  match o with
  | Done _ _ st' => Done tt {| fr_tid := tid; fr_ptr := ptr |} (prop_cache st')
  | Raised e _ st' => Raised e {| fr_tid := tid; fr_ptr := ptr |} st'
  | OutOfFuel => OutOfFuel
  | Unmodelled w => Unmodelled w
  end.

Lemma ifelse_last_outcome_call tid ptr o :
  ifelse_last_outcome tid ptr o = call_outcome prop_cache (fun _ => ptr) tid ptr o.
Proof. reflexivity. Qed.

Section IfElseLast.
Variable orc : oracle.
Variable cfg : config.

Lemma propagate_exec run tid ptr st :
  interp orc cfg run propagate_return {| fr_tid := tid; fr_ptr := ptr |} st =
    Done tt {| fr_tid := tid;
               fr_ptr := match cache_get (st_cache st) returned_key with
                         | Some _ => List.length (tdata st tid)
                         | None => ptr
                         end |} (prop_cache st).
Proof.
  unfold propagate_return, OP_RETURN, act, prop_cache. cbn [bind interp step].
  destruct (cache_get (st_cache st) returned_key); reflexivity.
Qed.

Lemma if_else_last f tid st ptr (pre b1 b2 cond : bytes) s :
  tdata st tid = pre ++ x2c :: ifelse_ops b1 b2 -> ptr = List.length pre ->
  tid < List.length (st_tapes st) ->
  (blen b1 < 65536)%Z -> (blen b2 < 65536)%Z -> st_stack st = cond :: s ->
  run_tape orc cfg (S (S f)) tid ptr st =
    ifelse_last_outcome tid (List.length (pre ++ x2c :: ifelse_ops b1 b2))
      (run_tape orc cfg (S f) (List.length (st_tapes st)) 0
         (sub_start (with_stack st s) tid (if bytes_to_bool cond then b1 else b2))).
Proof.
  intros Hd -> Hlt H1 H2 Hs. rewrite ifelse_last_outcome_call.
  set (q := S (List.length pre) + List.length (ifelse_ops b1 b2)).
  apply (call_last orc cfg f tid _ st _ x2c (ifelse_ops b1 b2) _ _ prop_cache
           (fun st' => match cache_get (st_cache st') returned_key with
                       | Some _ => List.length (tdata st' tid)
                       | None => q
                       end) Hd (skipn_after pre _)).
  - unfold sub_start. cbn [st_tapes with_tapes]. rewrite app_length. cbn [st_tapes with_stack]. lia.
  - rewrite tdata_sub_old by exact Hlt. exact Hd.
  - intro s'. apply tdata_prop_cache.
  - intro s'. destruct (cache_get _ _); auto.
  - change (dispatch (N.to_nat (Byte.to_N x2c))) with OP_IF_ELSE.
    assert (Hd1 : tdata st tid = (pre ++ [x2c]) ++ ifelse_ops b1 b2 ++ []).
    { rewrite Hd, app_nil_r, <- app_assoc. reflexivity. }
    rewrite (if_else_exec orc cfg _ tid st (S (List.length pre)) (pre ++ [x2c]) b1 b2 [] cond s Hd1
               ltac:(rewrite app_length; simpl; lia) H1 H2 Hs).
    cbv zeta. destruct (run_tape orc cfg (S f) _ 0 _) as [[] fr' st'|e fr' st'| |w]; try reflexivity.
    apply propagate_exec.
Qed.

End IfElseLast.

Section Graft.
Variable orc : oracle.
Variable cfg : config.

(* the start state of the arm selected by the item [cond] on top of the stack: PUSH1 pk ; WRITE_CACHE "k" 1 have
   put pk into the cache, IF_ELSE has popped [cond] and made the arm a new tape object *)
Definition gr_arm_start (st : state) (tid : nat) (pk : bytes) (stk : list bytes) (arm : bytes) : state :=
  sub_start (with_stack (with_cache st (cache_set (st_cache st) (KBytes [x6b]) (VMany [ABytes pk]))) stk) tid arm.

Lemma arms_small fl : (blen surr_arm < 65536)%Z /\ (blen (key_arm fl) < 65536)%Z.
Proof. split; reflexivity. Qed.

Lemma graftroot_lock_run f tid st pk fl cond stk :
  tdata st tid = graftroot_lock pk fl -> tid < List.length (st_tapes st) -> st_stack st = cond :: stk ->
  List.length pk < 256 -> fits cfg pk -> S (List.length stk) < c_max_items cfg ->
  run_tape orc cfg (S (S (S (S f)))) tid 0 st =
    ifelse_last_outcome tid (List.length (graftroot_lock pk fl))
      (run_tape orc cfg (S f) (List.length (st_tapes st)) 0
         (gr_arm_start st tid pk stk (if bytes_to_bool cond then surr_arm else key_arm fl))).
Proof.
  intros Hd Hlt Hs Lpk Fpk Hsp. rewrite graftroot_lock_bytes in Hd |- *.
  rewrite (runs_at (f := S (S f)) (p := 0)
             (runs_app (push1_runs orc cfg tid st pk _ Lpk Hs Fpk Hsp)
                       (write_cache1_runs orc cfg tid (with_stack st (pk :: cond :: stk)) x6b pk _ eq_refl))
             Hd eq_refl (S (S (S (S f)))) eq_refl).
  destruct (arms_small fl) as [S1 S2].
  exact (if_else_last orc cfg f tid
           (with_cache (with_stack st (cond :: stk)) (cache_set (st_cache st) (KBytes [x6b]) (VMany [ABytes pk])))
           (0 + List.length (push1_bytes pk ++ wc_k)) _ surr_arm (key_arm fl) cond stk Hd eq_refl Hlt S1 S2 eq_refl).
Qed.

Lemma gr_arm_start_facts st tid pk stk arm :
  let T := List.length (st_tapes st) in
  let st' := gr_arm_start st tid pk stk arm in
  tdata st' T = arm /\ List.length (st_tapes st') = S T /\ st_stack st' = stk /\
  cache_get (st_cache st') (KBytes [x6b]) = Some (VMany [ABytes pk]) /\
  to_count (nth_tape st' T) = to_count (nth_tape st tid) /\
  (forall g, msg_of g (st_cache st') = msg_of g (st_cache st)).
Proof.
  cbv zeta. unfold gr_arm_start. set (st1 := with_stack _ stk).
  change (st_tapes st) with (st_tapes st1). rewrite tdata_sub_new, tapes_sub, nth_tape_sub_new. repeat split.
  - apply cache_get_set_same.
  - intro g. apply msg_of_set_bytes.
Qed.

(* the key arm READ_CACHE "k" ; CHECK_SIG fl, on the stack [sig] *)
Lemma graftroot_key_run f tid st pk sig fl c0 :
  65 <= c_max_item_size cfg -> 3 <= c_max_items cfg ->
  tdata st tid = graftroot_lock pk fl -> tid < List.length (st_tapes st) ->
  st_stack st = [[x00]; sig] ->
  (forall g, msg_of g (st_cache st) = msg_of g c0) ->
  List.length pk = 32 -> (List.length sig = 64 \/ List.length sig = 65) ->
  outcome_spec (sig_accepts orc cfg pk sig (b2z fl) c0) (BuilderSpec.bad_arity orc pk sig c0)
               (run_tape orc cfg (S (S (S (S (S (S f)))))) tid 0 st).
Proof.
  intros Hsize Hitems Hd Hlt Hst Hmsg Lpk Lsig.
  rewrite (graftroot_lock_run (S (S f)) tid st pk fl [x00] [sig] Hd Hlt Hst ltac:(lia) ltac:(unfold fits; lia)
             ltac:(simpl; lia)).
  change (bytes_to_bool [x00]) with false. cbv iota.
  rewrite ifelse_last_outcome_call. apply outcome_spec_call; [exact stack_prop_cache|].
  destruct (gr_arm_start_facts st tid pk [sig] (key_arm fl)) as (Hd2 & _ & Hs2 & Hk & _ & Hm).
  erewrite (runs1_at (read_cache1_runs orc cfg _ _ x6b pk [sig] Hk Hs2 ltac:(unfold fits; lia)
                        ltac:(unfold space; simpl; lia))); [|exact Hd2|reflexivity].
  eapply check_sig_last; [exact Hd2|reflexivity|reflexivity|exact Lpk|exact Lsig|unfold room; simpl; lia|].
  rewrite <- Hmsg. apply Hm.
Qed.

(* a surrogate arm: DUP ; SWAP 1 2 ; <one instruction that pushes pk> ; CHECK_SIG_STACK ; VERIFY ; EVAL.
   The graftroot lock reads pk from the cache (READ_CACHE "k"); the committed script of BuilderSpecC13c pushes it *)
Lemma surrogate_arm_run f tid st (getpk : bytes) pk ssig surrogate rest :
  65 <= c_max_item_size cfg -> List.length rest + 4 <= c_max_items cfg ->
  tdata st tid = [x1d; x34; x01; x02] ++ getpk ++ [x4a; x20; x2d] -> tid < List.length (st_tapes st) ->
  st_stack st = surrogate :: ssig :: rest ->
  runs orc cfg 1 tid getpk (with_stack st (surrogate :: ssig :: surrogate :: rest))
       (with_stack st (pk :: surrogate :: ssig :: surrogate :: rest)) ->
  List.length pk = 32 -> List.length ssig = 64 -> surrogate <> [] -> fits cfg surrogate ->
  no_eval_ban cfg -> (to_count (nth_tape st tid) < c_limit cfg)%Z ->
  run_tape orc cfg (S (S (S (S (S (S (S f))))))) tid 0 st =
    if css_verdict orc pk surrogate ssig
    then eval_last_outcome cfg tid (7 + List.length getpk)
           (run_tape orc cfg (S f) (List.length (st_tapes st)) 0 (eval_start (with_stack st rest) tid surrogate))
    else Raised ScriptExecutionError {| fr_tid := tid; fr_ptr := 6 + List.length getpk |}
           (with_stack st (surrogate :: rest)).
Proof.
  intros Hsize Hitems Hd Hlt Hst Hget Lpk Lss Hne Fs Hban Hcnt.
  erewrite (runs1_at (dup_runs orc cfg tid st surrogate (ssig :: rest) Hst Fs ltac:(simpl; lia)));
    [|exact Hd|reflexivity].
  erewrite runs1_at; [|apply (swap12_runs orc cfg tid _ surrogate surrogate ssig rest); reflexivity|exact Hd
                      |reflexivity].
  assert (Hp : skipn (0 + 1 + 3) ([x1d; x34; x01; x02] ++ getpk ++ [x4a; x20; x2d]) = getpk ++ [x4a] ++ [x20] ++ [x2d])
    by reflexivity.
  rewrite with_stack_twice, (runs1_at Hget Hd Hp).
  apply skipn_app_r in Hp.
  erewrite runs1_at; [|apply (check_sig_stack_runs orc cfg tid _ pk surrogate ssig (surrogate :: rest))|exact Hd
                      |exact Hp]; [|reflexivity|exact Lpk|exact Lss|unfold room; simpl; lia].
  apply skipn_app_r in Hp.
  erewrite verify_step; [|exact Hd|exact Hp|reflexivity]. rewrite bytes_to_bool_boolb.
  destruct (css_verdict orc pk surrogate ssig); [|do 2 f_equal; simpl; lia].
  apply (skipn_app_r _ _ [x20]) in Hp. cbn [List.length] in Hp |- *.
  rewrite !with_stack_twice, (eval_last_at orc cfg f tid _ (with_stack st (surrogate :: rest)) _ surrogate rest Hd Hp
                                Hlt Hban eq_refl Hcnt Hne).
  rewrite !app_length. cbn [List.length]. replace (7 + List.length getpk) with (4 + (List.length getpk + 3)) by lia.
  reflexivity.
Qed.

(* the lock on the stack [ [xff]; surrogate; ssig ] *)
Definition gr_surr_start (st : state) (tid : nat) (pk ssig surrogate : bytes) : state :=
  eval_start (with_stack (gr_arm_start st tid pk [surrogate; ssig] surr_arm) []) (List.length (st_tapes st)) surrogate.

Lemma graftroot_surr_run f tid st pk fl ssig surrogate :
  65 <= c_max_item_size cfg -> 4 <= c_max_items cfg ->
  tdata st tid = graftroot_lock pk fl -> tid < List.length (st_tapes st) ->
  st_stack st = [[xff]; surrogate; ssig] ->
  List.length pk = 32 -> List.length ssig = 64 -> surrogate <> [] -> fits cfg surrogate ->
  no_eval_ban cfg -> (to_count (nth_tape st tid) < c_limit cfg)%Z ->
  run_tape orc cfg (S (S (S (S (S (S (S (S (S (S f)))))))))) tid 0 st =
    if css_verdict orc pk surrogate ssig
    then ifelse_last_outcome tid (List.length (graftroot_lock pk fl))
           (eval_last_outcome cfg (List.length (st_tapes st)) 10
              (run_tape orc cfg (S f) (S (List.length (st_tapes st))) 0 (gr_surr_start st tid pk ssig surrogate)))
    else Raised ScriptExecutionError {| fr_tid := tid; fr_ptr := List.length (graftroot_lock pk fl) |}
           (with_stack (gr_arm_start st tid pk [surrogate; ssig] surr_arm) [surrogate]).
Proof.
  intros Hsize Hitems Hd Hlt Hst Lpk Lss Hne Fs Hban Hcnt.
  rewrite (graftroot_lock_run (S (S (S (S (S (S f)))))) tid st pk fl [xff] [surrogate; ssig] Hd Hlt Hst ltac:(lia)
             ltac:(unfold fits; lia) ltac:(simpl; lia)).
  change (bytes_to_bool [xff]) with true. cbv iota. unfold gr_surr_start.
  destruct (gr_arm_start_facts st tid pk [surrogate; ssig] surr_arm) as (Hd2 & Hl2 & Hs2 & Hk & Hc2 & _).
  set (st2 := gr_arm_start st tid pk [surrogate; ssig] surr_arm) in *.
  rewrite (surrogate_arm_run f (List.length (st_tapes st)) st2 [x0a; x01; x6b] pk ssig surrogate [] Hsize Hitems
             Hd2 ltac:(lia) Hs2
             (read_cache1_runs orc cfg _ (with_stack st2 [surrogate; ssig; surrogate]) x6b pk _ Hk eq_refl
                ltac:(unfold fits; lia) ltac:(unfold space; simpl; lia))
             Lpk Lss Hne Fs Hban ltac:(rewrite Hc2; exact Hcnt)).
  rewrite Hl2. destruct (css_verdict orc pk surrogate ssig); reflexivity.
Qed.

End Graft.

Section GraftTheorems.
Variable orc : oracle.
Variable cfg : config.

(* key path: witness PUSH1 sig ; FALSE.  Same right-hand side as the single-signature lock: the key
   written into the cache under the bytes key "k" is not part of any signed message *)
Theorem graftroot_key_exact f (pk sig : bytes) fl vals :
  65 <= c_max_item_size cfg -> 3 <= c_max_items cfg ->
  List.length pk = 32 -> (List.length sig = 64 \/ List.length sig = 65) ->
  match run_auth_scripts orc cfg (S (S (S (S (S (S f))))))
          [graftroot_key_witness sig; graftroot_lock pk fl] vals with
  | AuthVerdict b _ => b = true <-> sig_accepts orc cfg pk sig (b2z fl) (init_cache cfg vals)
  | AuthFuel => False
  | AuthUnmod _ => exists m l, msg_of (sig_flag sig) (init_cache cfg vals) = Some m /\
                               orc PVerify [pk; m; firstn 64 sig] = OOk l /\ List.length l <> 1
  end.
Proof.
  intros Hsize Hitems Lpk Lsig.
  rewrite graftroot_key_witness_bytes.
  rewrite (auth_pair orc cfg _ _ _ vals _ _
             (flagged_witness_runs orc cfg (S (S (S (S (S (S f)))))) [sig] false vals ltac:(simpl; lia)
                ltac:(simpl; lia) ltac:(lia) ltac:(intros x [<-|[]]; unfold fits; lia))).
  apply (finish_spec (sig_accepts orc cfg pk sig (b2z fl) (init_cache cfg vals))
                     (BuilderSpec.bad_arity orc pk sig (init_cache cfg vals))).
  eapply graftroot_key_run; [exact Hsize|exact Hitems|reflexivity|simpl; lia|reflexivity| |exact Lpk|exact Lsig].
  intro g. apply pair_start_msg.
Qed.

(* the tape objects of the two scripts, and the one of the arm chosen by OP_IF_ELSE *)
Definition gr_tapes (w : bytes) (pk : bytes) (fl : byte) (arm : bytes) : list tapeobj :=
  [{| to_data := w; to_count := 0; to_defs := 0 |};
   {| to_data := graftroot_lock pk fl; to_count := 0; to_defs := 0 |};
   {| to_data := arm; to_count := 0; to_defs := 1 |}].

(* the state in which the surrogate script starts: tape object 3 (call count 1, its own copy of the
   definitions), the EMPTY stack (ssig and both copies of the surrogate have been consumed), the cache of
   the lock with the key under "k" *)
Definition gr_eval_state (pk : bytes) (fl : byte) (ssig surrogate : bytes) (vals : cache) : state :=
  {| st_stack := [];
     st_cache := cache_set (cache_del (init_cache cfg vals) returned_key) (KBytes [x6b]) (VMany [ABytes pk]);
     st_tapes := gr_tapes (graftroot_surrogate_witness ssig surrogate) pk fl surr_arm ++
                 [{| to_data := surrogate; to_count := 1; to_defs := 2 |}];
     st_defs := [[]; []; []];
     st_log := [];
     st_rand := 0 |}.

Lemma gr_eval_state_facts pk fl ssig surrogate vals :
  let st' := gr_eval_state pk fl ssig surrogate vals in
  tdata st' 3 = surrogate /\ st_stack st' = [] /\ List.length (st_tapes st') = 4 /\
  to_count (nth_tape st' 3) = 1%Z /\ nth_defs st' (to_defs (nth_tape st' 3)) = [] /\
  cache_get (st_cache st') returned_key = None /\
  cache_get (st_cache st') (KBytes [x6b]) = Some (VMany [ABytes pk]) /\
  (forall g, msg_of g (st_cache st') = msg_of g (init_cache cfg vals)).
Proof.
  cbv zeta. repeat split.
  - cbn [gr_eval_state st_cache]. rewrite cache_get_set_other by reflexivity. apply cache_get_del_same.
  - apply cache_get_set_same.
  - intro g. cbn [gr_eval_state st_cache]. rewrite msg_of_set_bytes. apply msg_of_del_returned.
Qed.

Definition surrogate_verifies (pk surrogate ssig : bytes) : Prop :=
  exists x, orc PVerify [pk; surrogate; ssig] = OOk [x] /\ bytes_to_bool x = true.

(* the surrogate path, witness PUSH1 ssig ; PUSH1 surrogate ; TRUE, by the verdict of OP_CHECK_SIG_STACK *)
Lemma graftroot_surrogate_auth f (pk ssig surrogate : bytes) fl vals :
  65 <= c_max_item_size cfg -> 4 <= c_max_items cfg ->
  List.length pk = 32 -> List.length ssig = 64 ->
  0 < List.length surrogate < 256 -> List.length surrogate <= c_max_item_size cfg ->
  no_eval_ban cfg -> (0 < c_limit cfg)%Z ->
  exists st,
    st_tapes st = gr_tapes (graftroot_surrogate_witness ssig surrogate) pk fl surr_arm /\ st_log st = [] /\
    run_auth_scripts orc cfg (S (S (S (S (S (S (S (S (S (S f))))))))))
      [graftroot_surrogate_witness ssig surrogate; graftroot_lock pk fl] vals =
      if css_verdict orc pk surrogate ssig
      then verdict_after (fun s => prop_cache (eval_cache cfg s))
             (run_tape orc cfg (S f) 3 0 (gr_eval_state pk fl ssig surrogate vals))
      else AuthVerdict false st.
Proof.
  intros Hsize Hitems Lpk Lss Ls Fs Hban Hlim.
  assert (Hne : surrogate <> []) by (intro E; subst surrogate; simpl in Ls; lia).
  unfold gr_eval_state, gr_tapes. rewrite graftroot_surrogate_witness_bytes.
  rewrite (auth_pair orc cfg _ _ _ vals _ _
             (flagged_witness_runs orc cfg (S (S (S (S (S (S (S (S (S (S f)))))))))) [ssig; surrogate] true vals
                ltac:(simpl; lia) ltac:(simpl; lia) ltac:(lia) ltac:(intros x [<-|[<-|[]]]; unfold fits; lia))).
  set (st2 := pair_start cfg _ _ _ vals).
  rewrite (graftroot_surr_run orc cfg f 1 st2 pk fl ssig surrogate Hsize Hitems eq_refl ltac:(simpl; lia) eq_refl
             Lpk Lss Hne Fs Hban Hlim).
  eexists. split; [|split]; [| |destruct (css_verdict orc pk surrogate ssig); [|reflexivity]].
  3:{ rewrite finish_verdict_after, ifelse_last_outcome_call, (verdict_after_call _ _ _ _ _ _ stack_prop_cache),
        eval_last_outcome_call, (verdict_after_call _ _ _ _ _ _ (stack_eval_cache cfg)).
      reflexivity. }
  all: reflexivity.
Qed.

(* surrogate path, the oracle verifies (pk, surrogate, ssig): the result is exactly the continuation of
   OP_EVAL on the surrogate script, then the flag handling of OP_EVAL and of the enclosing OP_IF_ELSE *)
Theorem graftroot_surrogate_runs f (pk ssig surrogate : bytes) fl vals :
  65 <= c_max_item_size cfg -> 4 <= c_max_items cfg ->
  List.length pk = 32 -> List.length ssig = 64 ->
  0 < List.length surrogate < 256 -> List.length surrogate <= c_max_item_size cfg ->
  no_eval_ban cfg -> (0 < c_limit cfg)%Z ->
  surrogate_verifies pk surrogate ssig ->
  run_auth_scripts orc cfg (S (S (S (S (S (S (S (S (S (S f))))))))))
    [graftroot_surrogate_witness ssig surrogate; graftroot_lock pk fl] vals =
    verdict_after (fun s => prop_cache (eval_cache cfg s))
      (run_tape orc cfg (S f) 3 0 (gr_eval_state pk fl ssig surrogate vals)).
Proof.
  intros Hsize Hitems Lpk Lss Ls Fs Hban Hlim Hver. apply css_verdict_true in Hver.
  destruct (graftroot_surrogate_auth f pk ssig surrogate fl vals Hsize Hitems Lpk Lss Ls Fs Hban Hlim)
    as (st & _ & _ & ->).
  rewrite Hver. reflexivity.
Qed.

(* surrogate path, the oracle does not verify: verdict False; the only sub-tape is the arm of the
   OP_IF_ELSE — the surrogate script never starts; the log is empty *)
Theorem graftroot_surrogate_rejected f (pk ssig surrogate : bytes) fl vals :
  65 <= c_max_item_size cfg -> 4 <= c_max_items cfg ->
  List.length pk = 32 -> List.length ssig = 64 ->
  0 < List.length surrogate < 256 -> List.length surrogate <= c_max_item_size cfg ->
  no_eval_ban cfg -> (0 < c_limit cfg)%Z ->
  ~ surrogate_verifies pk surrogate ssig ->
  exists st,
    run_auth_scripts orc cfg (S (S (S (S (S (S (S (S (S (S f))))))))))
      [graftroot_surrogate_witness ssig surrogate; graftroot_lock pk fl] vals = AuthVerdict false st /\
    st_tapes st = gr_tapes (graftroot_surrogate_witness ssig surrogate) pk fl surr_arm /\
    st_log st = [].
Proof.
  intros Hsize Hitems Lpk Lss Ls Fs Hban Hlim Hver.
  destruct (graftroot_surrogate_auth f pk ssig surrogate fl vals Hsize Hitems Lpk Lss Ls Fs Hban Hlim)
    as (st & Ht & Hl & ->).
  exists st. split; [|split; assumption].
  destruct (css_verdict orc pk surrogate ssig) eqn:E; [|reflexivity].
  apply css_verdict_true in E. contradiction.
Qed.

End GraftTheorems.

(* toy oracle of BuilderSpecC13: PShake256 answers 20 bytes x07, PVerify answers [x01]; default configuration *)
Definition h_toy : bytes := repeat x07 20.

Lemma toy_premises :
  no_eval_ban toy_cfg /\ (0 < c_limit toy_cfg)%Z /\ 65 <= c_max_item_size toy_cfg /\ 4 <= c_max_items toy_cfg /\
  toy PShake256 [[x01]; [x14]] = OOk [h_toy].
Proof.
  split; [reflexivity|]. split; [reflexivity|].
  split; [apply Nat.leb_le; reflexivity|]. split; [apply Nat.leb_le; reflexivity|reflexivity].
Qed.

(* with d = h and the committed script [x01] (OP_TRUE): the theorem applies, and the verdict is True *)
Example scripthash_example :
  run_auth_scripts toy toy_cfg 7 [sh_witness [x01]; scripthash_lock h_toy x14] [] =
    verdict_after (eval_cache toy_cfg) (run_tape toy toy_cfg 2 2 0 (sh_eval_state toy_cfg [x01] h_toy x14 [])) /\
  verdict_of (run_auth_scripts toy toy_cfg 7 [sh_witness [x01]; scripthash_lock h_toy x14] []) = Some true.
Proof.
  split.
  - apply (scripthash_committed_script toy toy_cfg 1 [x01] h_toy x14 []); try (vm_compute; lia);
      try (vm_compute; reflexivity).
  - vm_compute. reflexivity.
Qed.

(* a script with another hash (the toy oracle answers h_toy, the lock commits to 20 bytes x08) *)
Example scripthash_example_wrong :
  verdict_of (run_auth_scripts toy toy_cfg 7 [sh_witness [x01]; scripthash_lock (repeat x08 20) x14] []) = Some false.
Proof. vm_compute. reflexivity. Qed.

(* both paths of the graftroot lock, the surrogate script being [x01] (OP_TRUE) *)
Example graftroot_examples :
  verdict_of (run_auth_scripts toy toy_cfg 7
                [graftroot_key_witness (repeat x05 64); graftroot_lock (repeat x06 32) x00] []) = Some true /\
  verdict_of (run_auth_scripts toy toy_cfg 11
                [graftroot_surrogate_witness (repeat x05 64) [x01]; graftroot_lock (repeat x06 32) x00] [])
    = Some true /\
  run_auth_scripts toy toy_cfg 11
    [graftroot_surrogate_witness (repeat x05 64) [x01]; graftroot_lock (repeat x06 32) x00] [] =
    verdict_after (fun s => prop_cache (eval_cache toy_cfg s))
      (run_tape toy toy_cfg 2 3 0 (gr_eval_state toy_cfg (repeat x06 32) x00 (repeat x05 64) [x01] [])).
Proof.
  split; [vm_compute; reflexivity|]. split; [vm_compute; reflexivity|].
  apply (graftroot_surrogate_runs toy toy_cfg 1 (repeat x06 32) (repeat x05 64) [x01] x00 []);
    try (vm_compute; lia); try (vm_compute; reflexivity).
  exists [x01]. split; reflexivity.
Qed.

Print Assumptions eval_exec.
Print Assumptions if_else_last.
Print Assumptions scripthash_wrong_script.
Print Assumptions scripthash_committed_script.
Print Assumptions graftroot_key_exact.
Print Assumptions graftroot_surrogate_runs.
Print Assumptions graftroot_surrogate_rejected.
Print Assumptions scripthash_example.
Print Assumptions graftroot_examples.
