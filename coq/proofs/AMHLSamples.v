(* The secrets of an AMHL chain are a function of (seed, index) alone: a chain of n users and a chain of m >= n users set up
   from the same seed share their first n secrets, whatever was set up before (no memory), and the number of secrets is
   exactly the number of users asked for. *)
From Coq Require Import List Arith Lia.
From TS Require Import Prog AMHL.
Import ListNotations.
Local Open Scope nat_scope.

Lemma omap_app {A B} (f : A -> option B) (l1 l2 : list A) :
  omap f (l1 ++ l2) = obind (omap f l1) (fun r1 => obind (omap f l2) (fun r2 => Some (r1 ++ r2))).
Proof.
  induction l1 as [|a t IH]; cbn [app omap obind].
  - destruct (omap f l2); reflexivity.
  - destruct (f a) as [b|]; cbn [obind]; [|reflexivity].
    rewrite IH. destruct (omap f t) as [r1|]; cbn [obind]; [|reflexivity].
    destruct (omap f l2) as [r2|]; cbn [obind]; reflexivity.
Qed.

Lemma omap_length {A B} (f : A -> option B) (l : list A) r : omap f l = Some r -> length r = length l.
Proof.
  revert r; induction l as [|a t IH]; cbn [omap obind]; intros r H.
  - injection H as <-. reflexivity.
  - destruct (f a) as [b|]; cbn [obind] in H; [|discriminate].
    destruct (omap f t) as [r1|]; cbn [obind] in H; [|discriminate].
    injection H as <-. cbn [length]. f_equal. apply IH. reflexivity.
Qed.

Lemma omap_nth {A B} (f : A -> option B) (l : list A) r :
  omap f l = Some r -> forall i da db, i < length l -> f (nth i l da) = Some (nth i r db).
Proof.
  revert r; induction l as [|a t IH]; cbn [omap obind]; intros r H i da db Hi.
  - cbn in Hi. lia.
  - destruct (f a) as [b|] eqn:Fa; cbn [obind] in H; [|discriminate].
    destruct (omap f t) as [r1|] eqn:Ft; cbn [obind] in H; [|discriminate].
    injection H as <-. destruct i as [|i]; cbn [nth]; [exact Fa|].
    apply (IH r1 eq_refl). cbn [length] in Hi. lia.
Qed.

Section Samples.
  Variable orc : oracle.

  (* exactly n secrets *)
  Theorem samples_length fresh n seed ys : samples orc fresh n seed = Some ys -> length ys = n.
  Proof. unfold samples. intros H. rewrite (omap_length _ _ _ H). apply seq_length. Qed.

  (* the i-th secret is sample(seed, i): nothing else enters *)
  Theorem samples_nth fresh n seed ys i d :
    samples orc fresh n seed = Some ys -> i < n -> sample orc (eff_seed fresh seed) i = Some (nth i ys d).
  Proof.
    unfold samples. intros H Hi.
    pose proof (omap_nth _ _ _ H i 0 d) as N. rewrite seq_length in N. specialize (N Hi).
    rewrite seq_nth in N by exact Hi. exact N.
  Qed.

  (* a shorter chain from the same seed: the first n secrets of the longer one, and only those *)
  Theorem samples_prefix fresh n m seed ym :
    n <= m -> samples orc fresh m seed = Some ym -> samples orc fresh n seed = Some (firstn n ym).
  Proof.
    unfold samples. intros Hnm H.
    replace m with (n + (m - n)) in H by lia. rewrite seq_app, omap_app in H.
    destruct (omap (sample orc (eff_seed fresh seed)) (seq 0 n)) as [r1|] eqn:E1; cbn [obind] in H; [|discriminate].
    destruct (omap (sample orc (eff_seed fresh seed)) (seq (0 + n) (m - n))) as [r2|]; cbn [obind] in H; [|discriminate].
    injection H as <-. f_equal.
    pose proof (omap_length _ _ _ E1) as L. rewrite seq_length in L.
    rewrite firstn_app, <- L, firstn_all, Nat.sub_diag. cbn [firstn]. rewrite app_nil_r. reflexivity.
  Qed.

  (* the set-up of a chain hands out exactly n secrets and n points *)
  Lemma setup_loop_length prev ys r : setup_loop orc prev ys = Some r -> length r = length ys.
  Proof.
    revert prev r; induction ys as [|y t IH]; cbn [setup_loop obind]; intros prev r H.
    - injection H as <-. reflexivity.
    - destruct (oneway orc y) as [P|]; cbn [obind] in H; [|discriminate].
      destruct (aggregate_points orc [prev; P]) as [Yi|]; cbn [obind] in H; [|discriminate].
      destruct (setup_loop orc Yi t) as [r1|] eqn:E; cbn [obind] in H; [|discriminate].
      injection H as <-. cbn [length]. f_equal. exact (IH _ _ E).
  Qed.

  Theorem setup_lengths fresh n seed y Y :
    setup orc fresh n seed = Some (y, Y) -> length y = n /\ length Y = n.
  Proof.
    unfold setup. destruct (samples orc fresh n seed) as [ys|] eqn:S; cbn [obind]; [|discriminate].
    destruct ys as [|y0 t]; [discriminate|].
    destruct (oneway orc y0) as [Y0|]; cbn [obind]; [|discriminate].
    destruct (setup_loop orc Y0 t) as [r|] eqn:L; cbn [obind]; [|discriminate].
    intros H. injection H as <- <-. pose proof (samples_length _ _ _ _ S) as Ln.
    split; [exact Ln|]. cbn [length] in *. rewrite (setup_loop_length _ _ _ L). exact Ln.
  Qed.
End Samples.

Print Assumptions samples_length.
Print Assumptions samples_nth.
Print Assumptions samples_prefix.
Print Assumptions setup_lengths.
