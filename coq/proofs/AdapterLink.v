(* C17 link: the adapter-signature INSTRUCTIONS of the VM model (OP_MAKE_ADAPTER_SIG_PUBLIC,
   OP_CHECK_ADAPTER_SIG, OP_DECRYPT_ADAPTER_SIG, OP_MAKE_ADAPTER_SIG_PRIVATE in model/Ops.v) compute
   exactly the abstract functions of Algebra.v (make_adapter_public, check_adapter, decrypt_adapter,
   make_adapter_private) whenever the oracle is interpreted by an algebraic structure through byte
   encodings (the H-grp premises, Section variables/hypotheses below).  Hence the algebraic theorems
   of Algebra.v (adapter_checks, adapter_decrypts, adapter_recovers, private_variant_check_iff) are
   theorems about what the instructions push.

   Every instruction theorem is an exact equation  interp .. OP_x fr st = Done tt fr st'  with st'
   written out: the stack exactly, and the cache as the initial cache updated, for the enabled
   tape flags, by [cache_set] under bytes keys ([cset]).  Weaker "there is a final state" forms
   ([frame_ok]: tapes, definitions, log, random counter and every str-keyed cache entry unchanged)
   follow as corollaries. *)
From Coq Require Import ZArith List Bool Lia Ring Ring_theory.
From Coq.Strings Require Import Byte String.
From TS Require Import Bytes State Prog Ops Interp StateLemmas InterpLemmas StackLemmas TaprootSpec Algebra.
Import ListNotations.
Local Open Scope nat_scope.


Definition boolb (b : bool) : bytes := if b then [xff] else [x00].

(* clamp_scalar(s, from_private_key=True) on an at-least-32-byte string, as the model computes it *)
Definition clamp_key (s : bytes) : bytes :=
  set_nth_byte
    (set_nth_byte (set_nth_byte (firstn 32 s) 0 (fun b => z2b (Z.land (b2z b) 248))) 31
                  (fun b => z2b (Z.lor (b2z b) 64)))
    31 (fun b => z2b (Z.land (b2z b) 127)).

(* derive_key_from_seed: clamp (sha512(seed)[:32]) *)
Definition key_bytes (h512 : bytes -> bytes) (seed : bytes) : bytes := clamp_key (firstn 32 (h512 seed)).

(* a flag-guarded cache write under a bytes key *)
Definition cset (b : bool) (k v : bytes) (c : cache) : cache :=
  if b then cache_set c (KBytes k) (VOne (ABytes v)) else c.

(* what an adapter instruction leaves alone *)
Definition frame_ok (st st' : state) : Prop :=
  st_tapes st' = st_tapes st /\ st_defs st' = st_defs st /\ st_log st' = st_log st /\
  st_rand st' = st_rand st /\
  forall k, cache_get (st_cache st') (KStr k) = cache_get (st_cache st) (KStr k).

Lemma cset_str b k v c k' : cache_get (cset b k v c) (KStr k') = cache_get c (KStr k').
Proof. destruct b; cbn [cset]; [apply cache_get_set_other; reflexivity | reflexivity]. Qed.

Lemma frame_ok_fin st c s :
  (forall k, cache_get c (KStr k) = cache_get (st_cache st) (KStr k)) ->
  frame_ok st (with_stack (with_cache st c) s).
Proof. intro H. repeat split. exact H. Qed.


Section Steps.
Variable orc : oracle.
Variable cfg : config.
Variable run : nat -> state -> outcome unit.
Notation interp := (interp orc cfg run).

Lemma config_ok fr st : interp config_ fr st = Done cfg fr st.
Proof. reflexivity. Qed.

Lemma get_ok x s fr st : st_stack st = x :: s -> interp get fr st = Done x fr (with_stack st s).
Proof. intro H. unfold get, act. cbn [interp step]. rewrite H. reflexivity. Qed.

Lemma put_ok b s fr st :
  st_stack st = s -> List.length b <= c_max_item_size cfg -> List.length s < c_max_items cfg ->
  interp (put b) fr st = Done tt fr (with_stack st (b :: s)).
Proof. intros H H1 H2. unfold put, act. rewrite (put_step orc cfg run _ _ fr st b s H H1 H2). reflexivity. Qed.

Lemma prim1_ok p args r fr st : orc p args = OOk [r] -> interp (prim1 p args) fr st = Done r fr st.
Proof. intro H. unfold prim1, prim_list, act. cbn [bind interp step]. rewrite H. reflexivity. Qed.

Lemma clamp_false_ok h fr st :
  List.length h = 32 -> interp (clamp_scalar h false) fr st = Done (clamp32 h) fr st.
Proof.
  intro H. unfold clamp_scalar, blen. rewrite H. change (Z.of_nat 32 <? 32)%Z with false. reflexivity.
Qed.

Lemma clamp_true_ok h fr st :
  List.length h = 32 -> interp (clamp_scalar h true) fr st = Done (clamp_key h) fr st.
Proof.
  intro H. unfold clamp_scalar, blen. rewrite H. change (Z.of_nat 32 <? 32)%Z with false. reflexivity.
Qed.

Lemma when_cache_ok b k v fr st :
  interp (when b (cache_raw k v)) fr st = Done tt fr (with_cache st (cset b k v (st_cache st))).
Proof.
  destruct b; unfold when, cache_raw, act, cset; cbn [interp step]; [reflexivity|].
  destruct st; reflexivity.
Qed.

End Steps.


Section Link.
  (* the algebraic structure: the interface of Algebra.v (Section Alg).  Only the part of that
     interface consumed by the Algebra.v theorems used below is listed (psub_def, act_add_r and act_1
     are not used by them) *)
  Variable scalar : Type.
  Variables (s0 s1 : scalar) (sadd smul ssub : scalar -> scalar -> scalar) (sopp : scalar -> scalar).
  Hypothesis scalar_ring : ring_theory s0 s1 sadd smul ssub sopp (@eq scalar).
  Variable point : Type.
  Variables (p0 : point) (padd : point -> point -> point) (popp : point -> point).
  Hypothesis padd_comm : forall P Q, padd P Q = padd Q P.
  Hypothesis padd_assoc : forall P Q R, padd P (padd Q R) = padd (padd P Q) R.
  Hypothesis padd_0_l : forall P, padd p0 P = P.
  Hypothesis padd_opp : forall P, padd P (popp P) = p0.
  Variable sact : scalar -> point -> point.          (* [act] of Algebra.v *)
  Hypothesis act_add_l : forall a b P, sact (sadd a b) P = padd (sact a P) (sact b P).
  Hypothesis act_mul : forall a b P, sact (smul a b) P = sact a (sact b P).
  Variable G : point.

  Variables (es : scalar -> bytes) (ep : point -> bytes).
  Hypothesis len_es : forall a, List.length (es a) = 32.
  Hypothesis len_ep : forall P, List.length (ep P) = 32.
  Hypothesis ep_inj : forall P Q, ep P = ep Q -> P = Q.
  Hypothesis clamp_es : forall a, clamp32 (es a) = es a.     (* encoded scalars have bit 255 clear *)

  Variable h512 : bytes -> bytes.
  Hypothesis len_h512 : forall b, List.length (h512 b) = 64.
  Variable red : bytes -> scalar.

  (* the oracle computes in the structure, on encodings *)
  Variable orc : oracle.
  Hypothesis O_sha : forall b, orc PSha512 [b] = OOk [h512 b].
  Hypothesis O_red : forall h, orc PReduce [h] = OOk [es (red h)].
  Hypothesis red_es : forall a, red (es a ++ repeat x00 32) = a.   (* encoded scalars are canonical: reducing one gives it back *)
  Hypothesis O_base : forall a, orc PBaseMult [es a] = OOk [ep (sact a G)].
  Hypothesis O_mult : forall a P, orc PMult [es a; ep P] = OOk [ep (sact a P)].
  Hypothesis O_padd : forall P Q, orc PPointAdd [ep P; ep Q] = OOk [ep (padd P Q)].
  Hypothesis O_sadd : forall a b, orc PScalarAdd [es a; es b] = OOk [es (sadd a b)].
  Hypothesis O_smul : forall a b, orc PScalarMul [es a; es b] = OOk [es (smul a b)].
  Hypothesis O_valid : forall P, orc PValidPoint [ep P] = OOk [[x01]].

  Variable cfg : config.
  Variable run : nat -> state -> outcome unit.
  Notation interp := (interp orc cfg run).

  (* c(R', X, m) = clamp (H_small [R'; X; m]) *)
  Definition chal (RT X : point) (m : bytes) : scalar := red (h512 (ep RT ++ ep X ++ m)).
  (* OP_MAKE_ADAPTER_SIG_PUBLIC:  r = clamp (H_small [H_big [sha512(seed)[32:]; m]]) *)
  Definition nonce_pub (seed m : bytes) : scalar := red (h512 (h512 (skipn 32 (h512 seed) ++ m))).
  (* OP_MAKE_ADAPTER_SIG_PRIVATE: r = clamp (H_small [sha512(seed)[32:]; m]) *)
  Definition nonce_prv (seed m : bytes) : scalar := red (h512 (skipn 32 (h512 seed) ++ m)).

  (* Algebra.v at this structure *)
  Notation pubA := (pub sact G).
  Notation sig_validA := (sig_valid padd sact G chal).
  Notation make_pubA := (make_adapter_public sadd smul padd sact G chal).
  Notation make_prvA := (make_adapter_private sadd smul sact G chal).
  Notation checkA := (check_adapter padd sact G chal).
  Notation decryptA := (decrypt_adapter sadd padd sact G).


  Lemma H_big1_ok a fr st : interp (H_big [a]) fr st = Done (h512 a) fr st.
  Proof. unfold H_big. cbn [List.concat]. rewrite app_nil_r. apply prim1_ok, O_sha. Qed.

  Lemma H_big2_ok a b fr st : interp (H_big [a; b]) fr st = Done (h512 (a ++ b)) fr st.
  Proof. unfold H_big. cbn [List.concat]. rewrite app_nil_r. apply prim1_ok, O_sha. Qed.

  Lemma H_small1_ok a fr st : interp (H_small [a]) fr st = Done (es (red (h512 a))) fr st.
  Proof. unfold H_small. erewrite bind_done by apply H_big1_ok. apply prim1_ok, O_red. Qed.

  Lemma H_small2_ok a b fr st : interp (H_small [a; b]) fr st = Done (es (red (h512 (a ++ b)))) fr st.
  Proof. unfold H_small. erewrite bind_done by apply H_big2_ok. apply prim1_ok, O_red. Qed.

  Lemma H_small3_ok a b c fr st :
    interp (H_small [a; b; c]) fr st = Done (es (red (h512 (a ++ b ++ c)))) fr st.
  Proof.
    unfold H_small, H_big. cbn [List.concat]. rewrite app_nil_r.
    erewrite bind_done by apply prim1_ok, O_sha. apply prim1_ok, O_red.
  Qed.

  (* the challenge: H_small then clamp *)
  Lemma chal_ok RT X m A (k : bytes -> prog A) fr st :
    interp (h <- H_small [ep RT; ep X; m] ;; c <- clamp_scalar h false ;; k c) fr st =
    interp (k (es (chal RT X m))) fr st.
  Proof.
    erewrite bind_done by apply H_small3_ok.
    erewrite bind_done by (apply clamp_false_ok, len_es).
    rewrite clamp_es. reflexivity.
  Qed.

  (* derive_key_from_seed returns the bytes [key_bytes seed] *)
  Lemma derive_key_bytes_ok seed fr st :
    interp (derive_key_from_seed seed) fr st = Done (key_bytes h512 seed) fr st.
  Proof.
    unfold derive_key_from_seed. erewrite bind_done by apply H_big1_ok.
    apply clamp_true_ok. rewrite firstn_length, len_h512. reflexivity.
  Qed.

  (* ... hence the encoding of x whenever those bytes are the encoding of x *)
  Lemma derive_key_ok seed x fr st :
    key_bytes h512 seed = es x -> interp (derive_key_from_seed seed) fr st = Done (es x) fr st.
  Proof. intros <-. apply derive_key_bytes_ok. Qed.

  (* The signer's key bytes kb REPRESENT the scalar x: the only two places the instructions use the
     key are a base-point multiplication and the second argument of a scalar multiplication.  (The
     clamped key has bit 254 set, so with libsodium's canonical encodings of reduced scalars it is
     not literally [es x]; [key_repr] covers that case, and [key_repr_es] the literal one.) *)
  Definition key_repr (kb : bytes) (x : scalar) : Prop :=
    orc PBaseMult [kb] = OOk [ep (sact x G)] /\
    forall c, orc PScalarMul [es c; kb] = OOk [es (smul c x)].

  Lemma key_repr_es x : key_repr (es x) x.
  Proof. split; [apply O_base | intro c; apply O_smul]. Qed.

  Lemma key_repr_of_es seed x : key_bytes h512 seed = es x -> key_repr (key_bytes h512 seed) x.
  Proof. intros ->. apply key_repr_es. Qed.

  Lemma derive_point_ok a fr st : interp (derive_point (es a)) fr st = Done (ep (sact a G)) fr st.
  Proof. apply prim1_ok, O_base. Qed.

  Lemma aggregate2_ok P Q fr st :
    interp (aggregate_points [ep P; ep Q]) fr st = Done (ep (padd P Q)) fr st.
  Proof.
    unfold aggregate_points. cbn [check_points sum_with].
    unfold prim_bool, prim1, prim_list, vert, act. cbn [bind].
    rewrite prim_act_step, O_valid. cbn [bind]. change (bytes_to_bool [x01]) with true. cbn [bind].
    rewrite prim_act_step, O_valid. cbn [bind]. change (bytes_to_bool [x01]) with true. cbn [bind].
    rewrite prim_act_step, O_padd. reflexivity.
  Qed.


  Theorem make_public_computes_gen fr st T m seed rest x :
    st_stack st = ep T :: m :: seed :: rest ->
    key_repr (key_bytes h512 seed) x ->
    32 <= c_max_item_size cfg -> List.length rest + 2 <= c_max_items cfg ->
    let r := nonce_pub seed m in
    let ad := make_pubA x r T m in
    interp OP_MAKE_ADAPTER_SIG_PUBLIC fr st =
    Done tt fr
      (with_stack
         (with_cache st
            (cset (flagon cfg 8) (str "sa") (es (snd ad))
            (cset (flagon cfg 6) (str "T") (ep T)
            (cset (flagon cfg 4) (str "R") (ep (fst ad))
            (cset (flagon cfg 3) (str "r") (es r) (st_cache st))))))
         (es (snd ad) :: ep (fst ad) :: rest)).
  Proof.
    intros Hs [HkG Hkm] Hsz Hsp r ad. unfold OP_MAKE_ADAPTER_SIG_PUBLIC.
    erewrite bind_done by apply config_ok.
    erewrite bind_done by (apply get_ok; exact Hs).
    erewrite bind_done by (apply get_ok; reflexivity).
    erewrite bind_done by (apply get_ok; reflexivity).
    erewrite bind_done by apply derive_key_bytes_ok.
    erewrite bind_done by (apply prim1_ok; exact HkG).
    erewrite bind_done by apply H_big1_ok. cbv zeta.
    erewrite bind_done by apply H_big2_ok.
    erewrite bind_done by apply H_small1_ok.
    erewrite bind_done by (apply clamp_false_ok, len_es). rewrite clamp_es.
    erewrite bind_done by apply derive_point_ok.
    erewrite bind_done by apply aggregate2_ok.
    rewrite chal_ok.
    erewrite bind_done by apply prim1_ok, Hkm.
    erewrite bind_done by apply prim1_ok, O_sadd.
    erewrite bind_done by apply when_cache_ok.
    erewrite bind_done by apply when_cache_ok.
    erewrite bind_done by apply when_cache_ok.
    erewrite bind_done by apply when_cache_ok.
    erewrite bind_done by (apply put_ok with (s := rest); [reflexivity | rewrite len_ep; exact Hsz | lia]).
    erewrite put_ok with (s := ep (fst ad) :: rest) by (first [reflexivity | rewrite len_es; exact Hsz | cbn [List.length]; lia]).
    reflexivity.
  Qed.

  (* the same with the key bytes literally the encoding of x *)
  Corollary make_public_computes fr st T m seed rest x :
    st_stack st = ep T :: m :: seed :: rest ->
    key_bytes h512 seed = es x ->
    32 <= c_max_item_size cfg -> List.length rest + 2 <= c_max_items cfg ->
    let r := nonce_pub seed m in
    let ad := make_pubA x r T m in
    interp OP_MAKE_ADAPTER_SIG_PUBLIC fr st =
    Done tt fr
      (with_stack
         (with_cache st
            (cset (flagon cfg 8) (str "sa") (es (snd ad))
            (cset (flagon cfg 6) (str "T") (ep T)
            (cset (flagon cfg 4) (str "R") (ep (fst ad))
            (cset (flagon cfg 3) (str "r") (es r) (st_cache st))))))
         (es (snd ad) :: ep (fst ad) :: rest)).
  Proof.
    intros Hs Hk. apply (make_public_computes_gen fr st T m seed rest x Hs (key_repr_of_es seed x Hk)).
  Qed.


  (* the run on an arbitrary byte string [sa] with the oracle's two answers about it: canonical, and sa G right *)
  Lemma check_run fr st X T m R sa saG r rest :
    st_stack st = ep X :: ep T :: m :: ep R :: sa :: rest ->
    orc PBaseMult [sa] = OOk [saG] ->
    orc PReduce [sa ++ repeat x00 32] = OOk [r] ->
    1 <= c_max_item_size cfg -> List.length rest + 1 <= c_max_items cfg ->
    interp OP_CHECK_ADAPTER_SIG fr st =
    Done tt fr
      (with_stack st
         (boolb (bytes_eqb r sa && bytes_eqb saG (ep (padd R (sact (chal (padd R T) X m) X)))) :: rest)).
  Proof.
    intros Hs Hb Hr Hsz Hsp. unfold OP_CHECK_ADAPTER_SIG.
    erewrite bind_done by (apply get_ok; exact Hs).
    erewrite bind_done by (apply get_ok; reflexivity).
    erewrite bind_done by (apply get_ok; reflexivity).
    erewrite bind_done by (apply get_ok; reflexivity).
    erewrite bind_done by (apply get_ok; reflexivity).
    erewrite bind_done by (apply prim1_ok; exact Hb).
    erewrite bind_done by (apply prim1_ok; exact Hr).
    erewrite bind_done by apply aggregate2_ok.
    rewrite chal_ok.
    erewrite bind_done by apply prim1_ok, O_mult.
    erewrite bind_done by apply aggregate2_ok.
    unfold put_bool.
    erewrite put_ok with (s := rest) by (first [reflexivity | destruct (_ && _); cbn [List.length]; lia | lia]).
    reflexivity.
  Qed.

  Theorem check_computes fr st X T m R sa rest :
    st_stack st = ep X :: ep T :: m :: ep R :: es sa :: rest ->
    1 <= c_max_item_size cfg -> List.length rest + 1 <= c_max_items cfg ->
    interp OP_CHECK_ADAPTER_SIG fr st =
    Done tt fr
      (with_stack st
         (boolb (bytes_eqb (ep (sact sa G)) (ep (padd R (sact (chal (padd R T) X m) X)))) :: rest)).
  Proof.
    intros Hs Hsz Hsp.
    rewrite (check_run fr st X T m R (es sa) _ _ rest Hs (O_base sa) (O_red _) Hsz Hsp).
    rewrite red_es, bytes_eqb_refl. reflexivity.
  Qed.

  (* the pushed verdict is the truth value of Algebra.v's check_adapter *)
  Lemma check_bool_iff X T m R sa :
    bytes_eqb (ep (sact sa G)) (ep (padd R (sact (chal (padd R T) X m) X))) = true <->
    checkA X T m R sa.
  Proof.
    unfold check_adapter. rewrite bytes_eqb_eq. split; [apply ep_inj | intros ->; reflexivity].
  Qed.

  Corollary check_computes_prop fr st X T m R sa rest :
    st_stack st = ep X :: ep T :: m :: ep R :: es sa :: rest ->
    1 <= c_max_item_size cfg -> List.length rest + 1 <= c_max_items cfg ->
    (checkA X T m R sa ->
     interp OP_CHECK_ADAPTER_SIG fr st = Done tt fr (with_stack st ([xff] :: rest))) /\
    (~ checkA X T m R sa ->
     interp OP_CHECK_ADAPTER_SIG fr st = Done tt fr (with_stack st ([x00] :: rest))).
  Proof.
    intros Hs Hsz Hsp. rewrite (check_computes fr st X T m R sa rest Hs Hsz Hsp).
    destruct (bytes_eqb _ _) eqn:E; split; intro H; try reflexivity.
    - exfalso. apply H. apply check_bool_iff. exact E.
    - apply check_bool_iff in H. congruence.
  Qed.

  (* D22: a byte string sa that is NOT a canonical scalar -- reducing sa || 0^32 does not give sa back:
     bit 255 set, or any value >= L -- is refused whatever the other inputs are, even when sa G equals the right-hand side
     (libsodium's base multiplication ignores bit 255, so the point equation alone would accept such an sa).  [sa], [saG],
     [r] are arbitrary byte strings here, not encodings. *)
  Theorem check_rejects_noncanonical fr st X T m R sa saG r rest :
    st_stack st = ep X :: ep T :: m :: ep R :: sa :: rest ->
    orc PBaseMult [sa] = OOk [saG] ->
    orc PReduce [sa ++ repeat x00 32] = OOk [r] -> r <> sa ->
    1 <= c_max_item_size cfg -> List.length rest + 1 <= c_max_items cfg ->
    interp OP_CHECK_ADAPTER_SIG fr st = Done tt fr (with_stack st ([x00] :: rest)).
  Proof.
    intros Hs Hb Hr Hne Hsz Hsp. rewrite (check_run fr st X T m R sa saG r rest Hs Hb Hr Hsz Hsp).
    destruct (bytes_eqb r sa) eqn:B; [|reflexivity]. apply bytes_eqb_eq in B. contradiction.
  Qed.


  Theorem decrypt_computes fr st t R sa rest :
    st_stack st = es t :: ep R :: es sa :: rest ->
    32 <= c_max_item_size cfg -> List.length rest + 2 <= c_max_items cfg ->
    let dec := decryptA t R sa in
    interp OP_DECRYPT_ADAPTER_SIG fr st =
    Done tt fr
      (with_stack
         (with_cache st
            (cset (flagon cfg 9) (str "s") (es (snd dec))
            (cset (flagon cfg 7) (str "RT") (ep (fst dec)) (st_cache st))))
         (es (snd dec) :: ep (fst dec) :: rest)).
  Proof.
    intros Hs Hsz Hsp dec. unfold OP_DECRYPT_ADAPTER_SIG.
    erewrite bind_done by apply config_ok.
    erewrite bind_done by (apply get_ok; exact Hs).
    erewrite bind_done by (apply clamp_false_ok, len_es). rewrite clamp_es.
    erewrite bind_done by (apply get_ok; reflexivity).
    erewrite bind_done by (apply get_ok; reflexivity).
    erewrite bind_done by apply derive_point_ok.
    erewrite bind_done by apply aggregate2_ok.
    erewrite bind_done by apply prim1_ok, O_sadd.
    erewrite bind_done by apply when_cache_ok.
    erewrite bind_done by apply when_cache_ok.
    erewrite bind_done by (apply put_ok with (s := rest); [reflexivity | rewrite len_ep; exact Hsz | lia]).
    erewrite put_ok with (s := ep (fst dec) :: rest) by (first [reflexivity | rewrite len_es; exact Hsz | cbn [List.length]; lia]).
    reflexivity.
  Qed.

  (* the stack alone: es (sa + t) :: ep (R + t G) :: rest *)
  Corollary decrypt_computes_stack fr st t R sa rest :
    st_stack st = es t :: ep R :: es sa :: rest ->
    32 <= c_max_item_size cfg -> List.length rest + 2 <= c_max_items cfg ->
    exists st', interp OP_DECRYPT_ADAPTER_SIG fr st = Done tt fr st' /\
      st_stack st' = es (sadd sa t) :: ep (padd R (sact t G)) :: rest /\ frame_ok st st'.
  Proof.
    intros Hs Hsz Hsp. eexists. split; [apply (decrypt_computes fr st t R sa rest Hs Hsz Hsp)|].
    split; [reflexivity|]. apply frame_ok_fin. intro k. rewrite !cset_str. reflexivity.
  Qed.

  Corollary make_public_computes_stack fr st T m seed rest x :
    st_stack st = ep T :: m :: seed :: rest ->
    key_repr (key_bytes h512 seed) x ->
    32 <= c_max_item_size cfg -> List.length rest + 2 <= c_max_items cfg ->
    let ad := make_pubA x (nonce_pub seed m) T m in
    exists st', interp OP_MAKE_ADAPTER_SIG_PUBLIC fr st = Done tt fr st' /\
      st_stack st' = es (snd ad) :: ep (fst ad) :: rest /\ frame_ok st st'.
  Proof.
    intros Hs Hk Hsz Hsp ad. eexists.
    split; [apply (make_public_computes_gen fr st T m seed rest x Hs Hk Hsz Hsp)|].
    split; [reflexivity|]. apply frame_ok_fin. intro k. rewrite !cset_str. reflexivity.
  Qed.

  (* Algebra.v's theorems as statements about the instructions *)

  (* (adapter_checks)  The two items (sab on top of Rb) that OP_MAKE_ADAPTER_SIG_PUBLIC leaves on
     the stack make OP_CHECK_ADAPTER_SIG push xff, for the signer's public point X = x G, the same
     T and the same m -- in every later state whose stack holds them in the order the check pops. *)
  Theorem adapter_instr_checks fr st T m seed rest x :
    st_stack st = ep T :: m :: seed :: rest ->
    key_repr (key_bytes h512 seed) x ->
    32 <= c_max_item_size cfg -> List.length rest + 2 <= c_max_items cfg ->
    exists st1 sab Rb,
      interp OP_MAKE_ADAPTER_SIG_PUBLIC fr st = Done tt fr st1 /\
      st_stack st1 = sab :: Rb :: rest /\ frame_ok st st1 /\
      forall fr2 st2 rest2,
        st_stack st2 = ep (pubA x) :: ep T :: m :: Rb :: sab :: rest2 ->
        List.length rest2 + 1 <= c_max_items cfg ->
        interp OP_CHECK_ADAPTER_SIG fr2 st2 = Done tt fr2 (with_stack st2 ([xff] :: rest2)).
  Proof.
    intros Hs Hk Hsz Hsp.
    destruct (make_public_computes_stack fr st T m seed rest x Hs Hk Hsz Hsp) as [st1 [E1 [E2 E3]]].
    exists st1. do 2 eexists. split; [exact E1|]. split; [exact E2|]. split; [exact E3|].
    intros fr2 st2 rest2 Hs2 Hsp2.
    apply (check_computes_prop fr2 st2 _ _ _ _ _ rest2 Hs2); [lia | exact Hsp2 |].
    apply (adapter_checks scalar sadd smul point padd sact act_add_l act_mul G bytes chal).
  Qed.

  (* (adapter_decrypts, adapter_recovers)  If T = t G, OP_DECRYPT_ADAPTER_SIG applied to t and the
     two items made by OP_MAKE_ADAPTER_SIG_PUBLIC leaves es s on top of ep R' with (R', s) an ordinary
     valid signature of m under X = x G; and s - sa = t for the adapter scalar sa (sab = es sa). *)
  Theorem adapter_instr_decrypts fr st t m seed rest x :
    st_stack st = ep (sact t G) :: m :: seed :: rest ->
    key_repr (key_bytes h512 seed) x ->
    32 <= c_max_item_size cfg -> List.length rest + 2 <= c_max_items cfg ->
    exists st1 sa R,
      interp OP_MAKE_ADAPTER_SIG_PUBLIC fr st = Done tt fr st1 /\
      st_stack st1 = es sa :: ep R :: rest /\ frame_ok st st1 /\
      forall fr3 st3 rest3,
        st_stack st3 = es t :: ep R :: es sa :: rest3 ->
        List.length rest3 + 2 <= c_max_items cfg ->
        exists st4 s R',
          interp OP_DECRYPT_ADAPTER_SIG fr3 st3 = Done tt fr3 st4 /\
          st_stack st4 = es s :: ep R' :: rest3 /\ frame_ok st3 st4 /\
          sig_validA (pubA x) m R' s /\
          recover ssub s sa = t.
  Proof.
    intros Hs Hk Hsz Hsp.
    destruct (make_public_computes_stack fr st (sact t G) m seed rest x Hs Hk Hsz Hsp) as [st1 [E1 [E2 E3]]].
    exists st1. do 2 eexists. split; [exact E1|]. split; [exact E2|]. split; [exact E3|].
    intros fr3 st3 rest3 Hs3 Hsp3.
    destruct (decrypt_computes_stack fr3 st3 _ _ _ rest3 Hs3 Hsz Hsp3) as [st4 [F1 [F2 F3]]].
    exists st4. do 2 eexists. split; [exact F1|]. split; [exact F2|]. split; [exact F3|]. split.
    - apply (adapter_decrypts scalar sadd smul point padd padd_comm padd_assoc sact act_add_l act_mul
               G bytes chal x (nonce_pub seed m) t m).
    - apply (adapter_recovers scalar s0 s1 sadd smul ssub sopp scalar_ring point padd sact G bytes chal
               x (nonce_pub seed m) t m).
  Qed.


  Theorem make_private_computes fr st seed t m rest x :
    st_stack st = seed :: es t :: m :: rest ->
    key_repr (key_bytes h512 seed) x ->
    32 <= c_max_item_size cfg -> List.length rest + 3 <= c_max_items cfg ->
    let r := nonce_prv seed m in
    let ad := make_prvA x r t m in
    let Tp := fst (fst ad) in let Rp := snd (fst ad) in let sa' := snd ad in
    interp OP_MAKE_ADAPTER_SIG_PRIVATE fr st =
    Done tt fr
      (with_stack
         (with_cache st
            (cset (flagon cfg 8) (str "sa") (es sa')
            (cset (flagon cfg 6) (str "T") (ep Tp)
            (cset (flagon cfg 5) (str "t") (es t)
            (cset (flagon cfg 4) (str "R") (ep Rp) (st_cache st))))))
         (es sa' :: ep Rp :: ep Tp :: rest)).
  Proof.
    intros Hs [HkG Hkm] Hsz Hsp r ad Tp Rp sa'. unfold OP_MAKE_ADAPTER_SIG_PRIVATE.
    erewrite bind_done by apply config_ok.
    erewrite bind_done by (apply get_ok; exact Hs).
    erewrite bind_done by (apply get_ok; reflexivity).
    erewrite bind_done by (apply clamp_false_ok, len_es). rewrite clamp_es.
    erewrite bind_done by (apply get_ok; reflexivity).
    erewrite bind_done by apply derive_key_bytes_ok.
    erewrite bind_done by (apply prim1_ok; exact HkG).
    erewrite bind_done by apply derive_point_ok.
    erewrite bind_done by apply H_big1_ok. cbv zeta.
    erewrite bind_done by apply H_small2_ok.
    erewrite bind_done by (apply clamp_false_ok, len_es). rewrite clamp_es.
    erewrite bind_done by apply derive_point_ok.
    rewrite chal_ok.
    erewrite bind_done by apply prim1_ok, O_sadd.
    erewrite bind_done by apply prim1_ok, Hkm.
    erewrite bind_done by apply prim1_ok, O_sadd.
    erewrite bind_done by apply when_cache_ok.
    erewrite bind_done by apply when_cache_ok.
    erewrite bind_done by apply when_cache_ok.
    erewrite bind_done by apply when_cache_ok.
    erewrite bind_done by (apply put_ok with (s := rest); [reflexivity | rewrite len_ep; exact Hsz | lia]).
    erewrite bind_done by (apply put_ok with (s := ep Tp :: rest); [reflexivity | rewrite len_ep; exact Hsz | cbn [List.length]; lia]).
    erewrite put_ok with (s := ep Rp :: ep Tp :: rest) by (first [reflexivity | rewrite len_es; exact Hsz | cbn [List.length]; lia]).
    reflexivity.
  Qed.

  (* D15 as a statement about the instructions: the adapter made by OP_MAKE_ADAPTER_SIG_PRIVATE passes
     OP_CHECK_ADAPTER_SIG (for X = x G and the T it pushed) exactly when
       T + c(R, X, m) X = c(R + T, X, m) X,
     an equation between two unrelated challenge values. *)
  Theorem private_instr_check_iff fr st seed t m rest x :
    st_stack st = seed :: es t :: m :: rest ->
    key_repr (key_bytes h512 seed) x ->
    32 <= c_max_item_size cfg -> List.length rest + 3 <= c_max_items cfg ->
    let R := sact (nonce_prv seed m) G in let T := sact t G in let X := pubA x in
    exists st1 sab,
      interp OP_MAKE_ADAPTER_SIG_PRIVATE fr st = Done tt fr st1 /\
      st_stack st1 = sab :: ep R :: ep T :: rest /\ frame_ok st st1 /\
      forall fr2 st2 rest2,
        st_stack st2 = ep X :: ep T :: m :: ep R :: sab :: rest2 ->
        List.length rest2 + 1 <= c_max_items cfg ->
        exists v, interp OP_CHECK_ADAPTER_SIG fr2 st2 = Done tt fr2 (with_stack st2 (boolb v :: rest2)) /\
          (v = true <-> padd T (sact (chal R X m) X) = sact (chal (padd R T) X m) X).
  Proof.
    intros Hs Hk Hsz Hsp R T X.
    eexists. eexists.
    split; [apply (make_private_computes fr st seed t m rest x Hs Hk Hsz Hsp)|].
    split; [reflexivity|].
    split; [apply frame_ok_fin; intro k; rewrite !cset_str; reflexivity|].
    intros fr2 st2 rest2 Hs2 Hsp2. cbn [make_adapter_private fst snd] in Hs2.
    eexists. split; [apply (check_computes fr2 st2 _ _ _ _ _ rest2 Hs2); [lia | exact Hsp2]|].
    rewrite check_bool_iff.
    apply (private_variant_check_iff scalar s0 s1 sadd smul ssub sopp scalar_ring point p0 padd popp
             padd_comm padd_assoc padd_0_l padd_opp sact act_add_l act_mul G bytes chal
             x (nonce_prv seed m) t m).
  Qed.

End Link.


(* Non-vacuity.  The Z model of Algebra.v cannot be used: [ep] must be an injection of the points
   into 32-byte strings, so the point type is finite.  Instead: scalar = point = the two-element field
   (bool, xorb, andb), a . P = a && P, G = true, and an oracle that decodes the first byte.  All the
   Section hypotheses hold in it, and the seed 08 00..00 has key bytes [es true]. *)

Definition bes (b : bool) : bytes := (if b then x08 else x00) :: repeat x00 30 ++ [x40].
Definition bep (b : bool) : bytes := (if b then x01 else x00) :: repeat x00 31.
Definition bds (b : bytes) : bool := match b with x :: _ => negb (Byte.eqb x x00) | [] => false end.
Definition bh512 (b : bytes) : bytes := firstn 64 (b ++ repeat x00 64).   (* pad / truncate to 64 *)
Definition bred (h : bytes) : bool := bds h.
Definition borc : oracle := fun p args =>
  match p, args with
  | PSha512, [b] => OOk [bh512 b]
  | PReduce, [h] => OOk [bes (bred h)]
  | PBaseMult, [a] => OOk [bep (bds a && true)]
  | PMult, [a; P] => OOk [bep (bds a && bds P)]
  | PPointAdd, [P; Q] => OOk [bep (xorb (bds P) (bds Q))]
  | PScalarAdd, [a; b] => OOk [bes (xorb (bds a) (bds b))]
  | PScalarMul, [a; b] => OOk [bes (bds a && bds b)]
  | PValidPoint, [_] => OOk [[x01]]
  | _, _ => OErr OtherError
  end.
Definition bseed : bytes := x08 :: repeat x00 31.

Lemma b_padd_comm : forall P Q, xorb P Q = xorb Q P. Proof. intros [] []; reflexivity. Qed.
Lemma b_padd_assoc : forall P Q R, xorb P (xorb Q R) = xorb (xorb P Q) R. Proof. intros [] [] []; reflexivity. Qed.
Lemma b_padd_0_l : forall P, xorb false P = P. Proof. intros []; reflexivity. Qed.
Lemma b_padd_opp : forall P, xorb P P = false. Proof. intros []; reflexivity. Qed.
Lemma b_act_add_l : forall a b P, xorb a b && P = xorb (a && P) (b && P). Proof. intros [] [] []; reflexivity. Qed.
Lemma b_act_mul : forall a b P, a && b && P = a && (b && P). Proof. intros [] [] []; reflexivity. Qed.
Lemma b_len_es : forall a, List.length (bes a) = 32. Proof. intros []; reflexivity. Qed.
Lemma b_len_ep : forall P, List.length (bep P) = 32. Proof. intros []; reflexivity. Qed.
Lemma b_ep_inj : forall P Q, bep P = bep Q -> P = Q. Proof. intros [] [] H; try reflexivity; discriminate H. Qed.
Lemma b_clamp_es : forall a, clamp32 (bes a) = bes a. Proof. intros []; reflexivity. Qed.
Lemma b_len_h512 : forall b, List.length (bh512 b) = 64.
Proof. intro b. unfold bh512. rewrite firstn_length, app_length, repeat_length. lia. Qed.
Lemma bds_es a : bds (bes a) = a. Proof. destruct a; reflexivity. Qed.
Lemma bds_ep P : bds (bep P) = P. Proof. destruct P; reflexivity. Qed.
Lemma b_O_sha : forall b, borc PSha512 [b] = OOk [bh512 b]. Proof. reflexivity. Qed.
Lemma b_O_red : forall h, borc PReduce [h] = OOk [bes (bred h)]. Proof. reflexivity. Qed.
Lemma b_red_es : forall a, bred (bes a ++ repeat x00 32) = a. Proof. intros []; reflexivity. Qed.
Lemma b_O_base : forall a, borc PBaseMult [bes a] = OOk [bep (a && true)].
Proof. intro a. cbn [borc]. rewrite bds_es. reflexivity. Qed.
Lemma b_O_mult : forall a P, borc PMult [bes a; bep P] = OOk [bep (a && P)].
Proof. intros a P. cbn [borc]. rewrite bds_es, bds_ep. reflexivity. Qed.
Lemma b_O_padd : forall P Q, borc PPointAdd [bep P; bep Q] = OOk [bep (xorb P Q)].
Proof. intros P Q. cbn [borc]. rewrite !bds_ep. reflexivity. Qed.
Lemma b_O_sadd : forall a b, borc PScalarAdd [bes a; bes b] = OOk [bes (xorb a b)].
Proof. intros a b. cbn [borc]. rewrite !bds_es. reflexivity. Qed.
Lemma b_O_smul : forall a b, borc PScalarMul [bes a; bes b] = OOk [bes (a && b)].
Proof. intros a b. cbn [borc]. rewrite !bds_es. reflexivity. Qed.
Lemma b_O_valid : forall P, borc PValidPoint [bep P] = OOk [[x01]]. Proof. reflexivity. Qed.
Lemma b_key : key_bytes bh512 bseed = bes true. Proof. vm_compute. reflexivity. Qed.

(* the end-to-end theorems at this model: every Section hypothesis discharged *)
Example bool_adapter_instr_checks cfg run fr st T m rest :=
  adapter_instr_checks bool xorb andb bool xorb andb b_act_add_l b_act_mul true bes bep
    b_len_es b_len_ep b_ep_inj b_clamp_es bh512 b_len_h512 bred borc
    b_O_sha b_O_red b_red_es b_O_base b_O_mult b_O_padd b_O_sadd b_O_valid cfg run fr st T m bseed rest true.

Example bool_adapter_instr_decrypts cfg run fr st t m rest :=
  adapter_instr_decrypts bool false true xorb andb xorb (fun b => b) BoolTheory bool xorb
    b_padd_comm b_padd_assoc andb b_act_add_l b_act_mul true bes bep
    b_len_es b_len_ep b_clamp_es bh512 b_len_h512 bred borc
    b_O_sha b_O_red b_O_base b_O_padd b_O_sadd b_O_valid cfg run fr st t m bseed rest true.

Example bool_private_instr_check_iff cfg run fr st t m rest :=
  private_instr_check_iff bool false true xorb andb xorb (fun b => b) BoolTheory bool false xorb (fun b => b)
    b_padd_comm b_padd_assoc b_padd_0_l b_padd_opp andb b_act_add_l b_act_mul true bes bep
    b_len_es b_len_ep b_ep_inj b_clamp_es bh512 b_len_h512 bred borc
    b_O_sha b_O_red b_red_es b_O_base b_O_mult b_O_padd b_O_sadd b_O_valid cfg run fr st bseed t m rest true.

(* ... and their key premise holds for the seed 08 00..00 with x = true *)
Example bool_key_repr :
  key_repr bool andb bool andb true bes bep borc (key_bytes bh512 bseed) true.
Proof.
  apply (key_repr_of_es bool andb bool andb true bes bep bh512 borc b_O_base b_O_smul). exact b_key.
Qed.

(* a concrete run in the model: signer x = true, tweak t = true (T = ep true), message 01;
   MAKE_ADAPTER_SIG_PUBLIC, then DECRYPT with t, all flags off *)
Definition bcfg : config :=
  {| c_max_items := 1024; c_max_item_size := 1024; c_limit := 64; c_flags := []; c_sigext := [];
     c_ctplugins := []; c_contracts := []; c_now := 0 |}.
Definition bst (s : list bytes) : state :=
  {| st_stack := s; st_cache := []; st_tapes := []; st_defs := []; st_log := []; st_rand := 0 |}.
Definition bfr : frame := {| fr_tid := 0; fr_ptr := 0 |}.
Definition brun : nat -> state -> outcome unit := fun _ _ => OutOfFuel.

Example bool_concrete_run :
  exists sab Rb sb R'b,
    interp borc bcfg brun OP_MAKE_ADAPTER_SIG_PUBLIC bfr (bst [bep true; [x01]; bseed])
      = Done tt bfr (bst [sab; Rb]) /\
    interp borc bcfg brun OP_CHECK_ADAPTER_SIG bfr (bst [bep true; bep true; [x01]; Rb; sab])
      = Done tt bfr (bst [[xff]]) /\
    interp borc bcfg brun OP_DECRYPT_ADAPTER_SIG bfr (bst [bes true; Rb; sab])
      = Done tt bfr (bst [sb; R'b]) /\
    (* the decrypted pair is an ordinary signature: s G = R' + c(R', X, m) X *)
    bds sb && true = xorb (bds R'b) (bred (bh512 (R'b ++ bep true ++ [x01])) && true).
Proof. exists (bes true), (bep false), (bes false), (bep true). vm_compute. repeat split. Qed.

Print Assumptions make_public_computes_gen.
Print Assumptions make_public_computes.
Print Assumptions check_computes.
Print Assumptions check_computes_prop.
Print Assumptions check_rejects_noncanonical.
Print Assumptions decrypt_computes.
Print Assumptions adapter_instr_checks.
Print Assumptions adapter_instr_decrypts.
Print Assumptions make_private_computes.
Print Assumptions private_instr_check_iff.
Print Assumptions bool_adapter_instr_decrypts.
Print Assumptions bool_concrete_run.
