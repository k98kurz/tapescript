(* Reasoning principles for the interpreter: the bind law, one equation for each action that reads the tape
   counters or the definition table, writes the cache or runs another tape, popping n items. *)
From Coq Require Import ZArith List Bool Lia.
From Coq.Strings Require Import Byte String.
From TS Require Import State Prog Ops Interp.
Import ListNotations.
Local Open Scope nat_scope.

Section IL.
Variable orc : oracle.
Variable cfg : config.
Variable run : nat -> state -> outcome unit.

Lemma interp_bind A B (p : prog A) (f : A -> prog B) fr st :
  interp orc cfg run (bind p f) fr st =
  match interp orc cfg run p fr st with
  | Done a fr' st' => interp orc cfg run (f a) fr' st'
  | Raised e fr' st' => Raised e fr' st'
  | OutOfFuel => OutOfFuel
  | Unmodelled w => Unmodelled w
  end.
Proof.
  revert fr st. induction p as [a|e|w|X a k IH]; intros fr st; cbn [bind interp]; try reflexivity.
  destruct (step orc cfg run a fr st) as [x fr' st'|e fr' st'| |w]; try reflexivity. apply IH.
Qed.

(* [rewrite (bind_done (X_exec ..))]: one instruction of a composed program *)
Lemma bind_done {A B} {p : prog A} {f : A -> prog B} {a fr st fr' st'} :
  interp orc cfg run p fr st = Done a fr' st' -> interp orc cfg run (bind p f) fr st = interp orc cfg run (f a) fr' st'.
Proof. intro H. rewrite interp_bind, H. reflexivity. Qed.

Lemma count_step A (k : Z -> prog A) fr st :
  interp orc cfg run (Act ACount k) fr st = interp orc cfg run (k (to_count (nth_tape st (fr_tid fr)))) fr st.
Proof. reflexivity. Qed.

Lemma countincr_step A (k : unit -> prog A) fr st :
  interp orc cfg run (Act ACountIncr k) fr st =
    interp orc cfg run (k tt) fr (set_count st (fr_tid fr) (to_count (nth_tape st (fr_tid fr)) + 1)).
Proof. reflexivity. Qed.

Lemma defget_step A (k : option nat -> prog A) fr st h :
  interp orc cfg run (Act (ADefGet h) k) fr st =
    interp orc cfg run (k (defs_get (nth_defs st (to_defs (nth_tape st (fr_tid fr)))) h)) fr st.
Proof. reflexivity. Qed.

Lemma cacheset_step A (k : unit -> prog A) fr st key v :
  interp orc cfg run (Act (ACacheSet key v) k) fr st =
    interp orc cfg run (k tt) fr (with_cache st (cache_set (st_cache st) (KBytes key) v)).
Proof. reflexivity. Qed.

(* an action that runs a tape and goes on with [k] in the state the tape left, in the frame of the caller: every
   such action is an instance by [exact] (ACallDef, ARunLoop below; ARunSub is BuilderSpecC15.runsub_exec, where the
   start state of a sub-tape is defined) *)
Lemma after_run_step A (k : unit -> prog A) fr o :
  match after_run fr o with
  | SOk x fr' st' => interp orc cfg run (k x) fr' st'
  | SRaise e fr' st' => Raised e fr' st'
  | SFuel => OutOfFuel
  | SUnmod w => Unmodelled w
  end =
  match o with
  | Done _ _ st' => interp orc cfg run (k tt) fr st'
  | Raised e _ st' => Raised e fr st'
  | OutOfFuel => OutOfFuel
  | Unmodelled w => Unmodelled w
  end.
Proof. destruct o as [[] fr' st'|e fr' st'| |w]; reflexivity. Qed.

Lemma calldef_step A (k : unit -> prog A) fr st dt :
  interp orc cfg run (Act (ACallDef dt) k) fr st =
    match run dt (set_count st dt (to_count (nth_tape st (fr_tid fr)))) with
    | Done _ _ st' => interp orc cfg run (k tt) fr st'
    | Raised e _ st' => Raised e fr st'
    | OutOfFuel => OutOfFuel
    | Unmodelled w => Unmodelled w
    end.
Proof. exact (after_run_step A k fr _). Qed.

Lemma runloop_step A (k : unit -> prog A) fr st lt :
  interp orc cfg run (Act (ARunLoop lt) k) fr st =
    match run lt st with
    | Done _ _ st' => interp orc cfg run (k tt) fr st'
    | Raised e _ st' => Raised e fr st'
    | OutOfFuel => OutOfFuel
    | Unmodelled w => Unmodelled w
    end.
Proof. exact (after_run_step A k fr _). Qed.

(* no action leaves the tape of its activation *)
Lemma step_tid X (a : action X) fr st :
  match step orc cfg run a fr st with
  | SOk _ fr' _ | SRaise _ fr' _ => fr_tid fr' = fr_tid fr
  | _ => True
  end.
Proof.
  destruct a; simpl; try reflexivity.
  - destruct (st_stack st); reflexivity.
  - destruct (_ <? _); [reflexivity|]. destruct (_ <=? _); reflexivity.
  - destruct (st_stack st); reflexivity.
  - destruct (_ && _); [reflexivity|exact I].
  - destruct (_ <? _); reflexivity.
  - destruct (run _ _); try exact I; reflexivity.
  - destruct (run _ _); try exact I; reflexivity.
  - destruct (run _ _); try exact I; reflexivity.
  - destruct (run _ _); try exact I; reflexivity.
Qed.

Lemma with_stack_stack st s : st_stack (with_stack st s) = s.
Proof. reflexivity. Qed.
Lemma with_stack_twice st s s' : with_stack (with_stack st s) s' = with_stack st s'.
Proof. reflexivity. Qed.
Lemma with_stack_same st : with_stack st (st_stack st) = st.
Proof. destruct st; reflexivity. Qed.

Lemma repeat_get_ok n : forall fr st,
  n <= List.length (st_stack st) ->
  interp orc cfg run (repeat_get n) fr st =
    Done (firstn n (st_stack st)) fr (with_stack st (skipn n (st_stack st))).
Proof.
  induction n as [|n IH]; intros fr st H.
  - cbn. rewrite with_stack_same. reflexivity.
  - cbn [repeat_get]. unfold get, act. cbn [bind interp step].
    destruct (st_stack st) as [|x s] eqn:E; [simpl in H; lia|].
    rewrite interp_bind. rewrite IH by (simpl in *; lia).
    cbn. reflexivity.
Qed.

Lemma repeat_get_underflow n : forall fr st,
  List.length (st_stack st) < n ->
  interp orc cfg run (repeat_get n) fr st = Raised IndexError fr (with_stack st []).
Proof.
  induction n as [|n IH]; intros fr st H; [lia|].
  cbn [repeat_get]. unfold get, act. cbn [bind interp step].
  destruct (st_stack st) as [|x s] eqn:E.
  - rewrite <- E. rewrite with_stack_same. reflexivity.
  - rewrite interp_bind. rewrite IH by (simpl in *; lia). reflexivity.
Qed.

(* run_tape with fuel left: stop at the end of the tape, else run the instruction under the pointer, its sub-tapes
   with the remaining fuel, and go on where it leaves the pointer *)
Lemma run_tape_succ f tid ptr st :
  run_tape orc cfg (S f) tid ptr st =
    if List.length (to_data (nth_tape st tid)) <=? ptr then Done tt {| fr_tid := tid; fr_ptr := ptr |} st
    else match interp orc cfg (fun t s => run_tape orc cfg f t 0 s)
                 (dispatch (N.to_nat (Byte.to_N (nth ptr (to_data (nth_tape st tid)) x00))))
                 {| fr_tid := tid; fr_ptr := S ptr |} st with
         | Done _ fr' st' => run_tape orc cfg f tid (fr_ptr fr') st'
         | Raised e fr' st' => Raised e fr' st'
         | OutOfFuel => OutOfFuel
         | Unmodelled w => Unmodelled w
         end.
Proof. reflexivity. Qed.

Lemma run_tape_at_end f tid ptr st :
  ptr = List.length (to_data (nth_tape st tid)) ->
  run_tape orc cfg f tid ptr st =
    match f with O => OutOfFuel | S _ => Done tt {| fr_tid := tid; fr_ptr := ptr |} st end.
Proof.
  intro E. destruct f; [reflexivity|]. rewrite run_tape_succ, <- E, Nat.leb_refl. reflexivity.
Qed.

End IL.

Arguments bind_done {orc cfg run A B p f a fr st fr' st'}.
