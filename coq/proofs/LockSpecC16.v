(* C16 at the level of the builders' bytes: the authorisation verdict of the timestamp locks
   (make_timestamp_after_lock / _before_lock / _between_lock), exactly, for every oracle, cache and
   configuration with room.  The before-lock is CHECK_TIMESTAMP ; NOT, so it negates the slack clause
   too (known finding D11); in the between-lock the leading CHECK_TIMESTAMP_VERIFY establishes the slack
   clause, so its window is exact. *)
From Coq Require Import ZArith List Bool Lia.
From Coq.Strings Require Import Byte String.
From TS Require Import Bytes State Prog Interp StateLemmas InterpLemmas StackLemmas
  BytesLemmas TapeLemmas AuthSpec TimeSpec BuilderSpec Builders.
Import ListNotations.
Local Open Scope nat_scope.

Lemma ts_after_lock_bytes c ver :
  ts_after_lock c ver = push1_bytes c ++ [if ver then x26 else x25].
Proof. destruct ver; reflexivity. Qed.

Lemma ts_before_lock_bytes c ver :
  ts_before_lock c ver = ((push1_bytes c ++ [x25]) ++ [x2e]) ++ (if ver then [x20] else []).
Proof. rewrite <- !app_assoc. destruct ver; reflexivity. Qed.

Lemma ts_between_lock_bytes c1 c2 ver :
  ts_between_lock c1 c2 ver =
    (push1_bytes c1 ++ [x26]) ++ ((push1_bytes c2 ++ [x25]) ++ [x2e]) ++ (if ver then [x20] else []).
Proof. unfold ts_between_lock. rewrite ts_after_lock_bytes, ts_before_lock_bytes. reflexivity. Qed.

Lemma not_on_ff : map byte_not [xff] = [x00].  Proof. vm_compute. reflexivity. Qed.
Lemma not_on_00 : map byte_not [x00] = [xff].  Proof. vm_compute. reflexivity. Qed.

Lemma returned_not_ts : ckey_eqb returned_key ts_key = false.
Proof. reflexivity. Qed.

Lemma ts_del_returned c : cache_get (cache_del c returned_key) ts_key = cache_get c ts_key.
Proof. apply cache_get_del_other. exact returned_not_ts. Qed.

(* without an override in [vals] the cache timestamp is the clock of the configuration *)
Lemma init_cache_default cfg : cache_get (init_cache cfg []) ts_key = Some (VOne (AInt (c_now cfg))).
Proof. reflexivity. Qed.

Section L.
Variable orc : oracle.
Variable cfg : config.
Variables ts thr : Z.
Hypothesis Hthr : flag_get (c_flags cfg) thr_key = Some (FVInt thr).

(* the comparison of OP_CHECK_TIMESTAMP for the constraint bytes c *)
Local Notation V c := (ts_verdict cfg (be_to_Z c) ts thr).

(* the constraint bytes: minimal big-endian encoding of a timestamp >= 128 (PUSH1 operand), fitting an item *)
Local Notation good c := (2 <= List.length c <= 255 /\ List.length c <= c_max_item_size cfg).

Lemma good_nonempty (c : bytes) : good c -> c <> [].
Proof. intros [[H _] _] ->. simpl in H. lia. Qed.

(* PUSH1 c ; CHECK_TIMESTAMP *)
Lemma seg_check tid st (c : bytes) s :
  good c -> st_stack st = s -> space cfg s ->
  cache_get (st_cache st) ts_key = Some (VOne (AInt ts)) ->
  runs orc cfg 2 tid (push1_bytes c ++ [x25]) st (with_stack st (boolb (V c) :: s)).
Proof.
  intros Hg Hs Hsp Hc.
  apply (runs_app (n := 1) (m := 1) (st1 := with_stack st (c :: s))).
  - apply push1_runs; [lia|exact Hs|unfold fits; lia|exact Hsp].
  - rewrite <- (with_stack_twice st (c :: s) (boolb (V c) :: s)).
    apply check_timestamp_runs; [reflexivity|exact (good_nonempty c Hg)|exact Hc|exact Hthr|].
    unfold room, space in *. lia.
Qed.

(* PUSH1 c ; CHECK_TIMESTAMP ; NOT *)
Lemma seg_before tid st (c : bytes) s :
  good c -> st_stack st = s -> space cfg s ->
  cache_get (st_cache st) ts_key = Some (VOne (AInt ts)) ->
  runs orc cfg 3 tid ((push1_bytes c ++ [x25]) ++ [x2e]) st (with_stack st (boolb (negb (V c)) :: s)).
Proof.
  intros Hg Hs Hsp Hc.
  apply (runs_app (n := 2) (m := 1) (seg_check tid st c s Hg Hs Hsp Hc)).
  rewrite <- (with_stack_twice st (boolb (V c) :: s) (boolb (negb (V c)) :: s)).
  apply not_runs; [reflexivity|]. unfold room, space in *. lia.
Qed.

(* PUSH1 c ; CHECK_TIMESTAMP_VERIFY *)
Lemma seg_verify f tid p st data rest (c : bytes) s :
  tdata st tid = data -> skipn p data = (push1_bytes c ++ [x26]) ++ rest ->
  good c -> st_stack st = s -> space cfg s ->
  cache_get (st_cache st) ts_key = Some (VOne (AInt ts)) ->
  run_tape orc cfg (S (S f)) tid p st =
    if V c
    then run_tape orc cfg f tid (p + List.length (push1_bytes c ++ [x26])) (with_stack st s)
    else Raised ScriptExecutionError {| fr_tid := tid; fr_ptr := S (p + List.length (push1_bytes c)) |}
                (with_stack st s).
Proof.
  intros Hd Hp Hg Hs Hsp Hc. rewrite <- app_assoc in Hp.
  rewrite (push1_check_timestamp_verify_step orc cfg f tid p st data rest c s ts thr Hd Hp ltac:(lia) Hs
             ltac:(unfold fits; lia) Hsp Hc Hthr).
  rewrite app_length, Nat.add_assoc. reflexivity.
Qed.

(* a closing VERIFY over the result of the first script *)
Lemma verify_last f tid p st data (v : bool) item :
  tdata st tid = data -> skipn p data = [x20] -> st_stack st = [boolb v; item] ->
  exists st', finish (run_tape orc cfg (S (S f)) tid p st) = AuthVerdict (v && bytes_eqb item [xff]) st'.
Proof.
  intros Hd Hp Hs. rewrite (verify_step orc cfg (S f) tid p st data [] _ _ Hd Hp Hs), bytes_to_bool_boolb.
  destruct v; [|eexists; reflexivity].
  rewrite (run_tape_end_at orc cfg f tid (with_stack st [item]) (p + 1) data Hd (skipn_app_r p data [x20] [] Hp)).
  eexists. reflexivity.
Qed.

(* ver = false: the lock is the only script *)

Theorem ts_after_exact f c vals :
  good c -> 1 <= c_max_items cfg ->
  cache_get (init_cache cfg vals) ts_key = Some (VOne (AInt ts)) ->
  run_auth_scripts orc cfg (S (S (S f))) [ts_after_lock c false] vals =
    AuthVerdict (V c) (init_state cfg (ts_after_lock c false) vals).
Proof.
  intros Hg Hit Hc. rewrite auth_one, ts_after_lock_bytes.
  rewrite (script_runs orc cfg 2 _ vals _ _ (seg_check 0 (init_state cfg _ vals) c [] Hg eq_refl ltac:(unfold space; simpl; lia) Hc))
    by lia.
  cbn [finish st_stack with_stack]. rewrite boolb_is_true. reflexivity.
Qed.

Theorem ts_before_exact f c vals :
  good c -> 1 <= c_max_items cfg ->
  cache_get (init_cache cfg vals) ts_key = Some (VOne (AInt ts)) ->
  run_auth_scripts orc cfg (S (S (S (S f)))) [ts_before_lock c false] vals =
    AuthVerdict (negb (V c)) (init_state cfg (ts_before_lock c false) vals).
Proof.
  intros Hg Hit Hc. rewrite auth_one, ts_before_lock_bytes, app_nil_r.
  rewrite (script_runs orc cfg 3 _ vals _ _ (seg_before 0 (init_state cfg _ vals) c [] Hg eq_refl ltac:(unfold space; simpl; lia) Hc))
    by lia.
  cbn [finish st_stack with_stack]. rewrite boolb_is_true. reflexivity.
Qed.

Theorem ts_between_exact f c1 c2 vals :
  good c1 -> good c2 -> 1 <= c_max_items cfg ->
  cache_get (init_cache cfg vals) ts_key = Some (VOne (AInt ts)) ->
  run_auth_scripts orc cfg (S (S (S (S (S (S f)))))) [ts_between_lock c1 c2 false] vals =
    AuthVerdict (V c1 && negb (V c2)) (init_state cfg (ts_between_lock c1 c2 false) vals).
Proof.
  intros Hg1 Hg2 Hit Hc. rewrite auth_one, ts_between_lock_bytes, app_nil_r. unfold run_script.
  set (lock := (push1_bytes c1 ++ [x26]) ++ (push1_bytes c2 ++ [x25]) ++ [x2e]).
  assert (Hsp : space cfg []) by (unfold space; simpl; lia).
  assert (Hp : skipn 0 lock = (push1_bytes c1 ++ [x26]) ++ (push1_bytes c2 ++ [x25]) ++ [x2e]) by reflexivity.
  rewrite (seg_verify _ 0 0 (init_state cfg lock vals) lock _ c1 [] eq_refl Hp Hg1 eq_refl Hsp Hc).
  destruct (V c1); [|reflexivity].
  rewrite (runs_end (seg_before 0 (with_stack (init_state cfg lock vals) []) c2 [] Hg2 eq_refl Hsp Hc) eq_refl
             (skipn_app_r 0 lock _ _ Hp)) by lia.
  cbn [finish st_stack with_stack andb]. rewrite boolb_is_true. reflexivity.
Qed.

(* ver = true: a first script OP_TRUE leaves [ff]; the lock must leave it alone *)

(* the state in which the lock starts after OP_TRUE *)
Definition after_true (vals : cache) (lock : bytes) : state :=
  snd (next_start (with_stack (init_state cfg [x01] vals) [[xff]]) 0 lock).

Lemma after_true_auth F lock vals :
  1 < F -> 1 <= c_max_items cfg -> 1 <= c_max_item_size cfg ->
  run_auth_scripts orc cfg F [[x01]; lock] vals = finish (run_tape orc cfg F 1 0 (after_true vals lock)).
Proof.
  intros HF Hit Hsz.
  exact (auth_two orc cfg F [x01] lock vals _ _ (flagged_witness_runs orc cfg F [] true vals HF Hit Hsz
                                                   (fun v (H : In v []) => False_ind _ H))).
Qed.

Lemma after_true_ts vals lock :
  cache_get (init_cache cfg vals) ts_key = Some (VOne (AInt ts)) ->
  cache_get (st_cache (after_true vals lock)) ts_key = Some (VOne (AInt ts)).
Proof. intro H. exact (eq_trans (ts_del_returned _) H). Qed.

Theorem ts_after_verify_exact f c vals :
  good c -> 2 <= c_max_items cfg ->
  cache_get (init_cache cfg vals) ts_key = Some (VOne (AInt ts)) ->
  exists st, run_auth_scripts orc cfg (S (S (S f))) [[x01]; ts_after_lock c true] vals = AuthVerdict (V c) st.
Proof.
  intros Hg Hit Hc. rewrite after_true_auth, ts_after_lock_bytes by lia.
  set (lock := push1_bytes c ++ [x26]).
  assert (Hp : skipn 0 lock = lock ++ []) by (symmetry; apply app_nil_r).
  rewrite (seg_verify _ 1 0 (after_true vals lock) lock [] c [[xff]] eq_refl Hp Hg eq_refl
             ltac:(unfold space; simpl; lia) (after_true_ts vals lock Hc)).
  destruct (V c); [|eexists; reflexivity]. fold lock.
  rewrite (run_tape_end_at orc cfg f 1 (with_stack (after_true vals lock) [[xff]]) _ lock eq_refl
             (skipn_app_r 0 lock lock [] Hp)).
  eexists. reflexivity.
Qed.

Theorem ts_before_verify_exact f c vals :
  good c -> 2 <= c_max_items cfg ->
  cache_get (init_cache cfg vals) ts_key = Some (VOne (AInt ts)) ->
  exists st, run_auth_scripts orc cfg (S (S (S (S (S f))))) [[x01]; ts_before_lock c true] vals
             = AuthVerdict (negb (V c)) st.
Proof.
  intros Hg Hit Hc. rewrite after_true_auth, ts_before_lock_bytes by lia.
  set (lock := ((push1_bytes c ++ [x25]) ++ [x2e]) ++ [x20]).
  erewrite (runs_at (seg_before 1 (after_true vals lock) c [[xff]] Hg eq_refl ltac:(unfold space; simpl; lia)
                      (after_true_ts vals lock Hc)) eq_refl (eq_refl : skipn 0 lock = _)) by reflexivity.
  destruct (verify_last f 1 _ (with_stack (after_true vals lock) [boolb (negb (V c)); [xff]]) lock
              (negb (V c)) [xff] eq_refl (skipn_app_r 0 lock ((push1_bytes c ++ [x25]) ++ [x2e]) [x20] eq_refl) eq_refl)
    as [st' ->].
  rewrite andb_true_r. eexists. reflexivity.
Qed.

Theorem ts_between_verify_exact f c1 c2 vals :
  good c1 -> good c2 -> 2 <= c_max_items cfg ->
  cache_get (init_cache cfg vals) ts_key = Some (VOne (AInt ts)) ->
  exists st, run_auth_scripts orc cfg (S (S (S (S (S (S (S f))))))) [[x01]; ts_between_lock c1 c2 true] vals
             = AuthVerdict (V c1 && negb (V c2)) st.
Proof.
  intros Hg1 Hg2 Hit Hc. rewrite after_true_auth, ts_between_lock_bytes by lia.
  set (lock := (push1_bytes c1 ++ [x26]) ++ ((push1_bytes c2 ++ [x25]) ++ [x2e]) ++ [x20]).
  assert (Hsp : space cfg [[xff]]) by (unfold space; simpl; lia).
  assert (Hp : skipn 0 lock = (push1_bytes c1 ++ [x26]) ++ ((push1_bytes c2 ++ [x25]) ++ [x2e]) ++ [x20])
    by reflexivity.
  rewrite (seg_verify _ 1 0 (after_true vals lock) lock _ c1 [[xff]] eq_refl Hp Hg1 eq_refl Hsp
             (after_true_ts vals lock Hc)).
  destruct (V c1); [|eexists; reflexivity].
  pose proof (skipn_app_r 0 lock _ _ Hp) as Hp1.
  erewrite (runs_at (seg_before 1 (with_stack (after_true vals lock) [[xff]]) c2 [[xff]] Hg2 eq_refl Hsp
                      (after_true_ts vals lock Hc)) eq_refl Hp1) by reflexivity.
  destruct (verify_last f 1 _ (with_stack (with_stack (after_true vals lock) [[xff]]) [boolb (negb (V c2)); [xff]]) lock
              (negb (V c2)) [xff] eq_refl (skipn_app_r _ lock _ _ Hp1) eq_refl)
    as [st' ->].
  rewrite andb_true_r. eexists. reflexivity.
Qed.

Lemma V_iff c : V c = true <-> (be_to_Z c <= ts /\ (thr <= 0 \/ ts - c_now cfg < thr))%Z.
Proof.
  unfold ts_verdict. rewrite andb_true_iff, orb_true_iff, !Z.leb_le, Z.ltb_lt. tauto.
Qed.

(* D11: the before-lock accepts  ts < c  and also every ts at or beyond the slack *)
Corollary before_verdict_iff c :
  negb (V c) = true <-> (ts < be_to_Z c \/ (0 < thr /\ thr <= ts - c_now cfg))%Z.
Proof.
  rewrite negb_true_iff. split.
  - intro H. destruct (Z.lt_ge_cases ts (be_to_Z c)) as [|H1]; [left; assumption|].
    right. destruct (Z.lt_ge_cases 0 thr) as [H2|H2], (Z.lt_ge_cases (ts - c_now cfg) thr) as [H3|H3];
      try (split; lia); exfalso;
      (assert (Ht : V c = true) by (apply V_iff; lia)); congruence.
  - intro H. destruct (V c) eqn:E; [|reflexivity]. apply V_iff in E. lia.
Qed.

(* the between-lock window is exact *)
Corollary between_verdict_iff c1 c2 :
  V c1 && negb (V c2) = true <->
  (be_to_Z c1 <= ts /\ (thr <= 0 \/ ts - c_now cfg < thr) /\ ts < be_to_Z c2)%Z.
Proof.
  rewrite andb_true_iff, V_iff, before_verdict_iff. lia.
Qed.

End L.

(* the before-lock with ver = true (first script OP_TRUE), in words *)
Theorem ts_before_verify_accepts_iff orc cfg ts thr f c vals :
  flag_get (c_flags cfg) thr_key = Some (FVInt thr) ->
  (2 <= List.length c <= 255 /\ List.length c <= c_max_item_size cfg) -> 2 <= c_max_items cfg ->
  cache_get (init_cache cfg vals) ts_key = Some (VOne (AInt ts)) ->
  match run_auth_scripts orc cfg (S (S (S (S (S f))))) [[x01]; ts_before_lock c true] vals with
  | AuthVerdict b _ => b = true <-> (ts < be_to_Z c \/ (0 < thr /\ thr <= ts - c_now cfg))%Z
  | _ => False
  end.
Proof.
  intros Hthr Hg Hit Hc.
  destruct (ts_before_verify_exact orc cfg ts thr Hthr f c vals Hg Hit Hc) as [st ->].
  apply before_verdict_iff.
Qed.

Print Assumptions ts_after_exact.
Print Assumptions ts_before_exact.
Print Assumptions ts_between_exact.
Print Assumptions ts_after_verify_exact.
Print Assumptions ts_before_verify_exact.
Print Assumptions ts_between_verify_exact.
Print Assumptions ts_before_verify_accepts_iff.
