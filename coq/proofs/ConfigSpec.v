(* C09: the embedder configuration is one value [cfg] seen identically by every instruction at every
   nesting level; OP_CHECK_SIG and OP_GET_MESSAGE run the signature extensions exactly once (every signature
   instruction: SigExtOnce); disallowed EVAL. *)
From Coq Require Import ZArith List Bool Lia.
From Coq.Strings Require Import Byte String.
From TS Require Import Bytes State Prog Ops Interp InterpLemmas NopSpec StackLemmas TapeLemmas SigSpec.
Import ListNotations.
Open Scope Z_scope.

Section Cfg.
Variable orc : oracle.
Variable cfg : config.

(* reading the configuration gives the embedder's value, whatever the frame, state or interpreter of sub-tapes *)
Theorem config_everywhere run fr st : step orc cfg run AConfig fr st = SOk cfg fr st.
Proof. reflexivity. Qed.

(* every kind of sub-tape is executed by run_tape with the very same oracle and configuration *)
Theorem sub_tapes_same_config f tid ptr st :
  run_tape orc cfg (S f) tid ptr st =
    let data := to_data (nth_tape st tid) in
    if (List.length data <=? ptr)%nat then Done tt {| fr_tid := tid; fr_ptr := ptr |} st
    else match interp orc cfg (fun t s => run_tape orc cfg f t 0%nat s)
                 (dispatch (N.to_nat (Byte.to_N (nth ptr data x00)))) {| fr_tid := tid; fr_ptr := S ptr |} st with
         | Done _ fr' st' => run_tape orc cfg f tid (fr_ptr fr') st'
         | Raised e fr' st' => Raised e fr' st'
         | OutOfFuel => OutOfFuel
         | Unmodelled w => Unmodelled w
         end.
Proof. exact (run_tape_succ orc cfg f tid ptr st). Qed.

Variable run : nat -> state -> outcome unit.

Definition sigext_log (st : state) : state :=
  with_log st (rev (map EvSigExt (c_sigext cfg)) ++ st_log st).

Lemma log_sigext_spec l : forall fr st,
  interp orc cfg run (log_sigext l) fr st = Done tt fr (with_log st (rev (map EvSigExt l) ++ st_log st)).
Proof.
  induction l as [|i t IH]; intros fr st; cbn [log_sigext map rev].
  - cbn. destruct st; reflexivity.
  - unfold act. cbn [bind interp step]. rewrite IH. cbn [st_log with_log].
    rewrite <- app_assoc. reflexivity.
Qed.

(* the signature-extension plugins of the embedder, each exactly once, in order *)
Theorem run_sig_ext_spec fr st : interp orc cfg run run_sig_ext fr st = Done tt fr (sigext_log st).
Proof. unfold run_sig_ext, config_, act. cbn [bind interp step]. apply log_sigext_spec. Qed.

(* OP_GET_MESSAGE: plugins once, then the flag-selected message *)
Theorem get_message_exact fr st b rest m :
  data_at fr st = b :: rest ->
  msg_of (b2z b) (st_cache st) = Some m ->
  (List.length m <= c_max_item_size cfg)%nat -> (List.length (st_stack st) < c_max_items cfg)%nat ->
  interp orc cfg run OP_GET_MESSAGE fr st =
    Done tt (adv fr 1) (with_stack (sigext_log st) (m :: st_stack st)).
Proof.
  intros Hd Hm H1 H2. unfold OP_GET_MESSAGE.
  rewrite interp_bind, run_sig_ext_spec.
  rewrite (read_u8_exec orc cfg run _ _ fr (sigext_log st) b rest Hd), interp_bind, get_message_core_spec.
  cbn [st_cache sigext_log with_log].
  rewrite Hm. exact (put_step orc cfg run _ _ (adv fr 1) (sigext_log st) m (st_stack st) eq_refl H1 H2).
Qed.

(* OP_CHECK_SIG = plugins once ; read the allowed-flags operand ; the check of C02 *)
Theorem check_sig_decomposed fr st b rest :
  data_at fr st = b :: rest ->
  interp orc cfg run OP_CHECK_SIG fr st =
    interp orc cfg run (check_sig_body (b2z b)) (adv fr 1) (sigext_log st).
Proof.
  intro Hd. unfold OP_CHECK_SIG. rewrite interp_bind, run_sig_ext_spec.
  exact (read_u8_exec orc cfg run _ _ fr (sigext_log st) b rest Hd).
Qed.

(* a disallowed instruction stays disallowed: EVAL (hence MERKLEVAL's and TAPROOT's script path) raises *)
Theorem eval_disallowed fr st v :
  flag_get (c_flags cfg) (FKStr (str "disallow_OP_EVAL")) = Some v ->
  interp orc cfg run eval_body fr st = Raised ScriptExecutionError fr st.
Proof. intro H. unfold eval_body, config_, act, sert. cbn [bind interp step]. rewrite H. reflexivity. Qed.

(* D7: OP_SET_FLAG raises for every operand; OP_UNSET_FLAG changes nothing but the pointer *)
Theorem set_flag_always_raises fr st :
  match interp orc cfg run OP_SET_FLAG fr st with
  | Raised ScriptExecutionError _ st' => st' = st
  | _ => False
  end.
Proof.
  unfold OP_SET_FLAG, read_u8, read, act. cbn [bind interp step].
  destruct (_ <? _)%nat; cbn [bind interp step]; [reflexivity|].
  destruct (_ <? _)%nat; cbn [bind interp step]; reflexivity.
Qed.

Theorem unset_flag_changes_nothing fr st :
  match interp orc cfg run OP_UNSET_FLAG fr st with
  | Done _ _ st' | Raised _ _ st' => st' = st
  | _ => False
  end.
Proof.
  unfold OP_UNSET_FLAG, read_u8, read, act. cbn [bind interp step].
  destruct (_ <? _)%nat; cbn [bind interp step]; [reflexivity|].
  destruct (_ <? _)%nat; cbn [bind interp step]; reflexivity.
Qed.

End Cfg.
