(* C02: the message covered by a signature and the exact behaviour of the signature check. *)
From Coq Require Import ZArith List Bool Lia.
From Coq.Strings Require Import Byte String.
From TS Require Import Bytes State Prog Ops Interp InterpLemmas.
Import ListNotations.
Open Scope Z_scope.

(* the flag-selected message, as a pure function of flag byte and cache *)
Fixpoint msg_pure (idx : list Z) (flag : Z) (c : cache) (acc : bytes) : option bytes :=
  match idx with
  | [] => Some acc
  | i :: t =>
    match cache_get c (sigfield_key i) with
    | None => msg_pure t flag c acc
    | Some v =>
      if Z.testbit flag (i - 1) then msg_pure t flag c acc
      else match v with VOne (ABytes b) | VOne (AByteArr b) => msg_pure t flag c (acc ++ b) | _ => None end
    end
  end.
Definition fields18 : list Z := [1;2;3;4;5;6;7;8].
Definition msg_of (flag : Z) (c : cache) : option bytes := msg_pure fields18 flag c [].

(* the documented reading: concatenation, in index order, of the present fields whose bit is clear *)
Definition covered (flag : Z) (c : cache) (i : Z) : bytes :=
  match cache_get c (sigfield_key i) with
  | Some (VOne (ABytes b)) => if Z.testbit flag (i - 1) then [] else b
  | _ => []
  end.
Definition msg_doc (flag : Z) (c : cache) : bytes := List.concat (map (covered flag c) fields18).

(* all present, covered fields are [ABytes]; the instruction reads an [AByteArr] field as well
   ([msg_pure]) and raises TypeError on any other value *)
Definition fields_ok (flag : Z) (c : cache) (idx : list Z) : Prop :=
  forall i, In i idx -> Z.testbit flag (i - 1) = false ->
    match cache_get c (sigfield_key i) with Some (VOne (ABytes _)) | None => True | _ => False end.

Lemma msg_pure_doc idx flag c acc :
  fields_ok flag c idx -> msg_pure idx flag c acc = Some (acc ++ List.concat (map (covered flag c) idx)).
Proof.
  revert acc. induction idx as [|i t IH]; intros acc H; cbn [msg_pure map List.concat].
  - rewrite app_nil_r. reflexivity.
  - assert (Ht : fields_ok flag c t) by (intros j Hj; apply H; right; exact Hj).
    pose proof (H i (or_introl eq_refl)) as Hi. unfold covered at 1.
    destruct (cache_get c (sigfield_key i)) as [v|] eqn:E.
    + destruct (Z.testbit flag (i - 1)) eqn:B.
      * rewrite IH by exact Ht. destruct v as [[]|]; reflexivity.
      * specialize (Hi eq_refl). destruct v as [[b| | | | | |]|]; try contradiction.
        rewrite IH by exact Ht. rewrite app_assoc. reflexivity.
    + rewrite IH by exact Ht. reflexivity.
Qed.

(* fields whose flag bit is set, and absent fields, are irrelevant *)
Theorem excluded_fields_irrelevant flag c1 c2 :
  (forall i, In i fields18 -> Z.testbit flag (i - 1) = false ->
     cache_get c1 (sigfield_key i) = cache_get c2 (sigfield_key i)) ->
  msg_of flag c1 = msg_of flag c2.
Proof.
  unfold msg_of. generalize (@nil byte) as acc. generalize fields18 as idx.
  induction idx as [|i t IH]; intros acc H; cbn [msg_pure]; [reflexivity|].
  assert (Ht : forall j, In j t -> Z.testbit flag (j - 1) = false ->
                cache_get c1 (sigfield_key j) = cache_get c2 (sigfield_key j))
    by (intros j Hj; apply H; right; exact Hj).
  destruct (Z.testbit flag (i - 1)) eqn:B.
  - destruct (cache_get c1 (sigfield_key i)), (cache_get c2 (sigfield_key i)); apply IH; exact Ht.
  - rewrite <- (H i (or_introl eq_refl) B).
    destruct (cache_get c1 (sigfield_key i)) as [[[b| | | | | |]|]|]; try reflexivity; apply IH; exact Ht.
Qed.

Section Sig.
Variable orc : oracle.
Variable cfg : config.
Variable run : nat -> state -> outcome unit.

Lemma msg_go_pure idx flag : forall acc fr st,
  interp orc cfg run (msg_go idx flag acc) fr st =
    match msg_pure idx flag (st_cache st) acc with
    | Some m => Done m fr st
    | None => Raised TypeError fr st
    end.
Proof.
  induction idx as [|i t IH]; intros acc fr st; cbn [msg_go msg_pure]; [reflexivity|].
  unfold act. cbn [bind interp step].
  destruct (cache_get (st_cache st) (sigfield_key i)) as [v|]; [|apply IH].
  destruct (Z.testbit flag (i - 1)); [apply IH|].
  destruct v as [[b| | | | | |b]|]; try reflexivity; apply IH.
Qed.

Theorem get_message_core_spec flag fr st :
  interp orc cfg run (get_message_core flag) fr st =
    match msg_of flag (st_cache st) with Some m => Done m fr st | None => Raised TypeError fr st end.
Proof. unfold get_message_core, msg_of. apply msg_go_pure. Qed.

Lemma land_pow2_eqb f i : 0 <= i -> (Z.land f (2 ^ i) =? 0) = negb (Z.testbit f i).
Proof.
  intro Hi. apply eq_true_iff_eq. rewrite Z.eqb_eq, negb_true_iff. split; intro H.
  - apply (f_equal (fun z => Z.testbit z i)) in H.
    rewrite Z.land_spec, Z.pow2_bits_true, andb_true_r, Z.bits_0 in H by exact Hi. exact H.
  - apply Z.bits_inj'. intros n Hn. rewrite Z.land_spec, Z.bits_0.
    destruct (Z.eq_dec i n) as [<-|Hne]; [rewrite H; reflexivity|].
    rewrite Z.pow2_bits_false by exact Hne. apply andb_false_r.
Qed.

(* the eight explicit bit tests of the source amount to "flag is a subset of allowed" *)
Theorem flags_permitted_subset f a :
  0 <= f < 256 -> 0 <= a < 256 -> flags_permitted f a = (Z.land f (255 - a) =? 0).
Proof.
  intros Hf Ha.
  assert (Hhi : forall x n, 0 <= x < 256 -> 8 <= n -> Z.testbit x n = false).
  { intros x n Hx Hn. apply Z.bits_above_log2; [lia|].
    destruct (Z.eq_dec x 0) as [->|]; [simpl; lia|]. apply Z.log2_lt_pow2; [lia|].
    apply Z.lt_le_trans with (2 ^ 8); [lia|]. apply Z.pow_le_mono_r; lia. }
  replace (255 - a) with (Z.ldiff 255 a).
  2:{ symmetry. apply Z.sub_nocarry_ldiff. apply Z.bits_inj'. intros n Hn.
      rewrite Z.ldiff_spec, Z.bits_0. destruct (Z.ltb_spec n 8).
      - change 255 with (Z.ones 8). rewrite Z.ones_spec_low by lia. apply andb_false_r.
      - rewrite Hhi by lia. reflexivity. }
  unfold flags_permitted. change masks with (map (Z.pow 2) [0;1;2;3;4;5;6;7]).
  apply eq_true_iff_eq. rewrite forallb_forall, Z.eqb_eq. split; intro H.
  - apply Z.bits_inj'. intros n Hn. rewrite Z.land_spec, Z.ldiff_spec, Z.bits_0.
    destruct (Z.ltb_spec n 8) as [Hlt|Hge]; [|rewrite (Hhi f) by lia; reflexivity].
    specialize (H (2 ^ n)). rewrite !land_pow2_eqb, negb_involutive in H by exact Hn.
    assert (Hin : In n [0;1;2;3;4;5;6;7]) by (simpl; lia).
    specialize (H (in_map _ _ n Hin)).
    destruct (Z.testbit f n), (Z.testbit a n); try reflexivity; try discriminate H. apply andb_false_r.
  - intros m Hm. apply in_map_iff in Hm. destruct Hm as (i & <- & Hi).
    assert (0 <= i) by (simpl in Hi; lia).
    rewrite !land_pow2_eqb, negb_involutive by assumption.
    apply (f_equal (fun z => Z.testbit z i)) in H. rewrite Z.land_spec, Z.ldiff_spec, Z.bits_0 in H.
    destruct (Z.testbit f i), (Z.testbit a i); try reflexivity.
    replace (Z.testbit 255 i) with true in H; [discriminate|].
    simpl in Hi. destruct Hi as [<-|[<-|[<-|[<-|[<-|[<-|[<-|[<-|[]]]]]]]]]; reflexivity.
Qed.

Definition sig_flag (sig : bytes) : Z := if blen sig =? 64 then 0 else b2z (last sig x00).

Definition can_push (b : bytes) (rest : list bytes) : Prop :=
  (List.length b <= c_max_item_size cfg)%nat /\ (List.length rest < c_max_items cfg)%nat.

Lemma put_ok fr st rest b A (k : unit -> prog A) :
  can_push b rest -> st_stack st = rest ->
  interp orc cfg run (Act (APut b) k) fr st = interp orc cfg run (k tt) fr (with_stack st (b :: rest)).
Proof.
  intros [H1 H2] Hs. cbn [interp step]. rewrite Hs.
  destruct (c_max_item_size cfg <? List.length b)%nat eqn:E1; [apply Nat.ltb_lt in E1; lia|].
  destruct (c_max_items cfg <=? List.length rest)%nat eqn:E2; [apply Nat.leb_le in E2; lia|].
  reflexivity.
Qed.

Theorem check_sig_body_exact allowed fr st vkey sig rest :
  st_stack st = vkey :: sig :: rest ->
  interp orc cfg run (check_sig_body allowed) fr st =
    let st0 := with_stack st rest in
    if negb (blen vkey =? 32) then Raised ValueError fr st0
    else if negb ((blen sig =? 64) || (blen sig =? 65)) then Raised ValueError fr st0
    else if negb (flags_permitted (sig_flag sig) allowed) then Raised ScriptExecutionError fr st0
    else match msg_of (sig_flag sig) (st_cache st) with
         | None => Raised TypeError fr st0
         | Some m =>
           if (c_max_item_size cfg <? List.length m)%nat || (c_max_items cfg <=? List.length rest)%nat
           then Raised ScriptExecutionError fr st0
           else match orc PVerify [vkey; m; firstn 64 sig] with
                | OErr e => Raised e fr st0
                | OOk [x] =>
                  if (c_max_item_size cfg <? 1)%nat then Raised ScriptExecutionError fr st0
                  else Done tt fr (with_stack st ((if bytes_to_bool x then [xff] else [x00]) :: rest))
                | OOk _ => Unmodelled "oracle arity"
                end
         end.
Proof.
  intro Hs. unfold check_sig_body, put_bool, prim_bool, prim1, prim_list, get, put, vert, sert, act.
  cbn [bind interp step]. rewrite Hs. cbn [bind interp step st_stack with_stack]. cbv zeta.
  destruct (blen vkey =? 32); cbn [negb bind interp]; [|reflexivity].
  destruct ((blen sig =? 64) || (blen sig =? 65)); cbn [negb bind interp]; [|reflexivity].
  fold (sig_flag sig).
  destruct (flags_permitted (sig_flag sig) allowed); cbn [negb bind interp]; [|reflexivity].
  rewrite interp_bind. rewrite get_message_core_spec. cbn [st_cache with_stack].
  destruct (msg_of (sig_flag sig) (st_cache st)) as [m|]; [|reflexivity].
  cbn [bind interp step st_stack with_stack].
  destruct (c_max_item_size cfg <? List.length m)%nat; [reflexivity|].
  destruct (c_max_items cfg <=? List.length rest)%nat eqn:E; [reflexivity|].
  cbn [orb bind interp step st_stack with_stack].
  destruct (orc PVerify [vkey; m; firstn 64 sig]) as [[|x [|y l]]|e]; cbn [bind interp step].
  - reflexivity.
  - destruct (bytes_to_bool x); cbn [interp step st_stack with_stack]; simpl List.length;
      destruct (c_max_item_size cfg <? 1)%nat; try reflexivity;
      destruct (c_max_items cfg <=? List.length rest)%nat eqn:E2; try reflexivity; discriminate.
  - reflexivity.
  - reflexivity.
Qed.

End Sig.

(* what "the check yielded true" implies, whatever the inputs: right lengths, permitted flag, and the
   oracle's verify said yes for exactly (key, flag-selected message, first 64 signature bytes) *)
Theorem check_sig_true_only_if orc cfg run allowed fr st vkey sig rest fr' st' :
  st_stack st = vkey :: sig :: rest ->
  interp orc cfg run (check_sig_body allowed) fr st = Done tt fr' st' ->
  st_stack st' = [xff] :: rest ->
  blen vkey = 32 /\ (blen sig = 64 \/ blen sig = 65) /\ flags_permitted (sig_flag sig) allowed = true /\
  exists m x, msg_of (sig_flag sig) (st_cache st) = Some m /\
              orc PVerify [vkey; m; firstn 64 sig] = OOk [x] /\ bytes_to_bool x = true.
Proof.
  (* the case analysis is done on the goal: on a hypothesis each step copies the whole case tree into the proof term *)
  intros Hs Hi Ht. revert Hi. rewrite (check_sig_body_exact orc cfg run allowed fr st vkey sig rest Hs).
  cbv zeta.
  destruct (blen vkey =? 32) eqn:E1; cbn [negb]; [|discriminate].
  destruct ((blen sig =? 64) || (blen sig =? 65)) eqn:E2; cbn [negb]; [|discriminate].
  destruct (flags_permitted (sig_flag sig) allowed) eqn:E3; cbn [negb]; [|discriminate].
  destruct (msg_of (sig_flag sig) (st_cache st)) as [m|] eqn:E4; [|discriminate].
  destruct ((c_max_item_size cfg <? List.length m)%nat || (c_max_items cfg <=? List.length rest)%nat); [discriminate|].
  destruct (orc PVerify [vkey; m; firstn 64 sig]) as [[|x [|y l]]|e] eqn:E5; try discriminate.
  destruct (c_max_item_size cfg <? 1)%nat; [discriminate|].
  intro Hi. injection Hi as _ Hst. subst st'. cbn [st_stack with_stack] in Ht.
  split; [apply Z.eqb_eq; exact E1|]. split.
  { apply orb_true_iff in E2. destruct E2 as [E2|E2]; apply Z.eqb_eq in E2; auto. }
  split; [reflexivity|]. exists m, x. split; [reflexivity|]. split; [exact E5|].
  destruct (bytes_to_bool x); [reflexivity|]. injection Ht as Ht. discriminate.
Qed.
