(* Merklized script trees (model/MerkleTree.v).  Completeness: the unlocking script of a node followed by the
   root lock runs exactly that node's bytes (one level: merkle_step; a path: merkle_complete; through
   run_auth_scripts: merkle_auth).  Binding of a node's lock (merkle_binding_tree).  pack / unpack round trip. *)
From Coq Require Import ZArith List Bool Lia.
From Coq.Strings Require Import Byte String.
From TS Require Import Bytes State Prog Ops Interp StateLemmas InterpLemmas NopSpec StackLemmas
  BytesLemmas TapeLemmas AuthSpec Asm Builders BuilderSpec MerkleSpec MerkleTree BuilderSpecC13b.
Import ListNotations.
Local Open Scope nat_scope.

Section Push.
Variable orc : oracle.
Variable cfg : config.

(* the PUSH pseudo-instruction of the compiler, whichever of PUSH0 / PUSH1 / PUSH2 it chose *)
Lemma push_any_runs tid st (v e : bytes) (s : list bytes) :
  push_bytes v = Some e -> st_stack st = s -> fits cfg v -> space cfg s ->
  runs orc cfg 1 tid e st (with_stack st (v :: s)).
Proof.
  intros He Hs Hf Hsp. unfold push_bytes, push_instr in He.
  destruct v as [|b0 [|b1 v']]; [discriminate|injection He as <-; apply push0_runs; assumption|].
  set (v := b0 :: b1 :: v') in *.
  destruct ((1 <? blen v)%Z && (blen v <? 256)%Z) eqn:E1.
  - injection He as <-. apply andb_true_iff in E1. destruct E1 as [_ E1]. apply Z.ltb_lt in E1.
    apply push1_runs; try assumption. unfold blen in E1. lia.
  - destruct ((255 <? blen v)%Z && (blen v <? 65536)%Z) eqn:E2; [|discriminate].
    injection He as <-. apply andb_true_iff in E2. destruct E2 as [_ E2]. apply Z.ltb_lt in E2.
    apply push2_runs; assumption.
Qed.

End Push.

Lemma byte_xor_comm a b : byte_xor a b = byte_xor b a.
Proof. unfold byte_xor, byte_map2. rewrite Z.lxor_comm. reflexivity. Qed.

Lemma map2_comm f (Hf : forall a b, f a b = f b a) : forall a b, map2 f a b = map2 f b a.
Proof.
  induction a as [|x a IH]; intros [|y b]; simpl; try reflexivity.
  rewrite Hf, IH. reflexivity.
Qed.

Lemma zip_pad_same_length f a b : List.length a = List.length b -> zip_pad f a b = map2 f a b.
Proof.
  intro Hl. unfold zip_pad, pad_to. rewrite <- Hl, Nat.max_id, Nat.sub_diag. simpl.
  rewrite !app_nil_r. reflexivity.
Qed.

Lemma zip_pad_xor_comm a b : List.length a = List.length b ->
  zip_pad byte_xor a b = zip_pad byte_xor b a.
Proof.
  intro Hl. rewrite !zip_pad_same_length by congruence. apply map2_comm. apply byte_xor_comm.
Qed.

Lemma xor_bytes_comm a b : xor_bytes a b = xor_bytes b a.
Proof. apply map2_comm. apply byte_xor_comm. Qed.

Lemma xor_bytes_zip_pad a b : List.length a = List.length b -> xor_bytes a b = zip_pad byte_xor a b.
Proof. intro Hl. symmetry. apply zip_pad_same_length. exact Hl. Qed.

Lemma xor_bytes_length a b : List.length a = List.length b -> List.length (xor_bytes a b) = List.length a.
Proof. intro Hl. unfold xor_bytes. rewrite map2_length, <- Hl. apply Nat.min_id. Qed.

Section MTP.
Variable orc : oracle.
Variable cfg : config.
Variable H : bytes -> bytes.
Hypothesis Horc : forall b, orc PSha256 [b] = OOk [H b].
Hypothesis Hlen : forall b, List.length (H b) = 32.

Notation commitment := (commitment H).
Notation root := (root H).
Notation lock := (lock H).
Notation tbytes := (tbytes H).
Notation wstack := (wstack H).
Notation unlock_rel := (unlock_rel H).
Notation unlock := (unlock H).

Lemma commitment_tbytes t : commitment t = H (tbytes t).
Proof. destruct t; reflexivity. Qed.

Lemma commitment_length t : List.length (commitment t) = 32.
Proof. rewrite commitment_tbytes. apply Hlen. Qed.

Lemma root_length l r : List.length (root l r) = 32.
Proof. unfold root, MerkleTree.root. rewrite xor_bytes_length; rewrite !Hlen; reflexivity. Qed.

Lemma lock_bytes l r : lock l r = x3c :: root l r.
Proof. unfold lock, MerkleTree.lock, merkle_lock, encode. cbn [flat_map encode1]. rewrite app_nil_r. reflexivity. Qed.

Lemma lock_length l r : List.length (lock l r) = 33.
Proof. rewrite lock_bytes. simpl. rewrite root_length. reflexivity. Qed.

(* the root of a node passes the check of OP_MERKLEVAL for either child, the other child being the sibling *)
Lemma root_check d l r :
  bytes_eqb (root l r) (merkle_commit (H (commitment (pick d l r))) (H (commitment (other d l r)))) = true.
Proof.
  apply bytes_eqb_eq. unfold merkle_commit, root, MerkleTree.root.
  rewrite <- xor_bytes_zip_pad by (rewrite !Hlen; reflexivity).
  destruct d; cbn [pick other]; [apply xor_bytes_comm|reflexivity].
Qed.

Definition no_eval_ban : Prop := flag_get (c_flags cfg) (FKStr (str "disallow_OP_EVAL")) = None.
Definition eval_ret : bool := flag_on (c_flags cfg) (FKStr (str "eval_return")).

(* the state in which an EVALuated script starts: a NEW tape object (call count + 1) with a NEW copy of the
   definition table of the calling tape *)
Definition eval_start (st : state) (tid : nat) (body : bytes) : state :=
  with_tapes (with_defs st (st_defs st ++ [nth_defs st (to_defs (nth_tape st tid))]))
    (st_tapes st ++ [{| to_data := body; to_count := (to_count (nth_tape st tid) + 1)%Z;
                        to_defs := List.length (st_defs st) |}]).

(* what OP_EVAL does with the control flag once the script has ended normally *)
Definition eval_cache (st' : state) : state :=
  match cache_get (st_cache st') returned_key with
  | Some _ =>
    if eval_ret then with_cache st' (cache_set (st_cache st') returned_key (VOne (ABool true)))
    else with_cache st' (cache_del (st_cache st') returned_key)
  | None => st'
  end.

(* the heap of [eval_start]: one tape object and one definition table more *)
Lemma length_eval_start st tid body :
  List.length (st_tapes (eval_start st tid body)) = S (List.length (st_tapes st)).
Proof. exact (tapes_len_new st (eval_start st tid body) _ eq_refl). Qed.

Lemma nth_tape_eval_new st tid body :
  nth_tape (eval_start st tid body) (List.length (st_tapes st)) =
    {| to_data := body; to_count := (to_count (nth_tape st tid) + 1)%Z; to_defs := List.length (st_defs st) |}.
Proof. exact (nth_tape_new st (eval_start st tid body) _ eq_refl). Qed.

Lemma nth_tape_eval_old st tid body t :
  t < List.length (st_tapes st) -> nth_tape (eval_start st tid body) t = nth_tape st t.
Proof. exact (nth_tape_old st (eval_start st tid body) _ t eq_refl). Qed.

Lemma nth_defs_eval_new st tid body :
  nth_defs (eval_start st tid body) (List.length (st_defs st)) = nth_defs st (to_defs (nth_tape st tid)).
Proof. exact (nth_defs_new st (eval_start st tid body) _ eq_refl). Qed.

Lemma tapes_eval_start st tid body :
  st_tapes (eval_start st tid body) = st_tapes st ++ [nth_tape (eval_start st tid body) (List.length (st_tapes st))].
Proof. rewrite nth_tape_eval_new. reflexivity. Qed.

Lemma defs_eval_start st tid body :
  st_defs (eval_start st tid body) = st_defs st ++ [nth_defs st (to_defs (nth_tape st tid))].
Proof. reflexivity. Qed.

Lemma stack_eval_cache st' : st_stack (eval_cache st') = st_stack st'.
Proof. unfold eval_cache. destruct (cache_get _ _); [|reflexivity]. destruct eval_ret; reflexivity. Qed.

(* OP_MERKLEVAL with the root of [Node l r] as operand, on a stack whose top pair is (bytes of one child,
   commitment of the other): the commitment check passes and the child's bytes are EVALuated *)
Lemma merkleval_node run tid ptr st l r d rest tail :
  data_at {| fr_tid := tid; fr_ptr := ptr |} st = root l r ++ tail ->
  st_stack st = tbytes (pick d l r) :: commitment (other d l r) :: rest ->
  no_eval_ban -> (to_count (nth_tape st tid) < c_limit cfg)%Z ->
  tbytes (pick d l r) <> [] -> fits cfg (tbytes (pick d l r)) ->
  32 <= c_max_item_size cfg -> List.length rest + 4 <= c_max_items cfg ->
  interp orc cfg run OP_MERKLEVAL {| fr_tid := tid; fr_ptr := ptr |} st =
    eval_finish cfg tid (ptr + 32)
      (run (List.length (st_tapes st)) (eval_start (with_stack st rest) tid (tbytes (pick d l r)))).
Proof.
  intros Hd Hs Hfl Hc Hne Hf Hsz Hsp.
  pose proof (root_check d l r) as Hrc. rewrite (commitment_tbytes (pick d l r)) in Hrc.
  assert (F32 : forall b, List.length b = 32 -> fits cfg b) by (intros b Hb; unfold fits; lia).
  rewrite (merkleval_binding orc cfg run _ st (root l r) tail (tbytes (pick d l r)) (commitment (other d l r)) rest
             (H (tbytes (pick d l r))) (H (H (tbytes (pick d l r)))) (H (commitment (other d l r))) Hd);
    try (apply Horc); try exact Hs; try exact Hf; try exact Hsp; try lia;
    try (apply F32; first [apply Hlen | apply commitment_length | apply root_length]).
  - rewrite Hrc. unfold adv. cbn [fr_tid fr_ptr].
    change eval_body with OP_EVAL.
    rewrite (eval_exec orc cfg run tid (ptr + 32) (with_stack st (tbytes (pick d l r) :: rest))
               (tbytes (pick d l r)) rest Hfl eq_refl Hc Hne).
    reflexivity.
  - apply root_length.
  - apply bytes_eqb_eq in Hrc. rewrite <- Hrc. apply F32. apply root_length.
Qed.

(* merkle_step: the tape [tid] holds the lock of [Node l r]; the top pair of the stack is (bytes of the child
   chosen by d, commitment of its sibling).  EQUAL_VERIFY passes, the child's bytes run as a NEW tape object
   (call count + 1, copy of the definitions) on the stack below the pair, and the lock ends behind its
   operand. *)
Theorem merkle_step f tid st l r d rest :
  tdata st tid = lock l r -> tid < List.length (st_tapes st) ->
  st_stack st = tbytes (pick d l r) :: commitment (other d l r) :: rest ->
  no_eval_ban -> (to_count (nth_tape st tid) < c_limit cfg)%Z ->
  tbytes (pick d l r) <> [] -> fits cfg (tbytes (pick d l r)) ->
  32 <= c_max_item_size cfg -> List.length rest + 4 <= c_max_items cfg ->
  run_tape orc cfg (S (S f)) tid 0 st =
    eval_last_outcome cfg tid 33 (run_tape orc cfg (S f) (List.length (st_tapes st)) 0
                                (eval_start (with_stack st rest) tid (tbytes (pick d l r)))).
Proof.
  intros Hd Hlt Hs Hfl Hc Hne Hf Hsz Hsp.
  pose proof (lock_bytes l r : skipn 0 (lock l r) = x3c :: root l r) as Hp.
  rewrite <- (lock_length l r).
  apply (eval_finish_last orc cfg f tid 0 st _ x3c (root l r) _ _ Hd Hp).
  - rewrite length_eval_start. exact (Nat.lt_lt_succ_r _ _ Hlt).
  - unfold tdata. rewrite nth_tape_eval_old by exact Hlt. exact Hd.
  - rewrite root_length. change (dispatch (N.to_nat (Byte.to_N x3c))) with OP_MERKLEVAL.
    rewrite <- (app_nil_r (root l r)) in Hp.
    exact (merkleval_node _ tid 1 st l r d rest [] (data_at_next tid 0 st _ x3c _ Hd Hp) Hs Hfl Hc Hne Hf Hsz Hsp).
Qed.

Lemma wstack_length : forall p t u, subtree t p = Some u -> List.length (wstack t p) = 2 * List.length p.
Proof.
  induction p as [|d p IH]; intros t u Hsub; [reflexivity|].
  destruct t as [s|l r]; [discriminate|]. cbn [subtree] in Hsub. cbn [MerkleTree.wstack List.length].
  rewrite (IH _ _ Hsub). lia.
Qed.

(* what is pushed and EVALuated on the way to a node that fits an item fits one: it is a 33-byte lock *)
Lemma path_fits x p u :
  subtree x p = Some u -> fits cfg (tbytes u) -> 33 <= c_max_item_size cfg -> fits cfg (tbytes x).
Proof.
  intros Hsub Hf Hsz. destruct p as [|d p]; [injection Hsub as <-; exact Hf|].
  destruct x as [s|l r]; [discriminate|]. unfold fits. cbn [MerkleTree.tbytes]. rewrite lock_length. exact Hsz.
Qed.

Lemma path_nonempty x p u : subtree x p = Some u -> tbytes u <> [] -> tbytes x <> [].
Proof.
  intros Hsub Hne. destruct p as [|d p]; [injection Hsub as <-; exact Hne|].
  destruct x as [s|l r]; [discriminate|]. cbn [MerkleTree.tbytes]. rewrite lock_bytes. discriminate.
Qed.

(* the tape object and the state in which the bytes of the subtree at path p start, when the lock of t is
   the tape [tid] of [st] and the stack of [st] is the witness stack: one [eval_start] per level *)
Fixpoint descend (t : tree) (p : list dir) (tid : nat) (st : state) {struct p} : nat * state :=
  match p with
  | [] => (tid, st)
  | d :: p' =>
    match t with
    | Leaf _ => (tid, st)
    | Node l r =>
      descend (pick d l r) p' (List.length (st_tapes st))
              (eval_start (with_stack st (skipn 2 (st_stack st))) tid (tbytes (pick d l r)))
    end
  end.

(* the result of the root lock from the result of the script at depth d: every level hands a raise on
   unchanged and applies OP_EVAL's treatment of the control flag to a normal end *)
Definition lock_result (tid d : nat) (o : outcome unit) : outcome unit :=
  match d with
  | O => o
  | S _ =>
    match o with
    | Done _ _ st' => Done tt {| fr_tid := tid; fr_ptr := 33 |} (Nat.iter d eval_cache st')
    | Raised e _ st' => Raised e {| fr_tid := tid; fr_ptr := 33 |} st'
    | OutOfFuel => OutOfFuel
    | Unmodelled w => Unmodelled w
    end
  end.

Lemma lock_result_S tid tid' d o : eval_last_outcome cfg tid 33 (lock_result tid' d o) = lock_result tid (S d) o.
Proof. destruct d; destruct o as [[] ? ?|? ? ?| |?]; reflexivity. Qed.

(* merkle_complete (tape level): the lock of t on the witness stack of the path p runs exactly the bytes of
   the subtree at p, as the tape object and in the state given by [descend] *)
Theorem merkle_complete : forall p t u tid st rest f,
  subtree t p = Some u ->
  tdata st tid = tbytes t -> tid < List.length (st_tapes st) ->
  st_stack st = wstack t p ++ rest ->
  no_eval_ban ->
  (to_count (nth_tape st tid) + Z.of_nat (List.length p) <= c_limit cfg)%Z ->
  tbytes u <> [] -> fits cfg (tbytes u) -> 33 <= c_max_item_size cfg ->
  List.length rest + 2 * List.length p + 2 <= c_max_items cfg ->
  run_tape orc cfg (List.length p + S f) tid 0 st =
    lock_result tid (List.length p)
      (run_tape orc cfg (S f) (fst (descend t p tid st)) 0 (snd (descend t p tid st))).
Proof.
  induction p as [|d p IH]; intros t u tid st rest f Hsub Hd Hlt Hs Hfl Hc Hne Hf Hsz Hsp.
  - reflexivity.
  - destruct t as [s|l r]; [discriminate|].
    cbn [subtree] in Hsub. cbn [MerkleTree.wstack app] in Hs. cbn [MerkleTree.tbytes] in Hd.
    cbn [List.length] in *. cbn [descend]. rewrite Hs. cbn [skipn].
    pose proof (wstack_length _ _ _ Hsub) as Hwl.
    replace (S (List.length p) + S f) with (S (S (List.length p + f))) by lia.
    rewrite (merkle_step (List.length p + f) tid st l r d (wstack (pick d l r) p ++ rest) Hd Hlt Hs Hfl);
      [ | lia | exact (path_nonempty _ _ _ Hsub Hne) | exact (path_fits _ _ _ Hsub Hf Hsz) | lia
        | rewrite app_length, Hwl; lia ].
    replace (S (List.length p + f)) with (List.length p + S f) by lia.
    set (st1 := eval_start (with_stack st (wstack (pick d l r) p ++ rest)) tid (tbytes (pick d l r))).
    rewrite (IH (pick d l r) u (List.length (st_tapes st)) st1 rest f Hsub); try assumption.
    + apply lock_result_S.
    + unfold tdata, st1. rewrite (nth_tape_eval_new (with_stack st _)). reflexivity.
    + unfold st1. rewrite length_eval_start. apply Nat.lt_succ_diag_r.
    + reflexivity.
    + unfold st1. rewrite (nth_tape_eval_new (with_stack st _)). cbn [to_count].
      change (nth_tape (with_stack st (wstack (pick d l r) p ++ rest)) tid) with (nth_tape st tid). lia.
    + lia.
Qed.

(* what [descend] produces, explicitly: the target's bytes are the data of a tape object whose call count
   is the count of the root lock's tape + the depth and whose definition table is a copy of that tape's;
   the stack is what lay under the witness items; cache, log and random counter are untouched; the heap
   has grown by one tape object and one definition table per level *)
Theorem descend_spec : forall p t u tid st rest,
  subtree t p = Some u -> st_stack st = wstack t p ++ rest ->
  tdata st tid = tbytes t -> tid < List.length (st_tapes st) ->
  let tid' := fst (descend t p tid st) in
  let st' := snd (descend t p tid st) in
  tdata st' tid' = tbytes u /\
  to_count (nth_tape st' tid') = (to_count (nth_tape st tid) + Z.of_nat (List.length p))%Z /\
  nth_defs st' (to_defs (nth_tape st' tid')) = nth_defs st (to_defs (nth_tape st tid)) /\
  st_stack st' = rest /\ st_cache st' = st_cache st /\ st_log st' = st_log st /\ st_rand st' = st_rand st /\
  tid' < List.length (st_tapes st') /\
  (exists new, st_tapes st' = st_tapes st ++ new /\ List.length new = List.length p) /\
  (exists newd, st_defs st' = st_defs st ++ newd /\ List.length newd = List.length p) /\
  (p <> [] -> tid' = List.length (st_tapes st) + List.length p - 1).
Proof.
  induction p as [|d p IH]; intros t u tid st rest Hsub Hs Hd Hlt; cbv zeta.
  - injection Hsub as <-. cbn [descend fst snd List.length]. repeat split; try assumption; try reflexivity.
    + lia.
    + exists []. rewrite app_nil_r. split; reflexivity.
    + exists []. rewrite app_nil_r. split; reflexivity.
    + intro E. congruence.
  - destruct t as [s|l r]; [discriminate|].
    cbn [subtree] in Hsub. cbn [MerkleTree.wstack app] in Hs. cbn [descend]. rewrite Hs. cbn [skipn].
    set (x := pick d l r) in *. set (st0 := with_stack st (wstack x p ++ rest)).
    set (st1 := eval_start st0 tid (tbytes x)).
    pose proof (nth_tape_eval_new st0 tid (tbytes x)) as Hnew. fold st1 in Hnew.
    change (st_tapes st0) with (st_tapes st) in Hnew. change (nth_tape st0 tid) with (nth_tape st tid) in Hnew.
    change (st_defs st0) with (st_defs st) in Hnew.
    assert (Hlt1 : List.length (st_tapes st) < List.length (st_tapes st1)).
    { unfold st1. rewrite length_eval_start. apply Nat.lt_succ_diag_r. }
    destruct (IH x u (List.length (st_tapes st)) st1 rest Hsub eq_refl (f_equal to_data Hnew) Hlt1)
      as (A1 & A2 & A3 & A4 & A5 & A6 & A7 & A8 & (new & A9 & A9') & (newd & A10 & A10') & A11).
    split; [exact A1|]. split; [rewrite A2, Hnew; cbn [to_count List.length]; lia|].
    split; [rewrite A3, Hnew; exact (nth_defs_eval_new st0 tid (tbytes x))|].
    split; [exact A4|]. split; [exact A5|]. split; [exact A6|]. split; [exact A7|]. split; [exact A8|].
    split.
    { exists (nth_tape st1 (List.length (st_tapes st)) :: new).
      split; [rewrite A9; unfold st1; rewrite tapes_eval_start, <- app_assoc; reflexivity|]. simpl. rewrite A9'. reflexivity. }
    split.
    { exists (nth_defs st (to_defs (nth_tape st tid)) :: newd).
      split; [rewrite A10; unfold st1; rewrite defs_eval_start, <- app_assoc; reflexivity|]. simpl. rewrite A10'. reflexivity. }
    intros _. cbn [List.length]. destruct p as [|d' p'].
    + cbn [descend fst List.length]. lia.
    + rewrite A11 by discriminate. unfold st1. rewrite length_eval_start. change (st_tapes st0) with (st_tapes st).
      cbn [List.length]. lia.
Qed.

(* consequences for the two ways a script ends *)
Corollary merkle_complete_raised p t u tid st rest f e fr' st' :
  subtree t p = Some u -> p <> [] ->
  tdata st tid = tbytes t -> tid < List.length (st_tapes st) ->
  st_stack st = wstack t p ++ rest -> no_eval_ban ->
  (to_count (nth_tape st tid) + Z.of_nat (List.length p) <= c_limit cfg)%Z ->
  tbytes u <> [] -> fits cfg (tbytes u) -> 33 <= c_max_item_size cfg ->
  List.length rest + 2 * List.length p + 2 <= c_max_items cfg ->
  run_tape orc cfg (S f) (fst (descend t p tid st)) 0 (snd (descend t p tid st)) = Raised e fr' st' ->
  run_tape orc cfg (List.length p + S f) tid 0 st = Raised e {| fr_tid := tid; fr_ptr := 33 |} st'.
Proof.
  intros Hsub Hp Hd Hlt Hs Hfl Hc Hne Hf Hsz Hsp Hrun.
  rewrite (merkle_complete p t u tid st rest f Hsub Hd Hlt Hs Hfl Hc Hne Hf Hsz Hsp), Hrun.
  destruct p; [congruence|reflexivity].
Qed.

Lemma iter_eval_cache_clear n st' :
  cache_get (st_cache st') returned_key = None -> Nat.iter n eval_cache st' = st'.
Proof.
  intro Hn. induction n as [|n IH]; [reflexivity|].
  cbn [Nat.iter nat_rect]. fold (Nat.iter n eval_cache st'). rewrite IH.
  unfold eval_cache. rewrite Hn. reflexivity.
Qed.

Corollary merkle_complete_done p t u tid st rest f fr' st' :
  subtree t p = Some u -> p <> [] ->
  tdata st tid = tbytes t -> tid < List.length (st_tapes st) ->
  st_stack st = wstack t p ++ rest -> no_eval_ban ->
  (to_count (nth_tape st tid) + Z.of_nat (List.length p) <= c_limit cfg)%Z ->
  tbytes u <> [] -> fits cfg (tbytes u) -> 33 <= c_max_item_size cfg ->
  List.length rest + 2 * List.length p + 2 <= c_max_items cfg ->
  run_tape orc cfg (S f) (fst (descend t p tid st)) 0 (snd (descend t p tid st)) = Done tt fr' st' ->
  run_tape orc cfg (List.length p + S f) tid 0 st =
    Done tt {| fr_tid := tid; fr_ptr := 33 |} (Nat.iter (List.length p) eval_cache st') /\
  (cache_get (st_cache st') returned_key = None -> Nat.iter (List.length p) eval_cache st' = st').
Proof.
  intros Hsub Hp Hd Hlt Hs Hfl Hc Hne Hf Hsz Hsp Hrun.
  rewrite (merkle_complete p t u tid st rest f Hsub Hd Hlt Hs Hfl Hc Hne Hf Hsz Hsp), Hrun.
  split; [destruct p; [congruence|reflexivity]|apply iter_eval_cache_clear].
Qed.

(* the statement for a leaf, with the start state described instead of computed: the lock of t on the
   witness stack of the path to the leaf with script s  =  s run from its first byte as a tape object with call
   count + depth, a copy of the definitions, the stack that lay under the witness items, and the cache, log
   and random counter of the start; a raise is handed up unchanged, a normal end gets OP_EVAL's treatment of
   the control flag once per level *)
Corollary merkle_complete_leaf p t s tid st rest f :
  subtree t p = Some (Leaf s) ->
  tdata st tid = tbytes t -> tid < List.length (st_tapes st) ->
  st_stack st = wstack t p ++ rest -> no_eval_ban ->
  (to_count (nth_tape st tid) + Z.of_nat (List.length p) <= c_limit cfg)%Z ->
  s <> [] -> fits cfg s -> 33 <= c_max_item_size cfg ->
  List.length rest + 2 * List.length p + 2 <= c_max_items cfg ->
  exists tid' st',
    run_tape orc cfg (List.length p + S f) tid 0 st =
      lock_result tid (List.length p) (run_tape orc cfg (S f) tid' 0 st') /\
    tdata st' tid' = s /\
    to_count (nth_tape st' tid') = (to_count (nth_tape st tid) + Z.of_nat (List.length p))%Z /\
    nth_defs st' (to_defs (nth_tape st' tid')) = nth_defs st (to_defs (nth_tape st tid)) /\
    st_stack st' = rest /\ st_cache st' = st_cache st /\ st_log st' = st_log st /\ st_rand st' = st_rand st.
Proof.
  intros Hsub Hd Hlt Hs Hfl Hc Hne Hf Hsz Hsp.
  exists (fst (descend t p tid st)), (snd (descend t p tid st)).
  split; [apply (merkle_complete p t (Leaf s) tid st rest f); assumption|].
  destruct (descend_spec p t (Leaf s) tid st rest Hsub Hs Hd Hlt) as (A1 & A2 & A3 & A4 & A5 & A6 & A7 & _).
  repeat split; assumption.
Qed.

Lemma unlock_rel_nonempty : forall p t u w,
  p <> [] -> subtree t p = Some u -> unlock_rel t p = Some w -> tbytes u <> [].
Proof.
  induction p as [|d p IH]; intros t u w Hp Hsub Hw; [congruence|].
  destruct t as [s|l r]; [discriminate|]. cbn [subtree] in Hsub. cbn [MerkleTree.unlock_rel] in Hw.
  destruct (unlock_rel (pick d l r) p) as [w'|] eqn:E1; [|discriminate].
  destruct (push_bytes (commitment (other d l r))) as [a|]; [|discriminate].
  destruct (push_bytes (tbytes (pick d l r))) as [b|] eqn:E3; [|discriminate].
  destruct p as [|d' p'].
  - injection Hsub as <-. intro E. rewrite E in E3. discriminate.
  - apply (IH _ _ _ ltac:(discriminate) Hsub E1).
Qed.

(* the unlocking script, wherever it stands on a tape: 2 pushes per level, leaving the witness stack on top of
   what was there *)
Theorem witness_runs : forall p t u w tid st rest,
  subtree t p = Some u -> unlock_rel t p = Some w -> st_stack st = rest ->
  fits cfg (tbytes u) -> 33 <= c_max_item_size cfg ->
  List.length rest + 2 * List.length p <= c_max_items cfg ->
  runs orc cfg (2 * List.length p) tid w st (with_stack st (wstack t p ++ rest)).
Proof.
  induction p as [|d p IH]; intros t u w tid st rest Hsub Hw Hs Hf Hsz Hsp.
  - injection Hw as <-. cbn [MerkleTree.wstack app]. rewrite <- Hs, with_stack_same. apply runs_nil.
  - destruct t as [s|l r]; [discriminate|]. cbn [subtree] in Hsub. cbn [MerkleTree.unlock_rel] in Hw.
    set (x := pick d l r) in *. set (sb := other d l r) in *.
    destruct (unlock_rel x p) as [w'|] eqn:E1; [|discriminate].
    destruct (push_bytes (commitment sb)) as [a|] eqn:E2; [|discriminate].
    destruct (push_bytes (tbytes x)) as [b|] eqn:E3; [|discriminate].
    injection Hw as <-.
    cbn [List.length] in *. cbn [MerkleTree.wstack app]. fold x. fold sb.
    pose proof (wstack_length _ _ _ Hsub) as Hwl.
    replace (2 * S (List.length p)) with (2 * List.length p + (1 + 1)) by lia.
    apply (runs_app (IH x u w' tid st rest Hsub E1 Hs Hf Hsz ltac:(lia))).
    apply (runs_app (st1 := with_stack st (commitment sb :: wstack x p ++ rest))).
    + rewrite <- (with_stack_twice st (wstack x p ++ rest) (commitment sb :: _)).
      apply (push_any_runs orc cfg tid (with_stack st (wstack x p ++ rest)) _ _ _ E2 eq_refl);
        [unfold fits; rewrite commitment_length; lia|unfold space; cbn [st_stack with_stack]; rewrite app_length, Hwl; lia].
    + rewrite <- (with_stack_twice st (commitment sb :: wstack x p ++ rest) (tbytes x :: _)).
      apply (push_any_runs orc cfg tid (with_stack st (commitment sb :: wstack x p ++ rest)) _ _ _ E3 eq_refl
               (path_fits _ _ _ Hsub Hf Hsz)).
      unfold space. cbn [st_stack with_stack List.length]. rewrite app_length, Hwl. lia.
Qed.

Definition auth_finish (o : outcome unit) : auth_result :=
  match o with
  | Done _ _ st' =>
    match st_stack st' with
    | [item] => AuthVerdict (bytes_eqb item [xff]) (with_stack st' [])
    | _ => AuthVerdict false st'
    end
  | Raised _ _ st' => AuthVerdict false st'
  | OutOfFuel => AuthFuel
  | Unmodelled w => AuthUnmod w
  end.

(* the state in which the root lock starts as second script, after the unlocking script w *)
Definition lock_state (w : bytes) (vals : cache) (stack : list bytes) (lk : bytes) : state :=
  snd (next_start (with_stack (init_state cfg w vals) stack) 0 lk).

Theorem merkle_auth p l r u w vals f :
  subtree (Node l r) p = Some u -> p <> [] -> unlock (Node l r) p = Some w ->
  no_eval_ban -> (Z.of_nat (List.length p) <= c_limit cfg)%Z ->
  fits cfg (tbytes u) -> 33 <= c_max_item_size cfg -> 2 * List.length p + 2 <= c_max_items cfg ->
  let st2 := lock_state w vals (wstack (Node l r) p) (lock l r) in
  run_auth_scripts orc cfg (2 * List.length p + S f) [w; lock l r] vals =
    auth_finish
      (lock_result 1 (List.length p)
         (run_tape orc cfg (S (List.length p + f)) (fst (descend (Node l r) p 1 st2)) 0
                   (snd (descend (Node l r) p 1 st2)))).
Proof.
  intros Hsub Hp Hw Hfl Hc Hf Hsz Hsp st2.
  cbn [MerkleTree.unlock] in Hw.
  pose proof (unlock_rel_nonempty p _ u w Hp Hsub Hw) as Hne.
  assert (Hwit : runs orc cfg (2 * List.length p) 0 w (init_state cfg w vals)
                   (with_stack (init_state cfg w vals) (wstack (Node l r) p))).
  { rewrite <- (app_nil_r (wstack _ p)). apply (witness_runs p (Node l r) u); try assumption; [reflexivity|simpl; lia]. }
  rewrite (auth_two orc cfg _ _ _ vals _ _ (script_runs orc cfg (2 * List.length p) w vals _ (2 * List.length p + S f) Hwit ltac:(lia))).
  fold (lock_state w vals (wstack (Node l r) p) (lock l r)). fold st2.
  change (fst (next_start (with_stack (init_state cfg w vals) (wstack (Node l r) p)) 0 (lock l r))) with 1.
  replace (2 * List.length p + S f) with (List.length p + S (List.length p + f)) by lia.
  rewrite (merkle_complete p (Node l r) u 1 st2 [] (List.length p + f) Hsub);
    [ reflexivity | reflexivity | simpl; lia | rewrite app_nil_r; reflexivity | exact Hfl
      | change (to_count (nth_tape st2 1)) with 0%Z; lia | exact Hne | exact Hf | exact Hsz | simpl; lia ].
Qed.

(* the lock of [Node l r] on ANY top pair (script, sib): unless the pair hashes to the root, the lock raises
   at EQUAL_VERIFY, in its own frame; nothing of [script] has run: no tape object was created, cache, log and
   definitions are those of the start, the stack has only lost the sibling item *)
Theorem merkle_binding_tree f tid st l r script sib rest :
  tdata st tid = lock l r -> st_stack st = script :: sib :: rest ->
  fits cfg script -> fits cfg sib -> 32 <= c_max_item_size cfg -> List.length rest + 4 <= c_max_items cfg ->
  xor_bytes (H sib) (H (H script)) <> root l r ->
  run_tape orc cfg (S f) tid 0 st =
    Raised ScriptExecutionError {| fr_tid := tid; fr_ptr := 33 |} (with_stack st (script :: rest)).
Proof.
  intros Hd Hs Hf1 Hf2 Hsz Hsp Hneq.
  assert (Hp : skipn 0 (lock l r) = x3c :: root l r ++ []) by (rewrite app_nil_r; apply lock_bytes).
  rewrite (run_tape_fetch_at orc cfg f tid 0 st _ x3c _ Hd Hp).
  change (dispatch (N.to_nat (Byte.to_N x3c))) with OP_MERKLEVAL.
  assert (F32 : forall b, List.length b = 32 -> fits cfg b) by (intros b Hb; unfold fits; lia).
  assert (Hmc : merkle_commit (H (H script)) (H sib) = xor_bytes (H sib) (H (H script))).
  { unfold merkle_commit. symmetry. apply xor_bytes_zip_pad. rewrite !Hlen. reflexivity. }
  rewrite (merkleval_binding orc cfg _ _ st (root l r) [] script sib rest (H script) (H (H script)) (H sib)
             (data_at_next tid 0 st _ x3c _ Hd Hp));
    try (apply Horc); try exact Hs; try exact Hf1; try exact Hf2; try exact Hsp; try lia;
    try (apply F32; first [apply Hlen | apply root_length]).
  - rewrite Hmc. rewrite bytes_eqb_neq by (intro E; apply Hneq; symmetry; exact E). reflexivity.
  - apply root_length.
  - rewrite Hmc. apply F32. rewrite xor_bytes_length; rewrite !Hlen; reflexivity.
Qed.

(* contrapositive: whenever the lock of a node does anything else than that raise, the pair on top of the
   stack hashes to the node's root *)
Corollary merkle_binding_tree_inv f tid st l r script sib rest :
  tdata st tid = lock l r -> st_stack st = script :: sib :: rest ->
  fits cfg script -> fits cfg sib -> 32 <= c_max_item_size cfg -> List.length rest + 4 <= c_max_items cfg ->
  run_tape orc cfg (S f) tid 0 st <>
    Raised ScriptExecutionError {| fr_tid := tid; fr_ptr := 33 |} (with_stack st (script :: rest)) ->
  xor_bytes (H sib) (H (H script)) = root l r.
Proof.
  intros Hd Hs Hf1 Hf2 Hsz Hsp Hrun.
  destruct (bytes_eqb (xor_bytes (H sib) (H (H script))) (root l r)) eqn:E.
  - apply bytes_eqb_eq. exact E.
  - exfalso. apply Hrun. apply (merkle_binding_tree f tid st l r script sib rest Hd Hs Hf1 Hf2 Hsz Hsp).
    intro E'. rewrite E', bytes_eqb_refl in E. discriminate.
Qed.

End MTP.

Lemma len2_bytes (v : bytes) : len2 v = [z2b (Z.shiftr (blen v) 8); z2b (blen v)].
Proof. reflexivity. Qed.

Lemma len2_decode (v : bytes) :
  (blen v <? 65536)%Z = true ->
  Z.to_nat (be_to_Z [z2b (Z.shiftr (blen v) 8); z2b (blen v)]) = List.length v.
Proof.
  intro Hl. apply Z.ltb_lt in Hl. change [z2b (Z.shiftr (blen v) 8); z2b (blen v)] with (len2 v).
  rewrite be_len2 by exact Hl. unfold blen. apply Nat2Z.id.
Qed.

(* one level of ScriptNode.unpack on the layout that ScriptNode.pack writes, for any two payloads *)
Lemma unpack_fuel_node k tl tr (pl pr : bytes) :
  (blen pl <? 65536)%Z = true -> (blen pr <? 65536)%Z = true ->
  unpack_fuel (S k) (tl :: len2 pl ++ pl ++ tr :: len2 pr ++ pr) =
    let sub ty d := if Byte.eqb ty tag_L then Some (Leaf d) else unpack_fuel k d in
    match sub tl pl, sub tr pr with Some l, Some r => Some (Node l r) | _, _ => None end.
Proof.
  intros Hl Hr. rewrite (len2_bytes pl), (len2_bytes pr). cbn [app unpack_fuel].
  rewrite (len2_decode pl Hl), skipn_after, firstn_after, (len2_decode pr Hr), firstn_all. reflexivity.
Qed.

(* a packed tree as the child of a node is read back: a leaf by its type byte, a node by the recursive call *)
Lemma unpack_sub : forall t k,
  packable t = true -> List.length (pack t) <= k ->
  (if Byte.eqb (tag t) tag_L then Some (Leaf (pack t)) else unpack_fuel k (pack t)) = Some t.
Proof.
  induction t as [s|l IHl r IHr]; intros fuel Hp Hfuel; [reflexivity|].
  change (unpack_fuel fuel (pack (Node l r)) = Some (Node l r)).
  cbn [packable] in Hp. rewrite !andb_true_iff in Hp. destruct Hp as [[[Hl1 Hl2] Hr1] Hr2].
  cbn [pack] in *. destruct fuel as [|k]; [simpl in Hfuel; lia|].
  cbn [List.length] in Hfuel. rewrite !app_length in Hfuel. cbn [List.length] in Hfuel. rewrite app_length in Hfuel.
  rewrite unpack_fuel_node by assumption. cbv beta zeta. rewrite IHl, IHr by (assumption || lia). reflexivity.
Qed.

(* unpack (pack t) = Some t for every node all of whose packed subtrees fit the 2-byte length field, i.e.
   exactly when ScriptNode.pack does not raise struct.error *)
Theorem pack_unpack l r : packable (Node l r) = true -> unpack (pack (Node l r)) = Some (Node l r).
Proof. intro Hp. unfold unpack. apply (unpack_sub (Node l r) _ Hp), le_n. Qed.

Corollary pack_opt_unpack l r b : pack_opt (Node l r) = Some b -> unpack b = Some (Node l r).
Proof.
  unfold pack_opt. destruct (packable (Node l r)) eqn:E; [|discriminate].
  intro Hb. injection Hb as <-. apply pack_unpack. exact E.
Qed.

(* non-vacuity: the premises of merkle_auth hold for a concrete oracle, configuration and tree *)
Module Demo.
Definition H (b : bytes) : bytes := firstn 32 (b ++ repeat x00 32).
Lemma H_len b : List.length (H b) = 32.
Proof. unfold H. rewrite firstn_length, app_length, repeat_length. lia. Qed.
Definition orc : oracle :=
  fun p args => match p, args with PSha256, [b] => OOk [H b] | _, _ => OErr OtherError end.
Lemma orc_H b : orc PSha256 [b] = OOk [H b].
Proof. reflexivity. Qed.
Definition cfg : config :=
  {| c_max_items := 64; c_max_item_size := 64; c_limit := 8; c_flags := []; c_sigext := [];
     c_ctplugins := []; c_contracts := []; c_now := 0 |}.
Definition l : tree := Node (Leaf [x01]) (Leaf [x00]).          (* OP_TRUE | OP_FALSE *)
Definition r : tree := Leaf [x00; x06; x01].                    (* OP_FALSE OP_POP0 OP_TRUE *)

Example demo_true : exists w st,
  unlock H (Node l r) [L; L] = Some w /\
  run_auth_scripts orc cfg (2 * 2 + S 3) [w; lock H l r] [] = AuthVerdict true st.
Proof.
  destruct (unlock H (Node l r) [L; L]) as [w|] eqn:E; [|vm_compute in E; discriminate].
  eexists w, _. split; [reflexivity|].
  pose proof (merkle_auth orc cfg H orc_H H_len [L; L] l r (Leaf [x01]) w [] 3 eq_refl ltac:(discriminate) E
             eq_refl ltac:(vm_compute; discriminate) ltac:(unfold fits; simpl; lia) ltac:(simpl; lia) ltac:(simpl; lia))
    as Hm.
  cbv zeta in Hm. change (List.length [L; L]) with 2 in Hm. rewrite Hm. clear Hm.
  vm_compute in E. injection E as <-. vm_compute. reflexivity.
Qed.
End Demo.

Print Assumptions merkle_step.
Print Assumptions merkle_complete.
Print Assumptions descend_spec.
Print Assumptions merkle_complete_leaf.
Print Assumptions merkle_complete_raised.
Print Assumptions merkle_complete_done.
Print Assumptions witness_runs.
Print Assumptions merkle_auth.
Print Assumptions merkle_binding_tree.
Print Assumptions merkle_binding_tree_inv.
Print Assumptions pack_unpack.
