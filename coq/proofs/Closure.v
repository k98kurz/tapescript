(* A relation between states that every action respects is respected by every instruction,
   every nesting of sub-tapes and every script: one induction over programs, one over fuel. *)
From Coq Require Import ZArith List Bool Lia.
From Coq.Strings Require Import Byte String.
From TS Require Import State Prog Ops Interp.
Import ListNotations.
Local Open Scope nat_scope.

Section Closure.
Variable orc : oracle.
Variable cfg : config.
Variable R : state -> state -> Prop.
Hypothesis R_refl : forall s, R s s.
Hypothesis R_trans : forall a b c, R a b -> R b c -> R a c.

Definition R_out {A} (s : state) (o : outcome A) : Prop :=
  match o with Done _ _ s' | Raised _ _ s' => R s s' | _ => True end.
Definition R_sres {X} (s : state) (r : sres X) : Prop :=
  match r with SOk _ _ s' | SRaise _ _ s' => R s s' | _ => True end.

Definition run_ok (run : nat -> state -> outcome unit) : Prop := forall tid s, R_out s (run tid s).

Definition step_closed : Prop :=
  forall run, run_ok run -> forall X (a : action X) fr st, R_sres st (step orc cfg run a fr st).

Lemma R_out_trans A s s1 (o : outcome A) : R s s1 -> R_out s1 o -> R_out s o.
Proof. intros H1 H2. destruct o; simpl in *; try exact I; eapply R_trans; eauto. Qed.

(* the actions that run a sub-tape: the runner starts in a state [st1] made from [st], and its
   outcome is handed back as a step result (ATrySub hands a raise back as a value) *)
Lemma after_run_closed fr st st1 (o : outcome unit) :
  R st st1 -> R_out st1 o -> R_sres st (after_run fr o).
Proof. intros H1 H2. apply (R_out_trans _ _ _ _ H1) in H2. destruct o; exact H2. Qed.

Lemma try_run_closed fr st st1 (o : outcome unit) :
  R st st1 -> R_out st1 o ->
  R_sres st match o with
            | Done _ _ st' => SOk None fr st'
            | Raised e _ st' => SOk (Some e) fr st'
            | OutOfFuel => SFuel
            | Unmodelled w => SUnmod w
            end.
Proof. intros H1 H2. apply (R_out_trans _ _ _ _ H1) in H2. destruct o; exact H2. Qed.

Hypothesis Hstep : step_closed.

Lemma interp_closed run (Hrun : run_ok run) A (p : prog A) :
  forall fr st, R_out st (interp orc cfg run p fr st).
Proof.
  induction p as [a|e|w|X a k IH]; intros fr st; simpl.
  - apply R_refl.
  - apply R_refl.
  - exact I.
  - pose proof (Hstep run Hrun X a fr st) as Hs.
    destruct (step orc cfg run a fr st) as [x fr' st'|e fr' st'| |w]; simpl in *; try exact I; try exact Hs.
    eapply R_out_trans; [exact Hs|apply IH].
Qed.

Lemma run_tape_closed : forall fuel tid ptr st, R_out st (run_tape orc cfg fuel tid ptr st).
Proof.
  induction fuel as [|f IH]; intros tid ptr st; simpl; [exact I|].
  destruct (List.length (to_data (nth_tape st tid)) <=? ptr); simpl; [apply R_refl|].
  assert (Hrun : run_ok (fun t s => run_tape orc cfg f t 0 s)) by (intros t s; apply IH).
  pose proof (interp_closed _ Hrun unit
                (dispatch (N.to_nat (Byte.to_N (nth ptr (to_data (nth_tape st tid)) x00))))
                {| fr_tid := tid; fr_ptr := S ptr |} st) as Hi.
  destruct (interp orc cfg _ _ _ st) as [a fr' st'|e fr' st'| |w]; simpl in *; try exact I; try exact Hi.
  eapply R_out_trans; [exact Hi|apply IH].
Qed.

End Closure.

(* A property of states that every activation of run_tape preserves, and that survives what
   run_auth_scripts does between two scripts (a new top-level tape that inherits counter and
   definitions, the flag 'returned' deleted) and at the end (the stack emptied), holds of the
   state of every verdict. *)
Section Auth.
Variable orc : oracle.
Variable cfg : config.
Variable Inv : state -> Prop.

Definition out_inv {A} (o : outcome A) : Prop :=
  match o with Done _ _ st' | Raised _ _ st' => Inv st' | _ => True end.
Definition auth_inv (r : auth_result) : Prop :=
  match r with AuthVerdict _ st' => Inv st' | _ => True end.

Hypothesis Inv_run : forall fuel tid ptr st, Inv st -> out_inv (run_tape orc cfg fuel tid ptr st).
Hypothesis Inv_tape : forall st prev s, Inv st ->
  Inv (with_tapes st (st_tapes st ++ [{| to_data := s; to_count := to_count (nth_tape st prev);
                                       to_defs := to_defs (nth_tape st prev) |}])).
Hypothesis Inv_flag : forall st, Inv st -> Inv (with_cache st (cache_del (st_cache st) returned_key)).
Hypothesis Inv_stack : forall st, Inv st -> Inv (with_stack st []).

Lemma auth_rest_inv fuel : forall scripts prev st,
  Inv st -> auth_inv (auth_rest orc cfg fuel scripts prev st).
Proof.
  induction scripts as [|s rest IH]; intros prev st H; cbn [auth_rest].
  - destruct (st_stack st) as [|item [|x y]]; simpl; auto.
  - unfold new_tape. cbv beta iota zeta.
    pose proof (Inv_run fuel (List.length (st_tapes st)) 0 _ (Inv_flag _ (Inv_tape st prev s H))) as Hr.
    destruct (run_tape orc cfg fuel _ 0 _) as [u fr' st'|e fr' st'| |w]; simpl in *; auto.
Qed.

Theorem run_auth_scripts_inv fuel scripts vals :
  (forall s, Inv (init_state cfg s vals)) -> auth_inv (run_auth_scripts orc cfg fuel scripts vals).
Proof.
  intro H0. unfold run_auth_scripts, run_script. destruct scripts as [|s rest]; [exact I|].
  pose proof (Inv_run fuel 0 0 _ (H0 s)) as Hr.
  destruct (run_tape orc cfg fuel 0 0 _) as [u fr st|e fr st| |w]; simpl in *; auto.
  apply auth_rest_inv. exact Hr.
Qed.

End Auth.
