(* C03 link: the program-level greedy loop of OP_CHECK_MULTISIG ([ms_find] / [ms_go] in model/Ops.v,
   which pushes signature and key, runs [check_sig_body] and pops the verdict) computes exactly the
   pure loop [pfind] / [pgo] of MultisigPure.v, so the combinatorial theorems proved there apply to
   the instruction. *)
From Coq Require Import ZArith List Bool Arith Lia.
From Coq.Sorting Require Import Permutation.
From Coq.Strings Require Import Byte String.
From TS Require Import Bytes State Prog Ops Interp InterpLemmas BytesLemmas SigSpec NopSpec TapeLemmas
  ConfigSpec MultisigPure.
Import ListNotations.
Local Open Scope nat_scope.

Section Link.
Variable orc : oracle.
Variable cfg : config.
Variable run : nat -> state -> outcome unit.
Variable allowed : Z.
Variable chk : bytes -> bytes -> bool.

Definition boolb (b : bool) : bytes := if b then [xff] else [x00].

(* the signature check is well behaved on (s, k): with k on top of s on top of rest it ends normally,
   replaces the two items by the verdict byte and changes nothing else *)
Definition chk_ok (rest : list bytes) (s k : bytes) : Prop :=
  forall fr st, st_stack st = k :: s :: rest ->
    interp orc cfg run (check_sig_body allowed) fr st = Done tt fr (with_stack st (boolb (chk s k) :: rest)).

Definition pushable (rest : list bytes) (s k : bytes) : Prop :=
  (List.length s <= c_max_item_size cfg)%nat /\ (List.length k <= c_max_item_size cfg)%nat /\
  (List.length rest + 2 <= c_max_items cfg)%nat.

Lemma bytes_to_bool_boolb b : bytes_to_bool (boolb b) = b.
Proof. destruct b; reflexivity. Qed.

Lemma with_stack_back st rest : st_stack st = rest -> with_stack st rest = st.
Proof. intros <-. apply with_stack_same. Qed.

(* State-specific form of [chk_ok]: the check is only required to behave at the states the loop actually
   visits, i.e. [st0] with another stack (same cache, tapes, log ...).  [chk_ok] implies it for every st0;
   unlike [chk_ok] it can be established from facts about the cache of st0 (see [chk_ok_at_real] below). *)
Definition chk_ok_at (st0 : state) (rest : list bytes) (s k : bytes) : Prop :=
  forall fr, interp orc cfg run (check_sig_body allowed) fr (with_stack st0 (k :: s :: rest))
             = Done tt fr (with_stack st0 (boolb (chk s k) :: rest)).

Lemma chk_ok_chk_ok_at st0 rest s k : chk_ok rest s k -> chk_ok_at st0 rest s k.
Proof. intros H fr. apply (H fr (with_stack st0 (k :: s :: rest))). reflexivity. Qed.

(* the one step from premises on [chk_ok] to premises on [chk_ok_at].  [chk_ok] speaks of every state with the given
   stack, so of every cache: it can hold only of a signature whose flag byte excludes all eight fields (otherwise a
   cache with a non-bytes field makes the check raise); the [_at] forms are the ones [chk_ok_at_real] can feed *)
Lemma all_ok_at st0 (keys sigs rest : list bytes) :
  (forall s k, In s sigs -> In k keys -> chk_ok rest s k /\ pushable rest s k) ->
  forall s k, In s sigs -> In k keys -> chk_ok_at st0 rest s k /\ pushable rest s k.
Proof.
  intros H s k Hs Hk. destruct (H s k Hs Hk) as [Hc Hp]. split; [apply chk_ok_chk_ok_at; exact Hc | exact Hp].
Qed.

Lemma ms_find_pure_at : forall sig keys fr st rest,
  st_stack st = rest ->
  (forall k, In k keys -> chk_ok_at st rest sig k /\ pushable rest sig k) ->
  interp orc cfg run (ms_find allowed sig keys) fr st = Done (pfind chk sig keys) fr st.
Proof.
  intros sig keys. induction keys as [|k t IH]; intros fr st rest Hs H; cbn [ms_find pfind]; [reflexivity|].
  destruct (H k (or_introl eq_refl)) as [Hc [Hp1 [Hp2 Hp3]]].
  unfold put, act. cbn [bind].
  rewrite (put_ok orc cfg run fr st rest sig) by (try exact Hs; split; lia).
  rewrite (put_ok orc cfg run fr _ (sig :: rest) k) by (try reflexivity; split; simpl; lia).
  change (with_stack (with_stack st (sig :: rest)) (k :: sig :: rest)) with (with_stack st (k :: sig :: rest)).
  rewrite interp_bind. rewrite Hc.
  unfold get, act. cbn [bind interp step st_stack with_stack].
  rewrite bytes_to_bool_boolb.
  change (with_stack (with_stack st (boolb (chk sig k) :: rest)) rest) with (with_stack st rest).
  rewrite (with_stack_back st rest Hs).
  destruct (chk sig k); [reflexivity|].
  apply (IH fr st rest Hs). intros k' Hk'. apply H. right. exact Hk'.
Qed.

Lemma ms_go_pure_at : forall sigs keys confirmed fr st rest,
  st_stack st = rest ->
  (forall s k, In s sigs -> In k keys -> chk_ok_at st rest s k /\ pushable rest s k) ->
  interp orc cfg run (ms_go allowed sigs keys confirmed) fr st = Done (pgo chk sigs keys confirmed) fr st.
Proof.
  induction sigs as [|s t IH]; intros keys confirmed fr st rest Hs H; cbn [ms_go pgo]; [reflexivity|].
  rewrite interp_bind.
  rewrite (ms_find_pure_at s keys fr st rest Hs) by (intros k Hk; apply H; [left; reflexivity | exact Hk]).
  destruct (pfind chk s keys) as [k|].
  - apply (IH _ _ fr st rest Hs). intros s' k' Hs' Hk'. apply H; [right; exact Hs'|].
    eapply remove_first_incl. exact Hk'.
  - apply (IH _ _ fr st rest Hs). intros s' k' Hs' Hk'. apply H; [right; exact Hs' | exact Hk'].
Qed.

(* the instruction after its operands have been read *)
Definition multisig_tail (n m : nat) : prog unit :=
  vkeys <- repeat_get n ;; sgs <- repeat_get m ;;
  confirmed <- ms_go allowed sgs vkeys [] ;;
  put_bool (Nat.eqb (List.length confirmed) (List.length sgs)).

Theorem check_multisig_core_at : forall n m keys sigs rest fr st,
  st_stack st = keys ++ sigs ++ rest ->
  List.length keys = n -> List.length sigs = m ->
  (forall s k, In s sigs -> In k keys -> chk_ok_at st rest s k /\ pushable rest s k) ->
  (List.length rest < c_max_items cfg)%nat /\ (1 <= c_max_item_size cfg)%nat ->
  interp orc cfg run (multisig_tail n m) fr st
  = Done tt fr (with_stack st (boolb (ms_verdict chk sigs keys) :: rest)).
Proof.
  intros n m keys sigs rest fr st Hs Hn Hm H [Hr1 Hr2]. subst n m. unfold multisig_tail.
  rewrite interp_bind, repeat_get_ok by (rewrite Hs, !app_length; lia).
  rewrite Hs, firstn_len_app, skipn_len_app by reflexivity.
  rewrite interp_bind, repeat_get_ok by (cbn [st_stack with_stack]; rewrite app_length; lia).
  cbn [st_stack with_stack]. rewrite firstn_len_app, skipn_len_app by reflexivity.
  rewrite interp_bind.
  change (with_stack (with_stack st (sigs ++ rest)) rest) with (with_stack st rest).
  rewrite (ms_go_pure_at sigs keys [] fr (with_stack st rest) rest) by (try reflexivity; exact H).
  unfold put_bool, put, act.
  rewrite (put_ok orc cfg run fr _ rest).
  - cbn [interp]. unfold ms_verdict, boolb. reflexivity.
  - split; [|exact Hr1]. destruct (Nat.eqb _ _); simpl; lia.
  - reflexivity.
Qed.

(* run_sig_ext only appends one log event per configured plugin *)
Definition sigext_log (st : state) : state :=
  with_log st (rev (map EvSigExt (c_sigext cfg)) ++ st_log st).

Lemma run_sig_ext_ok fr st :
  interp orc cfg run run_sig_ext fr st = Done tt fr (sigext_log st).
Proof. exact (run_sig_ext_spec orc cfg run fr st). Qed.

Lemma sigext_log_stack st : st_stack (sigext_log st) = st_stack st.
Proof. reflexivity. Qed.

Theorem check_multisig_full_at : forall a mb nb tl keys sigs rest fr st,
  data_at fr st = a :: mb :: nb :: tl ->
  be_to_Z [a] = allowed ->
  st_stack st = keys ++ sigs ++ rest ->
  List.length keys = nat_of (be_to_Z [nb]) -> List.length sigs = nat_of (be_to_Z [mb]) ->
  (forall s k, In s sigs -> In k keys -> chk_ok_at (sigext_log st) rest s k /\ pushable rest s k) ->
  (List.length rest < c_max_items cfg)%nat /\ (1 <= c_max_item_size cfg)%nat ->
  interp orc cfg run OP_CHECK_MULTISIG fr st
  = Done tt (adv (adv (adv fr 1) 1) 1)
         (with_stack (sigext_log st) (boolb (ms_verdict chk sigs keys) :: rest)).
Proof.
  intros a mb nb tl keys sigs rest fr st Hd Ha Hs Hn Hm H Hr.
  unfold OP_CHECK_MULTISIG. rewrite interp_bind, run_sig_ext_ok.
  unfold read_u8, read, act. cbn [bind].
  assert (Hd0 : data_at fr (sigext_log st) = a :: mb :: nb :: tl) by exact Hd.
  rewrite (read1 orc cfg run fr _ a (mb :: nb :: tl)) by exact Hd0.
  pose proof (data_at_adv1 _ _ _ _ Hd0) as Hd1.
  rewrite (read1 orc cfg run _ _ mb (nb :: tl)) by exact Hd1.
  pose proof (data_at_adv1 _ _ _ _ Hd1) as Hd2.
  rewrite (read1 orc cfg run _ _ nb tl) by exact Hd2.
  rewrite Ha.
  apply (check_multisig_core_at _ _ keys sigs rest); auto.
Qed.

Lemma boolb_xff b : boolb b = [xff] -> b = true.
Proof. destruct b; [reflexivity|discriminate]. Qed.

(* the stack left by [multisig_tail]: the verdict byte on top of [rest] *)
Definition ms_result (sigs keys : list bytes) : bytes := boolb (ms_verdict chk sigs keys).

(* the instruction's verdict under the premise the loop needs: the check behaves at [st] with other stacks *)
Section At.
Variables (n m : nat) (keys sigs rest : list bytes) (st : state).
Hypothesis Hs : st_stack st = keys ++ sigs ++ rest.
Hypothesis Hn : List.length keys = n.
Hypothesis Hm : List.length sigs = m.
Hypothesis Hok : forall s k, In s sigs -> In k keys -> chk_ok_at st rest s k /\ pushable rest s k.
Hypothesis Hr : (List.length rest < c_max_items cfg)%nat /\ (1 <= c_max_item_size cfg)%nat.

Lemma multisig_tail_at fr :
  interp orc cfg run (multisig_tail n m) fr st = Done tt fr (with_stack st (ms_result sigs keys :: rest)).
Proof. exact (check_multisig_core_at n m keys sigs rest fr st Hs Hn Hm Hok Hr). Qed.

(* a pushed xff means: pairwise different signatures, each valid under a different POSITION of the key list *)
Corollary check_multisig_true_sound_at fr fr' st' :
  interp orc cfg run (multisig_tail n m) fr st = Done tt fr' st' ->
  st_stack st' = [xff] :: rest ->
  NoDup sigs /\
  exists ks unused, List.length ks = List.length sigs /\
                    Forall2 (fun s k => chk s k = true) sigs ks /\
                    Permutation keys (ks ++ unused).
Proof.
  rewrite multisig_tail_at. intros Hi Ht.
  injection Hi as _ <-. cbn [st_stack with_stack] in Ht. injection Ht as Ht.
  apply multisig_sound. apply boolb_xff. exact Ht.
Qed.

Corollary check_multisig_true_sigs_le_keys_at fr fr' st' :
  interp orc cfg run (multisig_tail n m) fr st = Done tt fr' st' ->
  st_stack st' = [xff] :: rest ->
  m <= n.
Proof.
  intros Hi Ht. destruct (check_multisig_true_sound_at fr fr' st' Hi Ht) as [_ [ks [unused [Hl [_ P]]]]].
  rewrite <- Hn, <- Hm, (Permutation_length P), app_length. lia.
Qed.

(* a repeated signature makes the instruction push x00 *)
Corollary check_multisig_repeated_sig_false_at fr : ~ NoDup sigs ->
  interp orc cfg run (multisig_tail n m) fr st = Done tt fr (with_stack st ([x00] :: rest)).
Proof.
  intros Hnd. rewrite multisig_tail_at. unfold ms_result.
  rewrite (multisig_repeated_sig_fails chk sigs keys Hnd). reflexivity.
Qed.

Hypothesis excl : forall s k1 k2, In s sigs -> In k1 keys -> In k2 keys ->
                                 chk s k1 = true -> chk s k2 = true -> k1 = k2.
Hypothesis NDs : NoDup sigs.
Hypothesis NDk : NoDup keys.

(* under exclusivity and NoDup, permuting the keys and the signatures on the stack does not change the
   pushed byte *)
Corollary check_multisig_order_invariant_at keys' sigs' fr fr2 st2 :
  st_stack st2 = keys' ++ sigs' ++ rest ->
  (forall s k, In s sigs -> In k keys -> chk_ok_at st2 rest s k /\ pushable rest s k) ->
  Permutation sigs sigs' -> Permutation keys keys' ->
  exists v,
    interp orc cfg run (multisig_tail n m) fr st = Done tt fr (with_stack st (v :: rest)) /\
    interp orc cfg run (multisig_tail n m) fr2 st2 = Done tt fr2 (with_stack st2 (v :: rest)).
Proof.
  intros Hs2 Hok2 Ps Pk. exists (ms_result sigs keys). split; [apply multisig_tail_at|].
  unfold multisig_tail, ms_result.
  rewrite <- (multisig_order_invariant chk sigs keys sigs' keys' excl NDs NDk Ps Pk).
  apply check_multisig_core_at; try assumption.
  - rewrite <- Hn. symmetry. apply Permutation_length. exact Pk.
  - rewrite <- Hm. symmetry. apply Permutation_length. exact Ps.
  - intros s k Hs' Hk'. apply Hok2.
    + apply (Permutation_in _ (Permutation_sym Ps)). exact Hs'.
    + apply (Permutation_in _ (Permutation_sym Pk)). exact Hk'.
Qed.

(* completeness at the instruction level: under the premises of [multisig_complete_strong] the pushed byte is xff *)
Corollary check_multisig_complete_at fr :
  (forall s, In s sigs -> exists k, In k keys /\ chk s k = true) ->
  (forall s1 s2 k, In s1 sigs -> In s2 sigs -> In k keys ->
                   chk s1 k = true -> chk s2 k = true -> s1 = s2) ->
  interp orc cfg run (multisig_tail n m) fr st = Done tt fr (with_stack st ([xff] :: rest)).
Proof.
  intros Hall Hinj. rewrite multisig_tail_at. unfold ms_result.
  rewrite (multisig_complete_strong chk sigs keys NDs Hall Hinj). reflexivity.
Qed.
End At.

End Link.

(* the verdict of the model's signature check for signature s under key k, as a function of oracle and cache *)
Definition real_chk (orc : oracle) (c : cache) (s k : bytes) : bool :=
  match msg_of (sig_flag s) c with
  | Some m => match orc PVerify [k; m; firstn 64 s] with OOk [x] => bytes_to_bool x | _ => false end
  | None => false
  end.

(* well-formed inputs: right lengths, permitted flag, a message that fits on the stack, and an oracle that
   answers with one item; then the check at (any state sharing the cache of) st0 is [real_chk] *)
Theorem chk_ok_at_real : forall orc cfg run allowed st0 rest s k m x,
  (blen k = 32)%Z -> (blen s = 64 \/ blen s = 65)%Z ->
  flags_permitted (sig_flag s) allowed = true ->
  msg_of (sig_flag s) (st_cache st0) = Some m ->
  (List.length m <= c_max_item_size cfg)%nat -> (1 <= c_max_item_size cfg)%nat ->
  (List.length rest < c_max_items cfg)%nat ->
  orc PVerify [k; m; firstn 64 s] = OOk [x] ->
  chk_ok_at orc cfg run allowed (real_chk orc (st_cache st0)) st0 rest s k.
Proof.
  intros orc cfg run allowed st0 rest s k m x Hk Hsl Hf Hm Hml H1 Hr Ho fr.
  rewrite (check_sig_body_exact orc cfg run allowed fr _ k s rest) by reflexivity.
  cbv zeta. cbn [st_cache with_stack]. unfold real_chk.
  rewrite Hk. cbn [Z.eqb Pos.eqb negb].
  replace ((blen s =? 64)%Z || (blen s =? 65)%Z) with true
    by (destruct Hsl as [-> | ->]; reflexivity).
  cbn [negb]. rewrite Hf. cbn [negb]. rewrite Hm.
  replace (c_max_item_size cfg <? List.length m) with false by (symmetry; apply Nat.ltb_ge; lia).
  replace (c_max_items cfg <=? List.length rest) with false by (symmetry; apply Nat.leb_gt; lia).
  cbn [orb]. rewrite Ho.
  replace (c_max_item_size cfg <? 1) with false by (symmetry; apply Nat.ltb_ge; lia).
  unfold boolb. reflexivity.
Qed.

(* end to end: the whole instruction on well-formed operands, with no abstract premise left *)
Theorem check_multisig_real : forall orc cfg run a mb nb tl keys sigs rest fr st,
  data_at fr st = a :: mb :: nb :: tl ->
  st_stack st = keys ++ sigs ++ rest ->
  List.length keys = nat_of (be_to_Z [nb]) -> List.length sigs = nat_of (be_to_Z [mb]) ->
  (forall s k, In s sigs -> In k keys ->
     (blen k = 32)%Z /\ (blen s = 64 \/ blen s = 65)%Z /\
     flags_permitted (sig_flag s) (be_to_Z [a]) = true /\
     exists m x, msg_of (sig_flag s) (st_cache st) = Some m /\
                 (List.length m <= c_max_item_size cfg)%nat /\
                 orc PVerify [k; m; firstn 64 s] = OOk [x]) ->
  (65 <= c_max_item_size cfg)%nat -> (List.length rest + 2 <= c_max_items cfg)%nat ->
  interp orc cfg run OP_CHECK_MULTISIG fr st
  = Done tt (adv (adv (adv fr 1) 1) 1)
         (with_stack (sigext_log cfg st)
                     (boolb (ms_verdict (real_chk orc (st_cache st)) sigs keys) :: rest)).
Proof.
  intros orc cfg run a mb nb tl keys sigs rest fr st Hd Hs Hn Hm H Hsz Hit.
  apply (check_multisig_full_at orc cfg run (be_to_Z [a]) (real_chk orc (st_cache st))
           a mb nb tl keys sigs rest fr st Hd eq_refl Hs Hn Hm); [|lia].
  intros s k Hs' Hk. destruct (H s k Hs' Hk) as [Hk32 [Hsl [Hf [m [x [Hmsg [Hml Ho]]]]]]].
  split.
  - apply (chk_ok_at_real orc cfg run (be_to_Z [a]) (sigext_log cfg st) rest s k m x); auto; lia.
  - unfold pushable, blen in *. lia.
Qed.

Print Assumptions check_multisig_full_at.
Print Assumptions chk_ok_at_real.
Print Assumptions check_multisig_real.
