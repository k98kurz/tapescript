(* Basic facts about lists of bytes and the big-endian conversions of model/Bytes.v. *)
From Coq Require Import ZArith List Bool Lia NArith.
From Coq.Strings Require Import Byte.
From TS Require Import Bytes.
Import ListNotations.

Local Open Scope nat_scope.

Lemma skipn_after {A} (pre tail : list A) : skipn (List.length pre) (pre ++ tail) = tail.
Proof. rewrite skipn_app, Nat.sub_diag, skipn_all. reflexivity. Qed.

Lemma firstn_after {A} (pre tail : list A) : firstn (List.length pre) (pre ++ tail) = pre.
Proof. rewrite firstn_app, Nat.sub_diag, firstn_all. apply app_nil_r. Qed.

Lemma firstn_len_app {A} (a r : list A) n : List.length a = n -> firstn n (a ++ r) = a.
Proof. intros <-. apply firstn_after. Qed.

Lemma skipn_len_app {A} (a r : list A) n : List.length a = n -> skipn n (a ++ r) = r.
Proof. intros <-. apply skipn_after. Qed.

Lemma skipn_add {A} (l : list A) : forall n m, skipn (n + m) l = skipn m (skipn n l).
Proof.
  induction l as [|x l IH]; intros n m.
  - rewrite !skipn_nil. reflexivity.
  - destruct n as [|n]; [reflexivity|]. cbn [Nat.add skipn]. apply IH.
Qed.

(* from the position of a piece to the position behind it *)
Lemma skipn_app_r {A} p (d a r : list A) : skipn p d = a ++ r -> skipn (p + List.length a) d = r.
Proof. intro H. rewrite skipn_add, H. apply skipn_after. Qed.

Lemma skipn_S_of {A} (l : list A) p c tail : skipn p l = c :: tail -> skipn (S p) l = tail.
Proof. intro H. replace (S p) with (p + 1) by lia. exact (skipn_app_r p l [c] tail H). Qed.

Lemma nth_of_skipn {A} (d : A) : forall p (l : list A) c tail,
  skipn p l = c :: tail -> nth p l d = c /\ p < List.length l.
Proof.
  induction p as [|p IH]; intros [|x l] c tail H; try discriminate.
  - injection H as -> _. split; [reflexivity|simpl; lia].
  - cbn [skipn] in H. destruct (IH l c tail H) as [H1 H2]. split; [exact H1|simpl; lia].
Qed.

Lemma skipn_cons_length {A} p (l : list A) c tail : skipn p l = c :: tail -> List.length l = S p + List.length tail.
Proof.
  intro H. pose proof (proj2 (nth_of_skipn c p l c tail H)) as Hlt.
  apply (f_equal (@List.length A)) in H. rewrite skipn_length in H. cbn [List.length] in H. lia.
Qed.

Lemma map2_length f : forall a b, List.length (map2 f a b) = Nat.min (List.length a) (List.length b).
Proof.
  induction a as [|x a IH]; intros [|y b]; cbn [map2 List.length Nat.min]; try reflexivity.
  rewrite IH. reflexivity.
Qed.

Open Scope Z_scope.

Lemma land255 z : Z.land z 255 = z mod 256.
Proof. change 255 with (Z.ones 8). rewrite Z.land_ones by lia. reflexivity. Qed.
Lemma shiftr8 v : Z.shiftr v 8 = v / 256.
Proof. rewrite Z.shiftr_div_pow2 by lia. reflexivity. Qed.
Lemma shiftl8 a : Z.shiftl a 8 = a * 256.
Proof. rewrite Z.shiftl_mul_pow2 by lia. reflexivity. Qed.

Lemma b2z_range : forall b, 0 <= b2z b < 256.
Proof.
  intros b. unfold b2z. pose proof (Byte.to_N_bounded b). lia.
Qed.

Lemma z2b_b2z : forall b, z2b (b2z b) = b.
Proof.
  intros b. unfold z2b. rewrite land255. pose proof (b2z_range b) as H.
  rewrite Z.mod_small by exact H.
  unfold b2z. rewrite N2Z.id. rewrite Byte.of_to_N. reflexivity.
Qed.

Lemma b2z_z2b : forall z, b2z (z2b z) = z mod 256.
Proof.
  intros z. unfold z2b, b2z. rewrite land255.
  assert (Hm : 0 <= z mod 256 < 256) by (apply Z.mod_pos_bound; lia).
  destruct (Byte.of_N (Z.to_N (z mod 256))) as [b|] eqn:E.
  - apply Byte.to_of_N in E. rewrite E. rewrite Z2N.id; lia.
  - apply Byte.of_N_None_iff in E. lia.
Qed.

Lemma b2z_inj : forall a b, b2z a = b2z b -> a = b.
Proof.
  intros a b H. rewrite <- (z2b_b2z a), <- (z2b_b2z b). now rewrite H.
Qed.

Lemma pow256_pos : forall k, 0 <= k -> 0 < 256 ^ k.
Proof. intros. apply Z.pow_pos_nonneg; lia. Qed.

Lemma pow256_2 : forall k, 0 <= k -> 256 ^ k = 2 ^ (8 * k).
Proof.
  intros k Hk. rewrite Z.pow_mul_r by lia. reflexivity.
Qed.

Lemma blen_nonneg : forall l, 0 <= blen l.
Proof. intros. unfold blen. lia. Qed.

Lemma blen_cons : forall x l, blen (x :: l) = blen l + 1.
Proof. intros. unfold blen. simpl List.length. lia. Qed.

Lemma blen_nil : blen [] = 0.
Proof. reflexivity. Qed.

Lemma be_acc_spec : forall l acc, be_acc acc l = acc * 256 ^ blen l + be_to_Z l.
Proof.
  unfold be_to_Z.
  induction l as [|x t IH]; intros acc.
  - simpl be_acc. rewrite blen_nil. rewrite Z.pow_0_r. lia.
  - cbn [be_acc]. rewrite !shiftl8. rewrite IH. rewrite (IH (0 * 256 + b2z x)).
    rewrite blen_cons. rewrite Z.pow_add_r by (pose proof (blen_nonneg t); lia).
    rewrite Z.pow_1_r. ring.
Qed.

Lemma be_to_Z_nil : be_to_Z [] = 0.
Proof. reflexivity. Qed.

Lemma be_to_Z_cons : forall x t, be_to_Z (x :: t) = b2z x * 256 ^ blen t + be_to_Z t.
Proof.
  intros. unfold be_to_Z at 1. cbn [be_acc]. rewrite be_acc_spec. f_equal.
Qed.

Lemma be_to_Z_range : forall l, 0 <= be_to_Z l < 256 ^ blen l.
Proof.
  induction l as [|x t IH].
  - rewrite be_to_Z_nil, blen_nil. rewrite Z.pow_0_r. lia.
  - rewrite be_to_Z_cons, blen_cons.
    rewrite Z.pow_add_r by (pose proof (blen_nonneg t); lia).
    rewrite Z.pow_1_r.
    pose proof (b2z_range x). pose proof (pow256_pos (blen t) (blen_nonneg t)).
    nia.
Qed.

Lemma be_acc_app : forall l1 l2 acc, be_acc acc (l1 ++ l2) = be_acc (be_acc acc l1) l2.
Proof.
  induction l1 as [|x t IH]; intros; simpl; auto.
Qed.

Lemma be_to_Z_snoc : forall l x, be_to_Z (l ++ [x]) = be_to_Z l * 256 + b2z x.
Proof.
  intros. unfold be_to_Z. rewrite be_acc_app. cbn [be_acc]. rewrite shiftl8. reflexivity.
Qed.

Lemma length_Z_to_be : forall len v, List.length (Z_to_be len v) = len.
Proof.
  induction len as [|k IH]; intros v; simpl; auto.
  rewrite app_length, IH. simpl. lia.
Qed.

Lemma blen_Z_to_be : forall len v, blen (Z_to_be len v) = Z.of_nat len.
Proof. intros. unfold blen. now rewrite length_Z_to_be. Qed.

Lemma be_to_Z_Z_to_be : forall len v, be_to_Z (Z_to_be len v) = v mod 256 ^ Z.of_nat len.
Proof.
  induction len as [|k IH]; intros v.
  - simpl. rewrite Z.mod_1_r. reflexivity.
  - simpl Z_to_be. rewrite shiftr8. rewrite be_to_Z_snoc, IH, b2z_z2b.
    rewrite Nat2Z.inj_succ, Z.pow_succ_r by lia.
    rewrite Z.rem_mul_r by (try apply pow256_pos; lia).
    ring.
Qed.

Lemma be_to_Z_inj : forall a b,
  List.length a = List.length b -> be_to_Z a = be_to_Z b -> a = b.
Proof.
  induction a as [|x a IH]; intros [|y b] Hl He; simpl in Hl; try discriminate; auto.
  injection Hl as Hl.
  rewrite !be_to_Z_cons in He.
  assert (Hb : blen a = blen b) by (unfold blen; now rewrite Hl).
  rewrite Hb in He.
  pose proof (be_to_Z_range a) as Ra. rewrite Hb in Ra.
  pose proof (be_to_Z_range b) as Rb.
  pose proof (b2z_range x). pose proof (b2z_range y).
  pose proof (pow256_pos (blen b) (blen_nonneg b)) as HP.
  set (P := 256 ^ blen b) in *.
  assert (b2z x = b2z y) by nia.
  assert (be_to_Z a = be_to_Z b) by nia.
  f_equal; [now apply b2z_inj | now apply IH].
Qed.
