(* The tokenizer (model/Tokenizer.v: parsing.get_symbols) and compile_script as get_symbols followed by
   assemble.  A text is described by its raw tokens and the whitespace between them ([rend]); what
   get_symbols makes of the raw tokens is a relation on token lists ([posts]); so the symbols of a text
   depend on its raw tokens only, and every text whose symbols spell a program compiles to its encoding. *)
From Coq Require Import ZArith List Bool Lia NArith String Ascii.
From Coq.Strings Require Import Byte.
From TS Require Import Bytes Codec Ops Asm AsmProofs Tokenizer Assembler AssemblerProofs.
Import ListNotations.
Open Scope string_scope.
Open Scope list_scope.

(* a raw token: non-empty, without whitespace *)
Definition tokenb (t : string) : bool := nonempty t && sall (fun c => negb (is_ws c)) t.

(* [rend raw text]: text is the raw tokens separated by non-empty runs of whitespace characters
   (blank, \t, \n, \x0b, \x0c, \r, \x1c..\x1f), with optional whitespace before and after *)
Inductive rend : list string -> string -> Prop :=
| rd_nil : forall w, sall is_ws w = true -> rend [] w
| rd_last : forall w t w', sall is_ws w = true -> tokenb t = true -> sall is_ws w' = true ->
    rend [t] (w ++ t ++ w')
| rd_cons : forall w t sep raw rest, sall is_ws w = true -> tokenb t = true ->
    sall is_ws sep = true -> nonempty sep = true -> rend raw rest ->
    rend (t :: raw) (w ++ t ++ sep ++ rest).

Lemma split_py_ws_char : forall c s, is_ws c = true -> split_py (String c s) = split_py s.
Proof.
  intros c s H. unfold split_py. cbn [split_go]. destruct (split_go s) as [w ts]. rewrite H.
  reflexivity.
Qed.
Lemma split_py_ws : forall w s, sall is_ws w = true -> split_py (w ++ s) = split_py s.
Proof.
  induction w as [|c w IH]; intros s H; [reflexivity|]. cbn [sall] in H. apply andb_prop in H as [H1 H2].
  cbn [append]. rewrite split_py_ws_char by exact H1. apply IH. exact H2.
Qed.
Lemma split_py_allws : forall w, sall is_ws w = true -> split_py w = [].
Proof. intros w H. rewrite <- (AsmProofs.append_nil_r w), split_py_ws by exact H. reflexivity. Qed.

(* the text after a token: empty, or starting with a whitespace character *)
Definition breaks (s : string) : Prop := s = "" \/ exists c s', s = String c s' /\ is_ws c = true.

Lemma split_go_break : forall s, breaks s -> fst (split_go s) = "".
Proof.
  intros s [->|(c & s' & -> & H)]; [reflexivity|]. cbn [split_go]. destruct (split_go s'). rewrite H. reflexivity.
Qed.
Lemma split_go_tok : forall t s, sall (fun c => negb (is_ws c)) t = true ->
  split_go (t ++ s) = ((t ++ fst (split_go s))%string, snd (split_go s)).
Proof.
  induction t as [|c t IH]; intros s H.
  - cbn [append]. destruct (split_go s); reflexivity.
  - cbn [sall] in H. apply andb_prop in H as [H1 H2]. apply negb_true_iff in H1.
    cbn [append split_go]. rewrite (IH s H2). rewrite H1. reflexivity.
Qed.
Lemma split_py_tok : forall t s, tokenb t = true -> breaks s -> split_py (t ++ s) = t :: split_py s.
Proof.
  intros t s H B. unfold tokenb in H. apply andb_prop in H as [N H]. unfold split_py.
  rewrite (split_go_tok t s H). pose proof (split_go_break s B) as E. destruct (split_go s) as [w ts].
  cbn [fst snd] in *. subst w. rewrite AsmProofs.append_nil_r. destruct t; [discriminate N|reflexivity].
Qed.

Lemma breaks_ws : forall w s, sall is_ws w = true -> nonempty w = true -> breaks (w ++ s).
Proof.
  intros [|c w] s H N; [discriminate N|]. cbn [sall] in H. apply andb_prop in H as [H _].
  right. exists c, (w ++ s)%string. split; [reflexivity|exact H].
Qed.
Lemma breaks_allws : forall w, sall is_ws w = true -> breaks w.
Proof.
  intros [|c w] H; [left; reflexivity|]. cbn [sall] in H. apply andb_prop in H as [H _].
  right. exists c, w. split; [reflexivity|exact H].
Qed.

Theorem split_rend : forall raw text, rend raw text -> split_py text = raw.
Proof.
  induction 1 as [w H|w t w' H T H'|w t sep raw rest H T Hs Ns R IH].
  - apply split_py_allws. exact H.
  - rewrite split_py_ws by exact H. rewrite split_py_tok by (try assumption; apply breaks_allws; exact H').
    rewrite split_py_allws by exact H'. reflexivity.
  - rewrite split_py_ws by exact H. rewrite split_py_tok by (try assumption; apply breaks_ws; assumption).
    rewrite split_py_ws by exact Hs. rewrite IH. reflexivity.
Qed.

(* ' '.join(parts) *)
Definition join_from (acc : string) (l : list string) : string :=
  fold_left (fun a t => (a ++ String " " t)%string) l acc.
Definition join_sp (l : list string) : string :=
  match l with [] => "" | t :: r => join_from t r end.

(* an ordinary token: not the start of a string value, not @=... / !=..., not "s" alone *)
Definition plain_tok (t : string) : Prop :=
  str_start t = None /\ takes_next t = false /\ String.eqb t "s" = false.

(* the effect of the loop on the raw tokens *)
Inductive posts : list string -> list string -> Prop :=
| ps_nil : posts [] []
| ps_tok : forall t raw syms, plain_tok t -> posts raw syms -> posts (t :: raw) (norm_token t :: syms)
| ps_next : forall t x raw syms, str_start t = None -> takes_next t = true -> posts raw syms ->
    posts (t :: x :: raw) (t :: x :: syms)
| ps_str1 : forall t q raw syms, str_start t = Some q -> has_char q (sdrop 3 t) = true ->
    posts raw syms -> posts (t :: raw) (t :: syms)
| ps_strn : forall t q mids last raw syms, str_start t = Some q -> has_char q (sdrop 3 t) = false ->
    Forall (fun m => has_char q m = false) mids -> has_char q last = true -> posts raw syms ->
    posts (t :: mids ++ last :: raw) (join_sp (t :: mids ++ [last]) :: syms).

Lemma gs_instr : forall q mids last raw acc,
  Forall (fun m => has_char q m = false) mids -> has_char q last = true ->
  gs_loop (GInStr q acc) (mids ++ last :: raw) =
  rbind (gs_loop GNormal raw) (fun l => Ok (join_from acc (mids ++ [last]) :: l)).
Proof.
  induction mids as [|m mids IH]; intros last raw acc F H.
  - cbn [app gs_loop]. rewrite H. reflexivity.
  - inversion F as [|m' mids' Hm Fm]; subst. cbn [app gs_loop]. rewrite Hm. rewrite (IH last raw _ Fm H).
    reflexivity.
Qed.

Theorem gs_posts : forall raw syms, posts raw syms -> gs_loop GNormal raw = Ok syms.
Proof.
  induction 1 as [|t raw syms (A & B & C) P IH|t x raw syms A B P IH|t q raw syms A B P IH
                  |t q mids last raw syms A B F L P IH].
  - reflexivity.
  - cbn [gs_loop]. rewrite A, B. unfold ordinary. rewrite C. cbn [rbind]. rewrite IH. reflexivity.
  - cbn [gs_loop]. rewrite A, B, IH. reflexivity.
  - cbn [gs_loop]. rewrite A, B, IH. reflexivity.
  - cbn [gs_loop]. rewrite A, B. rewrite (gs_instr q mids last raw t F L), IH. reflexivity.
Qed.

Theorem tokenise : forall raw syms text,
  rend raw text -> all_ascii text = true -> posts raw syms -> get_symbols text = Ok syms.
Proof.
  intros raw syms text R A P. unfold get_symbols. rewrite A, (split_rend raw text R). apply gs_posts. exact P.
Qed.

Theorem whitespace_irrelevant : forall raw text1 text2,
  rend raw text1 -> rend raw text2 -> all_ascii text1 = true -> all_ascii text2 = true ->
  get_symbols text1 = get_symbols text2 /\
  forall fl2 ct, compile_text fl2 ct text1 = compile_text fl2 ct text2.
Proof.
  intros raw t1 t2 R1 R2 A1 A2.
  assert (E : get_symbols t1 = get_symbols t2).
  { unfold get_symbols. rewrite A1, A2, (split_rend raw t1 R1), (split_rend raw t2 R2). reflexivity. }
  split; [exact E|]. intros fl2 ct. unfold compile_text. rewrite E. reflexivity.
Qed.

Lemma not_valuelike_plain : forall n t, not_valuelike n = true -> upper_s t = n -> plain_tok t.
Proof.
  intros n t K E. subst n. destruct t as [|c r].
  { repeat split. }
  unfold upper_s in K. cbn [smap not_valuelike] in K. fold (upper_s r) in K.
  repeat (apply andb_prop in K as [K ?]).
  repeat match goal with H : negb _ = true |- _ => apply negb_true_iff in H end.
  assert (Cs : Ascii.eqb c "s" = true -> r <> "" /\
               match r with String q _ => Ascii.eqb q dquote || Ascii.eqb q squote = false | _ => True end).
  { intros Q. apply Ascii.eqb_eq in Q. subst c.
    match goal with H : Ascii.eqb (upper_c "s") "S" && _ = false |- _ => rename H into HS end.
    change (Ascii.eqb (upper_c "s") "S") with true in HS. cbn [andb] in HS.
    destruct r as [|q r']; [discriminate HS|]. split; [discriminate|].
    unfold upper_s in HS. cbn [smap] in HS.
    destruct (Ascii.eqb q dquote || Ascii.eqb q squote) eqn:Q2; [|reflexivity]. exfalso.
    assert (upper_c q = q) as Uq.
    { apply orb_prop in Q2 as [Q2|Q2]; apply Ascii.eqb_eq in Q2; subst q; reflexivity. }
    rewrite Uq, Q2 in HS. discriminate HS. }
  repeat split.
  - (* str_start *)
    unfold str_start. destruct r as [|q r']; [reflexivity|].
    destruct (Ascii.eqb c "s") eqn:Q; [|reflexivity]. destruct (Cs eq_refl) as [_ Q2]. rewrite Q2. reflexivity.
  - (* takes_next *)
    unfold takes_next, is_prefix. cbn [prefix].
    destruct (ascii_dec "@" c) as [<-|_].
    { match goal with H : Ascii.eqb (upper_c "@") "@" = false |- _ => discriminate H end. }
    destruct (ascii_dec "!" c) as [<-|_]; [|reflexivity].
    match goal with H : Ascii.eqb (upper_c "!") "!" = false |- _ => discriminate H end.
  - (* not "s" *)
    cbn [String.eqb]. destruct (Ascii.eqb c "s") eqn:Q; [|reflexivity].
    destruct (Cs eq_refl) as [N _]. destruct r; [congruence|reflexivity].
Qed.

(* any letter-casing of a name (opcode names with and without OP_, aliases, NOPn, PUSH, TRY, the
   braces and parentheses, ELSE, END_IF, END_DEF, END_LOOP, EXCEPT, END_EXCEPT) *)
Theorem posts_name : forall n t raw syms, In n all_names -> upper_s t = n -> posts raw syms ->
  posts (t :: raw) (n :: syms).
Proof.
  intros n t raw syms I E P. rewrite <- (names_case_insensitive n t I E). apply ps_tok; [|exact P].
  apply (not_valuelike_plain n t); [|exact E]. apply (proj1 (forallb_forall _ _) names_not_valuelike n I).
Qed.

Definition stable_tok (t : string) : Prop := plain_tok t /\ norm_token t = t.
Theorem posts_stable : forall t raw syms, stable_tok t -> posts raw syms -> posts (t :: raw) (t :: syms).
Proof. intros t raw syms [A B] P. rewrite <- B at 2. apply ps_tok; assumption. Qed.

(* d + digits, x + hexadecimal digits (either case): unchanged *)
Lemma stable_d : forall r, isnumeric r = true -> stable_tok (String "d" r).
Proof.
  intros r H. split; [|unfold norm_token; change (Ascii.eqb "d" "d") with true; cbv iota; rewrite H; reflexivity].
  repeat split; try reflexivity. cbn [String.eqb]. destruct r; [discriminate H|reflexivity].
Qed.
Lemma stable_x : forall r, is_hex_s r = true -> stable_tok (String "x" r).
Proof.
  intros r H. split.
  - repeat split; destruct r; reflexivity.
  - unfold norm_token. change (Ascii.eqb "x" "d") with false. change (Ascii.eqb "x" "x") with true. cbv iota.
    rewrite H. reflexivity.
Qed.
Lemma prefix2 : forall a b c e k,
  is_prefix (String a (String b "")) (String c (String e k)) = Ascii.eqb a c && Ascii.eqb b e.
Proof.
  intros a b c e k. unfold is_prefix. cbn [prefix].
  destruct (ascii_dec a c) as [->|N].
  - rewrite Ascii.eqb_refl. destruct (ascii_dec b e) as [->|N2].
    + rewrite Ascii.eqb_refl. destruct k; reflexivity.
    + apply Ascii.eqb_neq in N2. rewrite N2. reflexivity.
  - apply Ascii.eqb_neq in N. rewrite N. reflexivity.
Qed.
Lemma prefix2_short : forall a b c, is_prefix (String a (String b "")) (String c "") = false.
Proof. intros. unfold is_prefix. cbn [prefix]. destruct (ascii_dec a c); reflexivity. Qed.

(* @k, @#k and !m (not starting with @= or !=): unchanged *)
Lemma stable_at : forall c k, c = "@"%char \/ c = "!"%char ->
  match k with String e _ => Ascii.eqb e "=" = false | EmptyString => True end ->
  stable_tok (String c k).
Proof.
  intros c k C K. split.
  - repeat split.
    + destruct C as [->| ->]; destruct k; reflexivity.
    + unfold takes_next. destruct k as [|e k'].
      * rewrite !prefix2_short. reflexivity.
      * rewrite !prefix2. rewrite (Ascii.eqb_sym "=" e), K, !andb_false_r. reflexivity.
    + destruct C as [->| ->]; reflexivity.
  - destruct C as [->| ->]; reflexivity.
Qed.
(* a token in upper case whose first character is not s d x ! @ (e.g. D-1, X0A, 12, OP_TRUE): unchanged *)
Lemma stable_upper : forall c r, upper_s (String c r) = String c r ->
  Ascii.eqb c "s" = false -> Ascii.eqb c "d" = false -> Ascii.eqb c "x" = false ->
  Ascii.eqb c "!" = false -> Ascii.eqb c "@" = false -> stable_tok (String c r).
Proof.
  intros c r U S D X B A. split.
  - repeat split.
    + unfold str_start. destruct r; [reflexivity|]. rewrite S. reflexivity.
    + unfold takes_next, is_prefix. cbn [prefix].
      destruct (ascii_dec "@" c) as [<-|_]; [discriminate A|].
      destruct (ascii_dec "!" c) as [<-|_]; [discriminate B|]. reflexivity.
    + cbn [String.eqb]. rewrite S. reflexivity.
  - unfold norm_token. rewrite D, X, S, B, A. cbn [orb]. exact U.
Qed.

Theorem compile_spells : forall fl2 ct p syms raw text,
  spells fl2 p syms -> wf_prog p = true ->
  posts raw syms -> rend raw text -> all_ascii text = true ->
  compile_text fl2 ct text = Ok (encode p).
Proof.
  intros fl2 ct p syms raw text S W P R A. unfold compile_text.
  rewrite (tokenise raw syms text R A P). cbn [rbind]. apply assemble_r_spells; assumption.
Qed.

Section Comments.
  Variable fl2 : Z -> Z.
  Variable ct : bytes -> res (option bytes).

  (* top-level statements and comments: a comment is one of the three symbols # / single quote /
     double quote, then symbols other than that one, then the same symbol again *)
  Inductive tops : list instr -> list string -> Prop :=
  | tp_nil : tops [] []
  | tp_stmt : forall is ss p sp, stmt fl2 Top (hd_or None sp) is ss -> tops p sp ->
      tops (is ++ p) (ss ++ sp)
  | tp_comment : forall q body p sp, is_comment q = true -> mem q body = false ->
      existsb bad_symbol body = false -> tops p sp -> tops p (q :: body ++ q :: sp).

  Lemma hd_error_hd_or : forall l : list string, hd_error l = hd_or None l.
  Proof. destruct l; reflexivity. Qed.

  (* a spelled run of statements, then more statements and comments *)
  Lemma seq_tops_app : forall nx p1 s1, seq fl2 Top nx p1 s1 ->
    forall p2 rest, tops p2 rest -> hd_error rest = nx -> tops (p1 ++ p2) (s1 ++ rest).
  Proof.
    intros nx p1 s1 S. remember Top as c eqn:Ec.
    induction S as [|c nx is ss p sp St _ IH]; intros p2 rest T E; [exact T|]. subst c.
    rewrite <- !app_assoc. apply tp_stmt; [|exact (IH eq_refl p2 rest T E)].
    rewrite <- hd_error_hd_or, (hd_error_app sp rest nx E). exact St.
  Qed.

  Lemma spells_tops : forall p syms, spells fl2 p syms -> tops p syms.
  Proof.
    intros p syms S. rewrite <- (app_nil_r p), <- (app_nil_r syms).
    exact (seq_tops_app None p syms S [] [] tp_nil eq_refl).
  Qed.

  Lemma tops_steps : forall p syms, tops p syms -> wf_prog p = true ->
    existsb bad_symbol syms = false /\
    forall m F, (List.length syms <= F)%nat ->
    steps bytes (fun n _ => asm_loop (pn_at fl2 ct F m) n) (@app byte) always syms [] (encode p) (List.length syms).
  Proof.
    induction 1 as [|is ss p sp S T IH|q body p sp Q M U T IH]; intros W.
    - split; [reflexivity|]. intros m F _. apply steps_nil.
    - rewrite wf_prog_app in W. apply andb_prop in W as [W1 W2].
      destruct (IH W2) as [U2 R2]. split.
      + destruct (good_stmt fl2 _ _ _ _ S W1) as (_ & _ & U1 & _). rewrite existsb_app, U1, U2. reflexivity.
      + intros m F LF. rewrite app_length in *. rewrite encode_app. apply steps_cons; [|apply R2; lia].
        apply (stmt_turn fl2 ct m F _ _ _ Top _ _ _ _ (asm_hands_over _) ltac:(discriminate) S W1); [lia|].
        apply hd_error_hd_or.
    - destruct (IH W) as [U2 R2]. split.
      + cbn [existsb]. rewrite (proj2 (comment_head q Q)), existsb_app, U. cbn [existsb orb].
        rewrite (proj2 (comment_head q Q)), U2. reflexivity.
      + intros m F LF. replace (q :: body ++ q :: sp) with ((q :: body ++ [q]) ++ sp) in *
          by (cbn [app]; rewrite <- app_assoc; reflexivity).
        rewrite app_length in *. destruct F as [|F]; [cbn [List.length] in LF; lia|].
        apply (steps_cons (q :: body ++ [q]) (code := []) (code' := encode p)); [|apply R2; lia].
        apply (comment_turn fl2 ct m F _ _ _ q body sp (asm_hands_over _) Q M).
  Qed.

  Theorem assemble_tops : forall p syms, tops p syms -> wf_prog p = true ->
    assemble_r fl2 ct syms = Ok (encode p).
  Proof.
    intros p syms T W. destruct (tops_steps p syms T W) as [U R].
    rewrite (assemble_r_comptime fl2 ct syms (bad_unmodelled syms U)), comptime_id by (try exact U; apply le_n).
    cbn [rbind]. apply (asm_steps_end (R [] (2 * List.length syms + 1)%nat ltac:(lia))). apply le_n.
  Qed.

  (* comments do not change the result: removing them from a commented program gives a text (a
     symbol list) with the same code *)
  Theorem compile_tops : forall p syms raw text, tops p syms -> wf_prog p = true ->
    posts raw syms -> rend raw text -> all_ascii text = true ->
    compile_text fl2 ct text = Ok (encode p).
  Proof.
    intros p syms raw text T W P R A. unfold compile_text.
    rewrite (tokenise raw syms text R A P). cbn [rbind]. apply assemble_tops; assumption.
  Qed.

  Corollary comment_between : forall p1 s1 p2 s2 q body,
    seq fl2 Top (Some q) p1 s1 -> tops p2 s2 -> wf_prog p1 = true -> wf_prog p2 = true ->
    is_comment q = true -> mem q body = false -> existsb bad_symbol body = false ->
    assemble_r fl2 ct (s1 ++ q :: body ++ q :: s2) = Ok (encode (p1 ++ p2)).
  Proof.
    intros p1 s1 p2 s2 q body S T W1 W2 Q M U. apply assemble_tops.
    - apply (seq_tops_app (Some q) p1 s1 S); [|reflexivity]. apply tp_comment; assumption.
    - rewrite wf_prog_app, W1, W2. reflexivity.
  Qed.
End Comments.

(* the same statements on the text's own tokens: no rendering is needed, so they apply to a concrete
   text by computation *)
Theorem tokenise_split : forall text syms, all_ascii text = true -> posts (split_py text) syms ->
  get_symbols text = Ok syms.
Proof. intros text syms A P. unfold get_symbols. rewrite A. apply gs_posts. exact P. Qed.

Theorem compile_tops_split : forall fl2 ct p syms text, tops fl2 p syms -> wf_prog p = true ->
  all_ascii text = true -> posts (split_py text) syms -> compile_text fl2 ct text = Ok (encode p).
Proof.
  intros fl2 ct p syms text T W A P. unfold compile_text. rewrite (tokenise_split text syms A P). cbn [rbind].
  apply assemble_tops; assumption.
Qed.

(* the example source of AssemblerProofs, in mixed case, over several lines, with a comment:
     If ( tRue ) {<newline><tab>push d1 }<newline>else { PUSH x0102 }  # set and load #  @= k 1 @k<newline> *)
Definition nl : string := String (ascii_of_nat 10) "".
Definition tab : string := String (ascii_of_nat 9) "".
Definition example_text : string :=
  "If ( tRue ) {" ++ nl ++ tab ++ "push d1 }" ++ nl ++ "else { PUSH x0102 }  # set and load #  @= k 1 @k" ++ nl.

Lemma in_names : forall n, mem n all_names = true -> In n all_names.
Proof. intros n H. apply mem_In. exact H. Qed.

Example example_text_compiles : compile_text fl2_exact ct0 example_text = Ok (encode example_prog).
Proof.
  apply (compile_tops_split fl2_exact ct0 example_prog
           ["IF"; "("; "TRUE"; ")"; "{"; "PUSH"; "d1"; "}"; "ELSE"; "{"; "PUSH"; "x0102"; "}";
            "#"; "SET"; "AND"; "LOAD"; "#"; "@="; "k"; "1"; "@k"]).
  - (* the symbols: the if statement, a comment, the rest *)
    change example_prog with
      ([IOp0 O_TRUE; IIfElse [IOp1 O_PUSH0 x01] [IVar1 O_PUSH1 [x01; x02]]] ++
       [IWriteCache (str "k") x01; IVar1 O_READ_CACHE (str "k")]).
    apply (seq_tops_app fl2_exact (Some "#")
             [IOp0 O_TRUE; IIfElse [IOp1 O_PUSH0 x01] [IVar1 O_PUSH1 [x01; x02]]]
             ["IF"; "("; "TRUE"; ")"; "{"; "PUSH"; "d1"; "}"; "ELSE"; "{"; "PUSH"; "x0102"; "}"]);
      [| |reflexivity].
    + apply (sq_cons fl2_exact Top (Some "#") [IOp0 O_TRUE; IIfElse [IOp1 O_PUSH0 x01] [IVar1 O_PUSH1 [x01; x02]]]
               ["IF"; "("; "TRUE"; ")"; "{"; "PUSH"; "d1"; "}"; "ELSE"; "{"; "PUSH"; "x0102"; "}"] [] []);
        [|apply sq_nil].
      apply example_if.
    + apply (tp_comment fl2_exact "#" ["SET"; "AND"; "LOAD"]); try reflexivity.
      apply (tp_stmt fl2_exact [IWriteCache (str "k") x01] ["@="; "k"; "1"] [IVar1 O_READ_CACHE (str "k")] ["@k"]).
      * apply st_setvar; [reflexivity|]. apply (num_dec 1%Z). discriminate.
      * apply (tp_stmt fl2_exact [IVar1 O_READ_CACHE (str "k")] ["@k"] [] []); [|apply tp_nil].
        apply st_loadvar. reflexivity.
  - reflexivity.
  - reflexivity.
  - (* the tokens of the text and their post-processing *)
    change (split_py example_text) with
      ["If"; "("; "tRue"; ")"; "{"; "push"; "d1"; "}"; "else"; "{"; "PUSH"; "x0102"; "}";
       "#"; "set"; "and"; "load"; "#"; "@="; "k"; "1"; "@k"].
    apply posts_name; [apply in_names; reflexivity|reflexivity|].
    apply posts_name; [apply in_names; reflexivity|reflexivity|].
    apply posts_name; [apply in_names; reflexivity|reflexivity|].
    apply posts_name; [apply in_names; reflexivity|reflexivity|].
    apply posts_name; [apply in_names; reflexivity|reflexivity|].
    apply posts_name; [apply in_names; reflexivity|reflexivity|].
    apply posts_stable; [apply stable_d; reflexivity|].
    apply posts_name; [apply in_names; reflexivity|reflexivity|].
    apply posts_name; [apply in_names; reflexivity|reflexivity|].
    apply posts_name; [apply in_names; reflexivity|reflexivity|].
    apply posts_name; [apply in_names; reflexivity|reflexivity|].
    apply posts_stable; [apply stable_x; reflexivity|].
    apply posts_name; [apply in_names; reflexivity|reflexivity|].
    apply posts_stable; [apply stable_upper; reflexivity|].
    apply (ps_tok "set"); [repeat split|]. apply (ps_tok "and"); [repeat split|].
    apply (ps_tok "load"); [repeat split|].
    apply posts_stable; [apply stable_upper; reflexivity|].
    apply ps_next; [reflexivity|reflexivity|].
    apply posts_stable; [apply stable_upper; reflexivity|].
    apply posts_stable; [apply stable_at; [left; reflexivity|reflexivity]|].
    apply ps_nil.
Qed.

(* a string value written over several blanks and a tab: one symbol, with single spaces (oddity T2) *)
Example example_string_value :
  get_symbols ("push  s""a  " ++ tab ++ " b""  true") = Ok ["PUSH"; "s""a b"""; "TRUE"].
Proof.
  apply tokenise_split; [reflexivity|].
  change (split_py ("push  s""a  " ++ tab ++ " b""  true")) with (["push"] ++ "s""a" :: [] ++ "b""" :: ["true"]).
  cbn [app]. apply posts_name; [apply in_names; reflexivity|reflexivity|].
  apply (ps_strn "s""a" dquote [] "b""" ["true"] ["TRUE"]); try reflexivity; [apply Forall_nil|].
  apply posts_name; [apply in_names; reflexivity|reflexivity|apply ps_nil].
Qed.

(* oddity T1: the empty string value cannot be written *)
Example empty_string_value_unterminated :
  get_symbols "push s"""" true" = Err /\ get_symbols "push s"""" x"" true" = Ok ["PUSH"; "s"""" x"""; "TRUE"].
Proof. split; vm_compute; reflexivity. Qed.

(* invoke_macro compiles ' '.join(src): symbols that are whitespace-free, ASCII and left unchanged
   by get_symbols come back as they are *)
Lemma rend_join : forall l, Forall (fun t => tokenb t = true) l -> rend l (join_spaces l).
Proof.
  induction l as [|t l IH]; intros F; [apply (rd_nil ""); reflexivity|].
  inversion F as [|t' l' Ht Fl]; subst. destruct l as [|u l].
  - cbn [join_spaces]. rewrite <- (AsmProofs.append_nil_r t) at 2.
    apply (rd_last "" t ""); [reflexivity|exact Ht|reflexivity].
  - change (join_spaces (t :: u :: l)) with ("" ++ t ++ " " ++ join_spaces (u :: l))%string.
    apply rd_cons; try reflexivity; [exact Ht|]. apply IH. exact Fl.
Qed.
Lemma all_ascii_app : forall a b, all_ascii (a ++ b)%string = all_ascii a && all_ascii b.
Proof. intros. apply sall_app. Qed.
Lemma all_ascii_join_spaces : forall l, Forall (fun t => all_ascii t = true) l -> all_ascii (join_spaces l) = true.
Proof.
  induction l as [|t l IH]; intros F; [reflexivity|]. inversion F as [|t' l' Ht Fl]; subst.
  destruct l as [|u l]; [exact Ht|].
  change (join_spaces (t :: u :: l)) with (t ++ String " " (join_spaces (u :: l)))%string.
  rewrite all_ascii_app, Ht. cbn [all_ascii sall]. fold (all_ascii (join_spaces (u :: l))). rewrite IH by exact Fl. reflexivity.
Qed.
Lemma posts_all_stable : forall l, Forall stable_tok l -> posts l l.
Proof. induction 1; [apply ps_nil|apply posts_stable; assumption]. Qed.

Theorem retokenise_stable : forall l,
  Forall (fun t => tokenb t = true /\ all_ascii t = true /\ stable_tok t) l ->
  get_symbols (join_spaces l) = Ok l.
Proof.
  intros l F. apply (tokenise l l).
  - apply rend_join. revert F. apply Forall_impl. intros t H. apply H.
  - apply all_ascii_join_spaces. revert F. apply Forall_impl. intros t H. apply H.
  - apply posts_all_stable. revert F. apply Forall_impl. intros t H. apply H.
Qed.

Print Assumptions split_rend.
Print Assumptions gs_posts.
Print Assumptions tokenise.
Print Assumptions whitespace_irrelevant.
Print Assumptions posts_name.
Print Assumptions compile_spells.
Print Assumptions assemble_tops.
Print Assumptions compile_tops.
Print Assumptions comment_between.
Print Assumptions compile_tops_split.
Print Assumptions example_text_compiles.
Print Assumptions example_string_value.
Print Assumptions retokenise_stable.
