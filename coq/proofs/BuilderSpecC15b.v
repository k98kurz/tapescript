(* C15 (second HTLC layout): make_htlc2_sha256_lock / make_htlc2_shake256_lock with make_htlc2_witness —
   the authorisation verdict, exactly, at the level of the bytes the builders emit (Builders.v).
   The two keys are committed by their SHAKE256-k hashes (hr, hf); the witness supplies the key:
     witness:  PUSH1 sig ; PUSH1 key ; PUSH1 preimage          (tools.py make_htlc2_witness: sig, pubkey, preimage)
     lock:     first ; PUSH1 digest ; EQUAL ;
               IF_ELSE { DUP ; SHAKE256 k ; PUSH1 hr }
                       { PUSH1 c ; CHECK_TIMESTAMP_VERIFY ; DUP ; SHAKE256 k ; PUSH1 hf } ;
               EQUAL_VERIFY ; CHECK_SIG fl
   with first = SHA256, k = 20 (sha256 form) or first = SHAKE256 n, k = n (shake256 form).
   OP_IF_ELSE on its sub-tape is that of BuilderSpecC15; new here: the two arms with DUP ; SHAKE256 k ; PUSH1,
   and the EQUAL_VERIFY between the IF_ELSE and the CHECK_SIG.  The two forms differ in the first instruction
   only, so both theorems are instances of one (htlc2_exact) that takes its code and what it does. *)
From Coq Require Import ZArith List Bool Lia.
From Coq.Strings Require Import Byte String.
From TS Require Import Bytes State Prog Ops Interp StateLemmas StackLemmas BytesLemmas TapeLemmas SigSpec
  AuthSpec TimeSpec Asm Builders BuilderSpec BuilderSpecC15 TablesCheck.
Import ListNotations.
Local Open Scope nat_scope.

(* 1d = DUP, 1f = SHAKE256, 03 = PUSH1, 26 = CHECK_TIMESTAMP_VERIFY, 22 = EQUAL_VERIFY, 23 = CHECK_SIG,
   1e = SHA256, 21 = EQUAL, 2c = IF_ELSE *)
Definition claim2_arm (k : byte) (hr : bytes) : bytes := x1d :: x1f :: k :: push1_bytes hr.
Definition refund2_arm (k : byte) (c hf : bytes) : bytes :=
  push1_bytes c ++ x26 :: x1d :: x1f :: k :: push1_bytes hf.

Definition htlc2_witness (sig key preimage : bytes) : bytes := encode [P1 sig; P1 key; P1 preimage].

Lemma arms2_encoding k hr c hf :
  encode [IIfElse [IOp0 O_DUP; IOp1 O_SHAKE256 k; P1 hr]
                  [P1 c; IOp0 O_CHECK_TIMESTAMP_VERIFY; IOp0 O_DUP; IOp1 O_SHAKE256 k; P1 hf]] =
    x2c :: ifelse_ops (claim2_arm k hr) (refund2_arm k c hf).
Proof.
  unfold encode, P1, ifelse_ops, claim2_arm, refund2_arm, push1_bytes, len1.
  cbn [flat_map encode1]. rewrite !app_nil_r.
  change (opcode_byte O_IF_ELSE) with x2c. change (opcode_byte O_PUSH1) with x03.
  change (opcode_byte O_CHECK_TIMESTAMP_VERIFY) with x26.
  change (opcode_byte O_DUP) with x1d. change (opcode_byte O_SHAKE256) with x1f.
  cbn [app]. rewrite <- ?app_assoc. cbn [app]. reflexivity.
Qed.

Lemma htlc2_lock_split first k digest hr c hf fl :
  htlc2_lock first k digest hr c hf fl =
    (encode1 first ++ push1_bytes digest ++ [x21]) ++
    x2c :: ifelse_ops (claim2_arm k hr) (refund2_arm k c hf) ++ [x22; x23; fl].
Proof.
  unfold htlc2_lock.
  set (A := [IOp0 O_DUP; IOp1 O_SHAKE256 k; P1 hr]).
  set (B := [P1 c; IOp0 O_CHECK_TIMESTAMP_VERIFY; IOp0 O_DUP; IOp1 O_SHAKE256 k; P1 hf]).
  unfold encode. cbn [flat_map]. rewrite app_nil_r.
  pose proof (arms2_encoding k hr c hf) as E. unfold encode in E. cbn [flat_map] in E.
  rewrite app_nil_r in E. fold A B in E. rewrite E.
  change (encode1 (P1 digest)) with (push1_bytes digest).
  change (encode1 (IOp0 O_EQUAL)) with [x21]. change (encode1 (IOp0 O_EQUAL_VERIFY)) with [x22].
  change (encode1 (IOp1 O_CHECK_SIG fl)) with [x23; fl].
  rewrite <- !app_assoc. reflexivity.
Qed.

Lemma htlc2_witness_bytes sig key pre : htlc2_witness sig key pre = pushes_bytes [sig; key; pre].
Proof. reflexivity. Qed.

Section Run2.
Variable orc : oracle.
Variable cfg : config.

Notation at_ tid p := {| fr_tid := tid; fr_ptr := p |}.

(* DUP ; SHAKE256 k ; PUSH1 hx  closing a tape: the key on top of the stack is kept, its hash and the
   committed hash are pushed over it; an answer of the oracle above the item-size limit is refused by the stack *)
Lemma dup_shake_push_run f tid p st data k hx key s hk :
  tdata st tid = data -> skipn p data = x1d :: x1f :: k :: push1_bytes hx ->
  List.length hx < 256 -> st_stack st = key :: s ->
  fits cfg key -> fits cfg hx -> List.length s + 3 <= c_max_items cfg ->
  orc PShake256 [key; [k]] = OOk [hk] ->
  run_tape orc cfg (S (S (S (S f)))) tid p st =
    if c_max_item_size cfg <? List.length hk
    then Raised ScriptExecutionError (at_ tid (p + 3)) (with_stack st (key :: s))
    else Done tt (at_ tid (p + 3 + List.length (push1_bytes hx))) (with_stack st (hx :: hk :: key :: s)).
Proof.
  intros Hd Hp Lx Hs Fk Fx Hsp Ho.
  rewrite (runs1_at (dup_runs orc cfg tid st key s Hs Fk ltac:(lia)) Hd (Hp : _ = [x1d] ++ _)).
  pose proof (skipn_app_r p data [x1d] _ Hp) as Hp1.
  rewrite (shake_step orc cfg _ tid _ (with_stack st (key :: key :: s)) data _ k key (key :: s) Hd Hp1 eq_refl)
    by (unfold space; simpl; lia).
  rewrite Ho. destruct (c_max_item_size cfg <? List.length hk).
  { f_equal. f_equal. cbn [List.length]. lia. }
  rewrite (runs_end (push1_runs orc cfg tid (with_stack st (hk :: key :: s)) hx (hk :: key :: s) Lx eq_refl Fx
                       ltac:(unfold space; simpl; lia))
             Hd (skipn_app_r _ data [x1f; k] _ Hp1 : skipn (p + List.length [x1d] + 2) data = _)) by lia.
  f_equal. f_equal. cbn [List.length push1_bytes]. lia.
Qed.

(* the claim arm: DUP ; SHAKE256 k ; PUSH1 hr *)
Lemma claim2_arm_run f tid st k hr key s hk :
  tdata st tid = claim2_arm k hr ->
  List.length hr < 256 -> st_stack st = key :: s ->
  fits cfg key -> fits cfg hr -> List.length s + 3 <= c_max_items cfg ->
  orc PShake256 [key; [k]] = OOk [hk] ->
  run_tape orc cfg (S (S (S (S f)))) tid 0 st =
    if c_max_item_size cfg <? List.length hk
    then Raised ScriptExecutionError {| fr_tid := tid; fr_ptr := 3 |} (with_stack st (key :: s))
    else Done tt {| fr_tid := tid; fr_ptr := List.length (claim2_arm k hr) |}
              (with_stack st (hr :: hk :: key :: s)).
Proof.
  intros Hd Lx Hs Fk Fx Hsp Ho.
  exact (dup_shake_push_run f tid 0 st _ k hr key s hk Hd eq_refl Lx Hs Fk Fx Hsp Ho).
Qed.

(* the refund arm: PUSH1 c ; CHECK_TIMESTAMP_VERIFY ; DUP ; SHAKE256 k ; PUSH1 hf *)
Lemma refund2_arm_run f tid st k c hf key s hk ts thr :
  tdata st tid = refund2_arm k c hf ->
  0 < List.length c < 256 -> List.length hf < 256 -> st_stack st = key :: s ->
  fits cfg c -> fits cfg key -> fits cfg hf ->
  List.length s + 3 <= c_max_items cfg ->
  cache_get (st_cache st) ts_key = Some (VOne (AInt ts)) ->
  flag_get (c_flags cfg) thr_key = Some (FVInt thr) ->
  orc PShake256 [key; [k]] = OOk [hk] ->
  run_tape orc cfg (S (S (S (S (S (S f)))))) tid 0 st =
    if ts_verdict cfg (be_to_Z c) ts thr
    then if c_max_item_size cfg <? List.length hk
         then Raised ScriptExecutionError {| fr_tid := tid; fr_ptr := 6 + List.length c |}
                     (with_stack st (key :: s))
         else Done tt {| fr_tid := tid; fr_ptr := List.length (refund2_arm k c hf) |}
                   (with_stack st (hf :: hk :: key :: s))
    else Raised ScriptExecutionError {| fr_tid := tid; fr_ptr := 3 + List.length c |}
              (with_stack st (key :: s)).
Proof.
  intros Hd Hc Lf Hs Fc Fk Ff Hsp Hts Hthr Ho.
  assert (Hp : skipn 0 (refund2_arm k c hf) = push1_bytes c ++ x26 :: x1d :: x1f :: k :: push1_bytes hf)
    by reflexivity.
  rewrite (push1_check_timestamp_verify_step orc cfg _ tid 0 st _ _ c (key :: s) ts thr Hd Hp Hc Hs Fc
             ltac:(unfold space; simpl; lia) Hts Hthr).
  destruct (ts_verdict cfg (be_to_Z c) ts thr); [|reflexivity].
  rewrite (dup_shake_push_run f tid _ (with_stack st (key :: s)) _ k hf key s hk Hd
             (skipn_app_r _ _ [x26] _ (skipn_app_r 0 _ _ _ Hp) : skipn (0 + List.length (push1_bytes c) + 1) _ = _)
             Lf eq_refl Fk Ff Hsp Ho).
  destruct (c_max_item_size cfg <? List.length hk); f_equal; f_equal; unfold refund2_arm;
    rewrite ?app_length; cbn [List.length push1_bytes]; lia.
Qed.

End Run2.

Section B2.
Variable orc : oracle.
Variable cfg : config.
Hypothesis Hsize : 65 <= c_max_item_size cfg.
Hypothesis Hitems : 4 <= c_max_items cfg.

Lemma arms2_small k hr c hf :
  List.length hr < 256 -> List.length hf < 256 -> List.length c <= 255 ->
  (blen (claim2_arm k hr) < 65536)%Z /\ (blen (refund2_arm k c hf) < 65536)%Z.
Proof.
  intros H1 H2 H3. unfold blen, claim2_arm, refund2_arm, push1_bytes.
  rewrite app_length. cbn [List.length]. lia.
Qed.

(* EQUAL_VERIFY ; CHECK_SIG fl  closing a tape, on a stack [a; b; pk; sig] *)
Lemma eqv_check_sig_last f tid p st data fl a b pk sig c0 :
  tdata st tid = data -> skipn p data = [x22; x23; fl] ->
  st_stack st = [a; b; pk; sig] -> List.length pk = 32 -> (List.length sig = 64 \/ List.length sig = 65) ->
  msg_of (sig_flag sig) (st_cache st) = msg_of (sig_flag sig) c0 ->
  outcome_spec (b = a /\ sig_accepts orc cfg pk sig (b2z fl) c0) (b = a /\ bad_arity orc pk sig c0)
    (run_tape orc cfg (S (S (S f))) tid p st).
Proof using Hsize Hitems.
  intros Hd Hp Hs Hpk Hsig Hm.
  rewrite (equal_verify_step orc cfg _ tid p st data _ a b [pk; sig] Hd Hp Hs) by (unfold room; simpl; lia).
  destruct (bytes_eqb a b) eqn:E.
  - apply bytes_eqb_eq in E. subst b.
    apply (outcome_spec_iff (sig_accepts orc cfg pk sig (b2z fl) c0) _ (BuilderSpec.bad_arity orc pk sig c0) _);
      [tauto|intro H; exact (conj eq_refl H)|].
    apply (check_sig_last orc cfg f tid (p + 1) (with_stack st [pk; sig]) data fl pk sig c0 Hd
             (skipn_app_r p data [x22] _ Hp) eq_refl Hpk Hsig);
      [unfold room; simpl; lia|exact Hm].
  - intros [Heq _]. subst b. rewrite bytes_eqb_refl in E. discriminate.
Qed.

(* IF_ELSE ... ; EQUAL_VERIFY ; CHECK_SIG fl   closing a tape, run on a stack [cond; key; sig] *)
Lemma lock2_tail f tid p st data cond key sig k hr c hf fl hk ts thr c0 :
  tdata st tid = data ->
  skipn p data = x2c :: ifelse_ops (claim2_arm k hr) (refund2_arm k c hf) ++ [x22; x23; fl] ->
  tid < List.length (st_tapes st) ->
  st_stack st = [cond; key; sig] ->
  cache_get (st_cache st) returned_key = None ->
  msg_of (sig_flag sig) (st_cache st) = msg_of (sig_flag sig) c0 ->
  List.length key = 32 -> (List.length sig = 64 \/ List.length sig = 65) ->
  List.length hr < 256 -> fits cfg hr -> List.length hf < 256 -> fits cfg hf ->
  0 < List.length c <= 255 -> fits cfg c ->
  orc PShake256 [key; [k]] = OOk [hk] ->
  cache_get (st_cache st) ts_key = Some (VOne (AInt ts)) ->
  flag_get (c_flags cfg) thr_key = Some (FVInt thr) ->
  outcome_spec
    (if bytes_to_bool cond then hk = hr /\ sig_accepts orc cfg key sig (b2z fl) c0
     else ts_verdict cfg (be_to_Z c) ts thr = true /\ hk = hf /\ sig_accepts orc cfg key sig (b2z fl) c0)
    (if bytes_to_bool cond then hk = hr /\ bad_arity orc key sig c0
     else ts_verdict cfg (be_to_Z c) ts thr = true /\ hk = hf /\ bad_arity orc key sig c0)
    (run_tape orc cfg (S (S (S (S (S (S (S f))))))) tid p st).
Proof using Hsize Hitems.
  intros Hd Hp Hlt Hs Hret Hm Lk Lsig L1 F1 L2 F2 L3 Fc Ho Hts Hthr.
  assert (Fk : fits cfg key) by (unfold fits; lia).
  destruct (arms2_small k hr c hf L1 L2 ltac:(lia)) as [S1 S2].
  pose proof (skipn_app_r p data (x2c :: ifelse_ops (claim2_arm k hr) (refund2_arm k c hf)) _ Hp) as Hp'.
  (* the lock tape is tape tid of the state an arm leaves as well *)
  assert (Hd' : forall body stk, tdata (with_stack (sub_start (with_stack st [key; sig]) tid body) stk) tid = data).
  { intros body stk. rewrite <- Hd. exact (tdata_sub_old (with_stack st [key; sig]) tid body tid Hlt). }
  (* what the IF_ELSE does, by the outcome of its arm *)
  pose proof (fun f0 e fr' st' =>
                if_else_raised orc cfg f0 tid p st data _ _ _ cond [key; sig] e fr' st' Hd Hp S1 S2 Hs) as Hraised.
  pose proof (fun f0 fr' st' =>
                if_else_done orc cfg f0 tid p st data _ _ _ cond [key; sig] fr' st' Hd Hp S1 S2 Hs) as Hdone.
  destruct (bytes_to_bool cond).
  - pose proof (claim2_arm_run orc cfg (S (S f)) _ _ k hr key [sig] hk
                  (tdata_sub_new (with_stack st [key; sig]) tid (claim2_arm k hr)) L1 eq_refl Fk F1
                  ltac:(simpl; lia) Ho) as Harm.
    destruct (c_max_item_size cfg <? List.length hk) eqn:Eh.
    + rewrite (Hraised _ _ _ _ Harm). intros [Heq _]. subst hk. apply Nat.ltb_lt in Eh. unfold fits in F1. lia.
    + rewrite (Hdone _ _ _ Harm Hret).
      exact (eqv_check_sig_last _ tid _ _ data fl hr hk key sig c0 (Hd' _ _) Hp' eq_refl Lk Lsig Hm).
  - pose proof (refund2_arm_run orc cfg f _ _ k c hf key [sig] hk ts thr
                  (tdata_sub_new (with_stack st [key; sig]) tid (refund2_arm k c hf)) ltac:(lia) L2 eq_refl Fc Fk F2
                  ltac:(simpl; lia) Hts Hthr Ho) as Harm.
    destruct (ts_verdict cfg (be_to_Z c) ts thr).
    2:{ rewrite (Hraised _ _ _ _ Harm). intros [H _]. discriminate. }
    destruct (c_max_item_size cfg <? List.length hk) eqn:Eh.
    + rewrite (Hraised _ _ _ _ Harm). intros (_ & Heq & _). subst hk. apply Nat.ltb_lt in Eh. unfold fits in F2. lia.
    + rewrite (Hdone _ _ _ Harm Hret).
      apply (outcome_spec_iff (hk = hf /\ sig_accepts orc cfg key sig (b2z fl) c0) _
               (hk = hf /\ bad_arity orc key sig c0) _); [tauto|tauto|].
      exact (eqv_check_sig_last _ tid _ _ data fl hf hk key sig c0 (Hd' _ _) Hp' eq_refl Lk Lsig Hm).
Qed.

End B2.

Section C15b.
Variable orc : oracle.
Variable cfg : config.
Hypothesis Hsize : 65 <= c_max_item_size cfg.
Hypothesis Hitems : 4 <= c_max_items cfg.

(* The two locks differ in their first instruction only: [first] is its code, and what it has to do is to
   replace the preimage on top of the stack by its hash h. *)
Lemma htlc2_exact fuel (first : bytes) k (digest hr c hf sig key preimage h hk : bytes) fl vals ts thr :
  10 <= fuel ->
  List.length key = 32 -> (List.length sig = 64 \/ List.length sig = 65) ->
  List.length hr < 256 -> List.length hr <= c_max_item_size cfg ->
  List.length hf < 256 -> List.length hf <= c_max_item_size cfg ->
  2 <= List.length c <= 255 -> List.length c <= c_max_item_size cfg ->
  List.length digest < 256 -> List.length digest <= c_max_item_size cfg ->
  List.length preimage < 256 -> List.length preimage <= c_max_item_size cfg ->
  (forall tid st, st_stack st = [preimage; key; sig] ->
                  runs orc cfg 1 tid first st (with_stack st [h; key; sig])) ->
  orc PShake256 [key; [k]] = OOk [hk] ->
  cache_get (init_cache cfg vals) ts_key = Some (VOne (AInt ts)) ->
  flag_get (c_flags cfg) thr_key = Some (FVInt thr) ->
  let c0 := init_cache cfg vals in
  verdict_spec
    (run_auth_scripts orc cfg fuel
       [htlc2_witness sig key preimage;
        (first ++ push1_bytes digest ++ [x21]) ++
        x2c :: ifelse_ops (claim2_arm k hr) (refund2_arm k c hf) ++ [x22; x23; fl]] vals)
    ((h = digest /\ hk = hr /\ sig_accepts orc cfg key sig (b2z fl) c0) \/
     (h <> digest /\ ts_verdict cfg (be_to_Z c) ts thr = true /\ hk = hf /\
      sig_accepts orc cfg key sig (b2z fl) c0))
    ((h = digest /\ hk = hr /\ bad_arity orc key sig c0) \/
     (h <> digest /\ ts_verdict cfg (be_to_Z c) ts thr = true /\ hk = hf /\ bad_arity orc key sig c0)).
Proof using Hsize Hitems.
  intros Hfuel Lk Lsig L1 F1 L2 F2 L3 Fc Ld Fd Lp Fp Hfirst Hok Hts Hthr c0.
  replace fuel with (10 + (fuel - 10)) by lia.
  set (f := fuel - 10).
  set (lock := (first ++ push1_bytes digest ++ [x21]) ++ _).
  rewrite htlc2_witness_bytes.
  assert (Hv : forall v, In v [sig; key; preimage] -> List.length v < 256 /\ fits cfg v).
  { unfold fits. intros v [<-|[<-|[<-|[]]]]; lia. }
  erewrite auth_two;
    [|exact (pushes_witness_runs orc cfg (10 + f) [sig; key; preimage] vals ltac:(simpl; lia) ltac:(simpl; lia) Hv)].
  cbn [rev app].
  set (st1 := with_stack (init_state _ _ _) _).
  pose proof (next_start_tdata st1 0 lock) as Hd.
  pose proof (next_start_msg st1 0 lock (sig_flag sig)) as Hm.
  pose proof (next_start_lt st1 0 lock) as Hlt.
  pose proof (eq_trans (next_start_ts st1 0 lock) Hts) as Hts2.
  pose proof (next_start_returned st1 0 lock) as Hret.
  set (tid := fst (next_start st1 0 lock)) in *. set (st2 := snd (next_start st1 0 lock)) in *.
  (* first ; PUSH1 digest ; EQUAL *)
  assert (Hhead : runs orc cfg (1 + (1 + 1)) tid (first ++ push1_bytes digest ++ [x21]) st2
                    (with_stack st2 [boolb (bytes_eqb digest h); key; sig])).
  { apply (runs_app (st1 := with_stack st2 [h; key; sig])); [exact (Hfirst tid st2 eq_refl)|].
    apply (runs_app (st1 := with_stack st2 [digest; h; key; sig])).
    - apply (push1_runs orc cfg tid (with_stack st2 [h; key; sig]) digest [h; key; sig] Ld eq_refl Fd).
      unfold space. simpl. lia.
    - apply (equal_runs orc cfg tid (with_stack st2 [digest; h; key; sig]) digest h [key; sig] eq_refl).
      unfold room. simpl. lia. }
  assert (Hp : skipn 0 lock = (first ++ push1_bytes digest ++ [x21]) ++
                 x2c :: ifelse_ops (claim2_arm k hr) (refund2_arm k c hf) ++ [x22; x23; fl]) by reflexivity.
  erewrite (runs_at Hhead Hd Hp) by reflexivity.
  eapply verdict_spec_iff; [apply by_digest|apply by_digest|].
  apply finish_spec.
  apply (lock2_tail orc cfg Hsize Hitems f tid _ (with_stack st2 [boolb (bytes_eqb digest h); key; sig]) lock _
           key sig k hr c hf fl hk ts thr c0 Hd (skipn_app_r 0 _ _ _ Hp) Hlt eq_refl Hret Hm Lk Lsig L1 F1 L2 F2
           ltac:(lia) Fc Hok Hts2 Hthr).
Qed.

(* HTLC, keys committed by hash, sha256 hash lock:
      witness PUSH1 sig ; PUSH1 key ; PUSH1 preimage *)
Theorem htlc2_sha256_exact fuel digest hr c hf sig key preimage h hk fl vals ts thr :
  10 <= fuel ->
  List.length key = 32 -> (List.length sig = 64 \/ List.length sig = 65) ->
  List.length hr < 256 -> List.length hr <= c_max_item_size cfg ->
  List.length hf < 256 -> List.length hf <= c_max_item_size cfg ->
  2 <= List.length c <= 255 -> List.length c <= c_max_item_size cfg ->
  List.length digest = 32 -> List.length h = 32 ->
  List.length preimage < 256 -> List.length preimage <= c_max_item_size cfg ->
  orc PSha256 [preimage] = OOk [h] ->
  orc PShake256 [key; [x14]] = OOk [hk] ->
  cache_get (init_cache cfg vals) ts_key = Some (VOne (AInt ts)) ->
  flag_get (c_flags cfg) thr_key = Some (FVInt thr) ->
  let c0 := init_cache cfg vals in
  verdict_spec
    (run_auth_scripts orc cfg fuel [htlc2_witness sig key preimage; htlc2_sha256_lock digest hr c hf fl] vals)
    ((h = digest /\ hk = hr /\ sig_accepts orc cfg key sig (b2z fl) c0) \/
     (h <> digest /\ ts_verdict cfg (be_to_Z c) ts thr = true /\ hk = hf /\
      sig_accepts orc cfg key sig (b2z fl) c0))
    ((h = digest /\ hk = hr /\ bad_arity orc key sig c0) \/
     (h <> digest /\ ts_verdict cfg (be_to_Z c) ts thr = true /\ hk = hf /\ bad_arity orc key sig c0)).
Proof.
  intros Hfuel Lk Lsig L1 F1 L2 F2 L3 Fc Ld Lh Lp Fp Ho Hok Hts Hthr.
  unfold htlc2_sha256_lock. rewrite htlc2_lock_split.
  apply (htlc2_exact fuel [x1e] x14 digest hr c hf sig key preimage h hk fl vals ts thr); try assumption; try lia.
  intros tid st Hs. apply (sha256_runs orc cfg tid st preimage h [key; sig] Hs Ho); unfold fits, space; simpl; lia.
Qed.

(* HTLC, keys committed by hash, shake256 hash lock (digest size n, also the size of the key hashes) *)
Theorem htlc2_shake256_exact fuel n digest hr c hf sig key preimage h hk fl vals ts thr :
  10 <= fuel ->
  List.length key = 32 -> (List.length sig = 64 \/ List.length sig = 65) ->
  List.length hr < 256 -> List.length hr <= c_max_item_size cfg ->
  List.length hf < 256 -> List.length hf <= c_max_item_size cfg ->
  2 <= List.length c <= 255 -> List.length c <= c_max_item_size cfg ->
  List.length digest < 256 -> List.length digest <= c_max_item_size cfg ->
  List.length h <= c_max_item_size cfg ->
  List.length preimage < 256 -> List.length preimage <= c_max_item_size cfg ->
  orc PShake256 [preimage; [n]] = OOk [h] ->
  orc PShake256 [key; [n]] = OOk [hk] ->
  cache_get (init_cache cfg vals) ts_key = Some (VOne (AInt ts)) ->
  flag_get (c_flags cfg) thr_key = Some (FVInt thr) ->
  let c0 := init_cache cfg vals in
  verdict_spec
    (run_auth_scripts orc cfg fuel [htlc2_witness sig key preimage; htlc2_shake256_lock n digest hr c hf fl] vals)
    ((h = digest /\ hk = hr /\ sig_accepts orc cfg key sig (b2z fl) c0) \/
     (h <> digest /\ ts_verdict cfg (be_to_Z c) ts thr = true /\ hk = hf /\
      sig_accepts orc cfg key sig (b2z fl) c0))
    ((h = digest /\ hk = hr /\ bad_arity orc key sig c0) \/
     (h <> digest /\ ts_verdict cfg (be_to_Z c) ts thr = true /\ hk = hf /\ bad_arity orc key sig c0)).
Proof.
  intros Hfuel Lk Lsig L1 F1 L2 F2 L3 Fc Ld Fd Fh0 Lp Fp Ho Hok Hts Hthr.
  unfold htlc2_shake256_lock. rewrite htlc2_lock_split.
  apply (htlc2_exact fuel [x1f; n] n digest hr c hf sig key preimage h hk fl vals ts thr); try assumption.
  intros tid st Hs. apply (shake_runs orc cfg tid st n preimage h [key; sig] Hs Ho Fh0). unfold space. simpl. lia.
Qed.

End C15b.

(* non-vacuity: a toy oracle, the default configuration, concrete bytes *)
Module Toy2.
  (* "verification" accepts iff key and signature start with the same byte; "hashes" repeat the first byte *)
  Definition orc : oracle := fun p args =>
    match p, args with
    | PVerify, [pk; _; s] => OOk [[if Byte.eqb (hd x00 pk) (hd x00 s) then x01 else x00]]
    | PSha256, [d] => OOk [repeat (hd x00 d) 32]
    | PShake256, [d; [n]] => OOk [repeat (hd x00 d) (Z.to_nat (b2z n))]
    | _, _ => OErr OtherError
    end.
  Definition cfg : config := default_config 1000.
  Definition vals : cache := [(KStr (str "sigfield1"), VOne (ABytes [x42]))].
  Definition RCV : bytes := repeat x01 32.
  Definition REF : bytes := repeat x02 32.
  Definition HR : bytes := repeat x01 20.       (* "shake256(RCV, 20)" *)
  Definition HF : bytes := repeat x02 20.       (* "shake256(REF, 20)" *)
  Definition SIG_RCV : bytes := repeat x01 64.
  Definition SIG_REF : bytes := repeat x02 64.
  Definition C_PAST : bytes := [x03; x84].      (* 900  <= 1000 *)
  Definition C_FUTURE : bytes := [x07; xd0].    (* 2000 >  1000 *)
  Definition DIGEST : bytes := repeat xaa 32.
  Definition DIGEST20 : bytes := repeat xaa 20.
  Definition verdict (r : auth_result) : option bool :=
    match r with AuthVerdict b _ => Some b | _ => None end.
End Toy2.
Import Toy2.

(* the premises of the theorems hold at the toy data *)
Example htlc2_premises_satisfiable :
  65 <= c_max_item_size cfg /\ 4 <= c_max_items cfg /\
  cache_get (init_cache cfg vals) ts_key = Some (VOne (AInt 1000)) /\
  flag_get (c_flags cfg) thr_key = Some (FVInt 60) /\
  orc PSha256 [[xaa; x01]] = OOk [DIGEST] /\ orc PShake256 [[xaa; x01]; [x14]] = OOk [DIGEST20] /\
  orc PShake256 [RCV; [x14]] = OOk [HR] /\ orc PShake256 [REF; [x14]] = OOk [HF] /\
  ts_verdict cfg (be_to_Z C_PAST) 1000 60 = true /\ ts_verdict cfg (be_to_Z C_FUTURE) 1000 60 = false /\
  sig_accepts orc cfg RCV SIG_RCV 0 (init_cache cfg vals) /\
  sig_accepts orc cfg REF SIG_REF 0 (init_cache cfg vals).
Proof.
  repeat split; try (vm_compute; reflexivity); try (apply Nat.leb_le; vm_compute; reflexivity).
  - exists [x42], [x01]. repeat split; try (vm_compute; reflexivity). apply Nat.leb_le. vm_compute. reflexivity.
  - exists [x42], [x01]. repeat split; try (vm_compute; reflexivity). apply Nat.leb_le. vm_compute. reflexivity.
Qed.

(* the verdicts computed by the model on the concrete bytes *)
Example htlc2_computed :
  (* claim path: right preimage, receiver's key and signature *)
  verdict (run_auth_scripts orc cfg 10
             [htlc2_witness SIG_RCV RCV [xaa; x01]; htlc2_sha256_lock DIGEST HR C_FUTURE HF x00] vals) = Some true /\
  (* right preimage, refund key: its hash is not the committed one *)
  verdict (run_auth_scripts orc cfg 10
             [htlc2_witness SIG_REF REF [xaa; x01]; htlc2_sha256_lock DIGEST HR C_PAST HF x00] vals) = Some false /\
  (* wrong preimage: refund arm, after / before the timeout, and with the receiver's key *)
  verdict (run_auth_scripts orc cfg 10
             [htlc2_witness SIG_REF REF [xbb; x01]; htlc2_sha256_lock DIGEST HR C_PAST HF x00] vals) = Some true /\
  verdict (run_auth_scripts orc cfg 10
             [htlc2_witness SIG_REF REF [xbb; x01]; htlc2_sha256_lock DIGEST HR C_FUTURE HF x00] vals) = Some false /\
  verdict (run_auth_scripts orc cfg 10
             [htlc2_witness SIG_RCV RCV [xbb; x01]; htlc2_sha256_lock DIGEST HR C_PAST HF x00] vals) = Some false /\
  (* right key, signature of the other key *)
  verdict (run_auth_scripts orc cfg 10
             [htlc2_witness SIG_REF RCV [xaa; x01]; htlc2_sha256_lock DIGEST HR C_FUTURE HF x00] vals) = Some false /\
  (* shake256 form, 20-byte digests *)
  verdict (run_auth_scripts orc cfg 10
             [htlc2_witness SIG_RCV RCV [xaa; x01]; htlc2_shake256_lock x14 DIGEST20 HR C_FUTURE HF x00] vals) = Some true /\
  verdict (run_auth_scripts orc cfg 10
             [htlc2_witness SIG_REF REF [xbb; x01]; htlc2_shake256_lock x14 DIGEST20 HR C_PAST HF x00] vals) = Some true /\
  verdict (run_auth_scripts orc cfg 10
             [htlc2_witness SIG_REF REF [xbb; x01]; htlc2_shake256_lock x14 DIGEST20 HR C_FUTURE HF x00] vals) = Some false /\
  (* 9 units of fuel are not enough for the refund path (the bound 10 of the theorems is tight) *)
  run_auth_scripts orc cfg 9
    [htlc2_witness SIG_REF REF [xbb; x01]; htlc2_sha256_lock DIGEST HR C_PAST HF x00] vals = AuthFuel.
Proof. vm_compute. repeat split; reflexivity. Qed.

(* the theorem instantiated at the toy data (claim path): every premise is discharged by computation, and
   the right-hand side holds, so the verdict is True *)
Example htlc2_sha256_claim_instance :
  exists st, run_auth_scripts orc cfg 10
               [htlc2_witness SIG_RCV RCV [xaa; x01]; htlc2_sha256_lock DIGEST HR C_FUTURE HF x00] vals
             = AuthVerdict true st.
Proof.
  eassert (T : verdict_spec
                 (run_auth_scripts orc cfg 10
                    [htlc2_witness SIG_RCV RCV [xaa; x01]; htlc2_sha256_lock DIGEST HR C_FUTURE HF x00] vals) _ _).
  { apply (htlc2_sha256_exact orc cfg) with (h := DIGEST) (hk := HR) (ts := 1000%Z) (thr := 60%Z);
      try (vm_compute; reflexivity); try (apply Nat.leb_le; vm_compute; reflexivity).
    - left. reflexivity.
    - split; apply Nat.leb_le; vm_compute; reflexivity. }
  cbv zeta in T.
  destruct (run_auth_scripts orc cfg 10 _ vals) as [b st| |w] eqn:E.
  - exists st. f_equal. apply T. left. split; [reflexivity|]. split; [reflexivity|].
    destruct htlc2_premises_satisfiable as (_ & _ & _ & _ & _ & _ & _ & _ & _ & _ & Hacc & _). exact Hacc.
  - contradiction.
  - vm_compute in E. discriminate E.
Qed.

Print Assumptions htlc2_sha256_exact.
Print Assumptions htlc2_shake256_exact.
Print Assumptions lock2_tail.
Print Assumptions htlc2_computed.
Print Assumptions htlc2_sha256_claim_instance.
