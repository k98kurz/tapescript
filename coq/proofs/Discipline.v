(* The discipline of the control flag 'returned' (OP_RETURN).

   OP_RETURN moves the pointer to the end of its tape and sets cache['returned'].  IF / IF_ELSE /
   TRY_EXCEPT propagate the flag to the enclosing tape, CALL / LOOP clear it, EVAL clears or
   propagates.  A STALE flag (still set when a later instruction starts) would make the next
   IF / TRY body end its script although no RETURN ran in it.  This file proves the invariant
   that excludes it:

   (D) in a run started with the flag clear, whenever an instruction is about to be fetched the
       flag is clear, every raise happens in a state where the flag is clear, and a sub-tape or
       script that ends normally ends either with the flag clear or with its pointer at the end
       of its tape. *)
From Coq Require Import ZArith List Bool Lia.
From Coq.Strings Require Import Byte String.
From TS Require Import Bytes State Prog Ops Interp StateLemmas Closure Pointer InterpLemmas Within.
Import ListNotations.
Local Open Scope nat_scope.

Definition flag_clear (st : state) : Prop := cache_get (st_cache st) returned_key = None.

Definition at_end (fr : frame) (st : state) : Prop :=
  fr_ptr fr = List.length (to_data (nth_tape st (fr_tid fr))).

Inductive mode :=
| M0    (* flag clear *)
| ME    (* flag clear, pointer at end *)
| M1    (* just back from a sub-tape: flag unknown *)
| M1S   (* flag known to be set *)
| M2.   (* pointer at end; flag may be set *)

Definition sem (m : mode) (fr : frame) (st : state) : Prop :=
  match m with
  | M0 => flag_clear st
  | ME => flag_clear st /\ at_end fr st
  | M1 => True
  | M1S => ~ flag_clear st
  | M2 => at_end fr st
  end.

Definition quiet (m : mode) : Prop := m = M0 \/ m = ME.        (* a raise is allowed only here *)
Definition final (m : mode) : Prop := m = M0 \/ m = ME \/ m = M2.

Definition act_ok {X} (a : action X) (m : mode) (Q : X -> mode -> Prop) : Prop :=
  match a in action X return (X -> mode -> Prop) -> Prop with
  | AReturnedTest => fun Q =>
      match m with
      | M0 | ME => Q false m
      | M1 => Q true M1S /\ Q false M0
      | M1S => Q true M1S
      | M2 => forall b, Q b M2
      end
  | AReturnedClear => fun Q => Q tt M0
  | ASetPtrEnd => fun Q => match m with M0 | ME => Q tt ME | _ => Q tt M2 end
  | AReturnedSet => fun Q => (m = ME \/ m = M2) /\ Q tt M2
  | ACallDef _ | ARunSub _ _ | ARunLoop _ => fun Q => quiet m /\ Q tt M1
  | ATrySub _ => fun Q => quiet m /\ Q None M1 /\ forall e, Q (Some e) M0
  | _ => fun Q => quiet m /\ forall x, Q x M0
  end Q.

Fixpoint disc {A} (p : prog A) (m : mode) (post : A -> mode -> Prop) : Prop :=
  match p with
  | Ret a => post a m
  | Raise _ => quiet m
  | Unmod _ => True
  | Act a k => act_ok a m (fun x m' => disc (k x) m' post)
  end.

Lemma act_ok_mono X (a : action X) m (P Q : X -> mode -> Prop) :
  (forall x m', P x m' -> Q x m') -> act_ok a m P -> act_ok a m Q.
Proof.
  (* only AReturnedTest and ASetPtrEnd look at the mode *)
  intros H. destruct a; cbn [act_ok]; intuition auto; destruct m; intuition auto.
Qed.

Lemma disc_mono A (p : prog A) : forall m (P Q : A -> mode -> Prop),
  (forall a m', P a m' -> Q a m') -> disc p m P -> disc p m Q.
Proof.
  induction p as [a|e|w|X a k IH]; intros m P Q HPQ H; cbn [disc] in *; auto.
  eapply act_ok_mono; [|exact H]. cbv beta. intros x m' Hx. eapply IH; eauto.
Qed.

Lemma disc_bind A B (p : prog A) (f : A -> prog B) : forall m (Q1 : A -> mode -> Prop) (Q2 : B -> mode -> Prop),
  disc p m Q1 -> (forall a m', Q1 a m' -> disc (f a) m' Q2) -> disc (bind p f) m Q2.
Proof.
  induction p as [a|e|w|X a k IH]; intros m Q1 Q2 H Hf; cbn [disc bind] in *; auto.
  eapply act_ok_mono; [|exact H]. cbv beta. intros x m' Hx. eapply IH; eauto.
Qed.

Lemma quiet_clear m fr st : quiet m -> sem m fr st -> flag_clear st.
Proof. intros [->| ->]; simpl; intuition. Qed.

Lemma quiet_final m : quiet m -> final m.
Proof. unfold quiet, final. intuition. Qed.

(* what is assumed of the function that runs sub-tapes *)
Definition run_ok (run : nat -> state -> outcome unit) : Prop :=
  forall tid s, flag_clear s ->
    match run tid s with
    | Raised _ _ s' => flag_clear s'
    | _ => True
    end.

Section Sound.
Variable orc : oracle.
Variable cfg : config.
Variable run : nat -> state -> outcome unit.
Hypothesis Hrun : run_ok run.

(* back from a sub-tape that started with the flag clear: the flag is unknown; a raise left it clear *)
Lemma after_run_M1 (Q : unit -> mode -> Prop) fr t s :
  flag_clear s -> Q tt M1 ->
  match after_run fr (run t s) with
  | SOk x fr' st' => exists m', Q x m' /\ sem m' fr' st'
  | SRaise _ _ st' => flag_clear st'
  | _ => True
  end.
Proof.
  intros Hc HQ. pose proof (Hrun t s Hc) as Hr. destruct (run t s); try exact I; [|exact Hr].
  exists M1. split; [exact HQ|exact I].
Qed.

Lemma step_sound X (a : action X) m (Q : X -> mode -> Prop) fr st :
  act_ok a m Q -> sem m fr st ->
  match step orc cfg run a fr st with
  | SOk x fr' st' => exists m', Q x m' /\ sem m' fr' st'
  | SRaise _ _ st' => flag_clear st'
  | _ => True
  end.
Proof.
  intros H Hs.
  destruct a; cbn [act_ok] in H;
    try (destruct H as [Hq HQ]; pose proof (quiet_clear _ _ _ Hq Hs) as Hc); simpl;
    try solve [exists M0; split; [apply HQ|exact Hc]].
  - (* AGet *) destruct (st_stack st); [exact Hc|]. exists M0. split; [apply HQ|exact Hc].
  - (* APut *)
    destruct (_ <? _); [exact Hc|]. destruct (_ <=? _); [exact Hc|].
    exists M0. split; [apply HQ|exact Hc].
  - (* APeek *) destruct (st_stack st); [exact Hc|]. exists M0. split; [apply HQ|exact Hc].
  - (* ASwapIdx *) destruct (_ && _); [|exact I]. exists M0. split; [apply HQ|exact Hc].
  - (* ARead *) destruct (_ <? _); [exact Hc|]. exists M0. split; [apply HQ|exact Hc].
  - (* ASetPtrEnd *)
    destruct m; simpl in Hs.
    + exists ME. split; [exact H|]. split; [exact Hs|reflexivity].
    + exists ME. split; [exact H|]. split; [apply Hs|reflexivity].
    + exists M2. split; [exact H|reflexivity].
    + exists M2. split; [exact H|reflexivity].
    + exists M2. split; [exact H|reflexivity].
  - (* ACacheSet: a bytes key never is the flag key *)
    exists M0. split; [apply HQ|].
    change (cache_get (cache_set (st_cache st) (KBytes k) v) returned_key = None).
    rewrite cache_get_set_other by reflexivity. exact Hc.
  - (* AReturnedSet *)
    destruct H as [Hm HQ]. exists M2. split; [exact HQ|].
    change (at_end fr st). destruct Hm as [->| ->]; simpl in Hs; apply Hs.
  - (* AReturnedClear: deleting the flag clears it *)
    exists M0. split; [exact H|]. apply cache_get_del_same.
  - (* AReturnedTest *)
    destruct m; simpl in Hs.
    + unfold flag_clear in Hs. rewrite Hs. exists M0. split; [exact H|exact Hs].
    + destruct Hs as [Hs He]. unfold flag_clear in Hs. rewrite Hs. exists ME. split; [exact H|]. split; assumption.
    + destruct H as [Ht Hf]. destruct (cache_get (st_cache st) returned_key) eqn:E.
      * exists M1S. split; [exact Ht|]. simpl. unfold flag_clear. rewrite E. discriminate.
      * exists M0. split; [exact Hf|exact E].
    + destruct (cache_get (st_cache st) returned_key) eqn:E.
      * exists M1S. split; [exact H|]. simpl. unfold flag_clear. rewrite E. discriminate.
      * exfalso. apply Hs. exact E.
    + exists M2. split; [apply H|exact Hs].
  - (* ACallDef *) apply after_run_M1; assumption.
  - (* ARunSub *) apply after_run_M1; assumption.
  - (* ATrySub *)
    match goal with |- context [run ?t ?s] => pose proof (Hrun t s Hc) as Hr; destruct (run t s) end;
      try exact I.
    + exists M1. split; [apply HQ|exact I].
    + exists M0. split; [apply HQ|exact Hr].
  - (* ARunLoop *) apply after_run_M1; assumption.
Qed.

Theorem disc_sound A (p : prog A) : forall m (post : A -> mode -> Prop),
  disc p m post -> forall fr st, sem m fr st ->
  match interp orc cfg run p fr st with
  | Done a fr' st' => exists m', post a m' /\ sem m' fr' st'
  | Raised _ _ st' => flag_clear st'
  | _ => True
  end.
Proof.
  induction p as [a|e|w|X a k IH]; intros m post Hd fr st Hs; cbn [disc interp] in *.
  - exists m. split; assumption.
  - eapply quiet_clear; eauto.
  - exact I.
  - pose proof (step_sound X a m _ fr st Hd Hs) as Hstep.
    destruct (step orc cfg run a fr st) as [x fr' st'|e fr' st'| |w]; try exact I; [|exact Hstep].
    destruct Hstep as (m' & Hd' & Hs'). eapply IH; eauto.
Qed.

End Sound.

(* programs made of actions that neither touch the flag nor run a sub-tape *)
Definition simple_act {X} (a : action X) : bool :=
  match a with
  | AReturnedTest | AReturnedClear | ASetPtrEnd | AReturnedSet
  | ACallDef _ | ARunSub _ _ | ARunLoop _ | ATrySub _ => false
  | _ => true
  end.

Fixpoint simple {A} (p : prog A) : Prop :=
  match p with
  | Act a k => simple_act a = true /\ forall x, simple (k x)
  | _ => True
  end.

(* [simple] is [within simple_act] written as a fixpoint of its own.  For a variable program the
   kernel compares the two fixpoints; for a closed one it would evaluate them on the program,
   which is why the passage goes through this lemma. *)
Lemma within_simple A (p : prog A) : within (@simple_act) p -> simple p.
Proof. exact (fun H => H). Qed.

Lemma simple_disc A (p : prog A) : forall m,
  within (@simple_act) p -> quiet m -> disc p m (fun _ m' => quiet m').
Proof.
  induction p as [a|e|w|X a k IH]; intros m Hs Hq; cbn [disc within] in *; auto.
  destruct Hs as [Ha Hk].
  destruct a; cbn [act_ok simple_act] in *; try discriminate;
    (split; [exact Hq|intro x; apply IH; [apply Hk|left; reflexivity]]).
Qed.

Lemma simple_basic_act X (a : action X) : basic_act a = true -> simple_act a = true.
Proof. destruct a; try reflexivity; discriminate. Qed.

Lemma basic_within_simple A (p : prog A) : basic p -> within (@simple_act) p.
Proof. apply basic_within, simple_basic_act. Qed.

Lemma run_sig_ext_simple : within (@simple_act) run_sig_ext.
Proof. apply within_run_sig_ext; [exact simple_basic_act|reflexivity]. Qed.
#[export] Hint Resolve basic_within_simple run_sig_ext_simple : within_db.

Lemma op_prog_simple (o : opcode) : ctrl_op o = false -> within (@simple_act) (op_prog o).
Proof. apply op_prog_within; [exact simple_basic_act|reflexivity]. Qed.

Lemma basic_simple A (p : prog A) : basic p -> simple p.
Proof. intro H. apply within_simple, basic_within_simple, H. Qed.

Lemma simple_sert c : simple (sert c). Proof. apply basic_simple, basic_sert. Qed.
Lemma simple_vert c : simple (vert c). Proof. apply basic_simple, basic_vert. Qed.
Lemma simple_tert c : simple (tert c). Proof. apply basic_simple, basic_tert. Qed.
Lemma simple_get : simple get. Proof. apply basic_simple, basic_get. Qed.
Lemma simple_put b : simple (put b). Proof. apply basic_simple, basic_put. Qed.
Lemma simple_read n : simple (read n). Proof. apply basic_simple, basic_read. Qed.
Lemma simple_read_u8 : simple read_u8. Proof. apply basic_simple, basic_read_u8. Qed.
Lemma simple_read_u16 : simple read_u16. Proof. apply basic_simple, basic_read_u16. Qed.
Lemma simple_config : simple config_. Proof. apply basic_simple, basic_config. Qed.
Lemma simple_prim_list p l : simple (prim_list p l).
Proof. apply basic_simple, basic_prim_list. Qed.
Lemma simple_prim1 p l : simple (prim1 p l). Proof. apply basic_simple, basic_prim1. Qed.
Lemma simple_prim_bool p l : simple (prim_bool p l).
Proof. apply basic_simple, basic_prim_bool. Qed.
Lemma simple_repeat_get n : simple (repeat_get n). Proof. apply basic_simple, basic_repeat_get. Qed.
Lemma simple_put_all l : simple (put_all l). Proof. apply basic_simple, basic_put_all. Qed.
Lemma simple_fl2 a : simple (fl2_prog a). Proof. apply basic_simple, basic_fl2. Qed.
Lemma simple_i2b n : simple (i2b n). Proof. apply basic_simple, basic_i2b. Qed.
Lemma simple_b2i b : simple (b2i b). Proof. apply basic_simple, basic_b2i. Qed.
Lemma simple_get_int : simple get_int. Proof. apply basic_simple, basic_get_int. Qed.
Lemma simple_repeat_get_z n : simple (repeat_get_z n).
Proof. apply basic_simple, basic_repeat_get_z. Qed.
Lemma simple_put_bool b : simple (put_bool b). Proof. apply basic_simple, basic_put_bool. Qed.
Lemma simple_cache_raw k v : simple (cache_raw k v).
Proof. apply basic_simple, basic_cache_raw. Qed.
Lemma simple_cache_items k l : simple (cache_items k l).
Proof. apply basic_simple, basic_cache_items. Qed.
Lemma simple_log_sigext l : simple (log_sigext l).
Proof. apply within_simple, within_log_sigext. reflexivity. Qed.
Lemma simple_run_sig_ext : simple run_sig_ext.
Proof. apply within_simple, run_sig_ext_simple. Qed.
Lemma simple_msg_go idx flag : forall acc, simple (msg_go idx flag acc).
Proof. intro. apply basic_simple, basic_msg_go. Qed.
Lemma simple_get_message_core f : simple (get_message_core f).
Proof. apply basic_simple, basic_get_message_core. Qed.
Lemma simple_put_atoms l : simple (put_atoms l). Proof. apply basic_simple, basic_put_atoms. Qed.
Lemma simple_put_values l : simple (put_values l). Proof. apply basic_simple, basic_put_values. Qed.
Lemma simple_read_cache_key k : simple (read_cache_key k).
Proof. apply basic_simple, basic_read_cache_key. Qed.
Lemma simple_cache_size_key k : simple (cache_size_key k).
Proof. apply basic_simple, basic_cache_size_key. Qed.
Lemma simple_fold_ints n f : forall acc, simple (fold_ints n f acc).
Proof. intro. apply basic_simple, basic_fold_ints. Qed.
Lemma simple_pydiv a b : simple (pydiv a b). Proof. apply basic_simple, basic_pydiv. Qed.
Lemma simple_pymod a b : simple (pymod a b). Proof. apply basic_simple, basic_pymod. Qed.
Lemma simple_get_float_t : simple get_float_t. Proof. apply basic_simple, basic_get_float_t. Qed.
Lemma simple_bytes_to_float x : simple (bytes_to_float x).
Proof. apply basic_simple, basic_bytes_to_float. Qed.
Lemma simple_check_nan d : simple (check_nan d). Proof. apply basic_simple, basic_check_nan. Qed.
Lemma simple_put_float d : simple (put_float d). Proof. apply basic_simple, basic_put_float. Qed.
Lemma simple_fold_floats n p : forall acc, simple (fold_floats n p acc).
Proof. intro. apply basic_simple, basic_fold_floats. Qed.
Lemma simple_clamp_scalar s b : simple (clamp_scalar s b).
Proof. apply basic_simple, basic_clamp_scalar. Qed.
Lemma simple_H_big l : simple (H_big l). Proof. apply basic_simple, basic_H_big. Qed.
Lemma simple_H_small l : simple (H_small l). Proof. apply basic_simple, basic_H_small. Qed.
Lemma simple_derive_key s : simple (derive_key_from_seed s).
Proof. apply basic_simple, basic_derive_key. Qed.
Lemma simple_derive_point x : simple (derive_point x).
Proof. apply basic_simple, basic_derive_point. Qed.
Lemma simple_check_points l : simple (check_points l).
Proof. apply basic_simple, basic_check_points. Qed.
Lemma simple_sum_with p l : forall acc, simple (sum_with p acc l).
Proof. intro. apply basic_simple, basic_sum_with. Qed.
Lemma simple_aggregate_points l : simple (aggregate_points l).
Proof. apply basic_simple, basic_aggregate_points. Qed.
Lemma simple_aggregate_scalars l : simple (aggregate_scalars l).
Proof. apply basic_simple, basic_aggregate_scalars. Qed.
Lemma simple_sub_go n p : forall acc, simple (sub_go n p acc).
Proof. intro. apply basic_simple, basic_sub_go. Qed.
Lemma simple_check_sig_body a : simple (check_sig_body a).
Proof. apply basic_simple, basic_check_sig_body. Qed.
Lemma simple_ms_find a sig keys : simple (ms_find a sig keys).
Proof. apply basic_simple, basic_ms_find. Qed.
Lemma simple_ms_go a sigs : forall keys confirmed, simple (ms_go a sigs keys confirmed).
Proof. intros. apply basic_simple, basic_ms_go. Qed.
Lemma simple_ct_run l t f : simple (ct_run l t f). Proof. apply basic_simple, basic_ct_run. Qed.
Lemma simple_ct_go idx flag : forall valid, simple (ct_go idx flag valid).
Proof. intro. apply basic_simple, basic_ct_go. Qed.
Lemma simple_decode_utf8 b : simple (decode_utf8 b).
Proof. apply basic_simple, basic_decode_utf8. Qed.
Lemma simple_swap_core i j : simple (swap_core i j).
Proof. apply basic_simple, basic_swap_core. Qed.
Lemma simple_when b p : simple p -> simple (when b p).
Proof. intro H. destruct b; [exact H|exact I]. Qed.
Lemma simple_OP_DUP : simple OP_DUP. Proof. apply basic_simple, basic_OP_DUP. Qed.
Lemma simple_OP_SHA256 : simple OP_SHA256. Proof. apply basic_simple, basic_OP_SHA256. Qed.
Lemma simple_OP_SWAP2 : simple OP_SWAP2. Proof. apply basic_simple, basic_OP_SWAP2. Qed.
Lemma simple_OP_XOR : simple OP_XOR. Proof. apply basic_simple, basic_OP_XOR. Qed.
Lemma simple_OP_EQUAL_VERIFY : simple OP_EQUAL_VERIFY.
Proof. apply basic_simple, basic_OP_EQUAL_VERIFY. Qed.

Lemma quiet_M0 : quiet M0.
Proof. left; reflexivity. Qed.
Lemma final_M0 : final M0.
Proof. left; reflexivity. Qed.
Lemma final_M2 : final M2.
Proof. right; right; reflexivity. Qed.

Lemma disc_quiet_final A (p : prog A) m :
  disc p m (fun _ m' => quiet m') -> disc p m (fun _ m' => final m').
Proof. apply disc_mono. intros _ m'. apply quiet_final. Qed.

Lemma simple_final A (p : prog A) m :
  within (@simple_act) p -> quiet m -> disc p m (fun _ m' => final m').
Proof. intros Hs Hq. apply disc_quiet_final, simple_disc; assumption. Qed.

(* run a simple prefix [p] of [bind p f] in a quiet mode; continue in a quiet mode *)
Ltac pre :=
  eapply disc_bind;
  [ apply simple_disc; [solve [cls]|assumption]
  | let a := fresh "a" in let m := fresh "m" in let H := fresh "Hq" in
    cbv beta; intros a m H ].

(* closes the side conditions on modes left by [cbn] of a judgement on a control action *)
Ltac fin := repeat (split || intro); auto using quiet_M0, final_M0, final_M2, quiet_final.

Lemma disc_OP_RETURN m (post : unit -> mode -> Prop) : post tt M2 -> disc OP_RETURN m post.
Proof. intro H. destruct m; cbn; auto. Qed.

Lemma disc_propagate_return : disc propagate_return M1 (fun _ m' => final m').
Proof. cbn. fin. Qed.

Lemma disc_OP_RETURN_final m : disc OP_RETURN m (fun _ m' => final m').
Proof. apply disc_OP_RETURN, final_M2. Qed.

(* CALL and LOOP clear the flag: they end in a quiet mode *)
Lemma disc_OP_CALL_quiet m : quiet m -> disc OP_CALL m (fun _ m' => quiet m').
Proof.
  intro Hq. unfold OP_CALL. do 5 pre.
  eapply disc_bind; [apply simple_disc; [solve [cls]|assumption]|].
  cbv beta. intros d m' Hq'. destruct d as [tid|]; cbn; fin.
Qed.

Lemma disc_OP_CALL m : quiet m -> disc OP_CALL m (fun _ m' => final m').
Proof. intro Hq. apply disc_quiet_final, disc_OP_CALL_quiet, Hq. Qed.

Lemma disc_OP_IF m : quiet m -> disc OP_IF m (fun _ m' => final m').
Proof.
  intro Hq. unfold OP_IF. do 3 pre.
  destruct (bytes_to_bool _); cbn; fin.
Qed.

Lemma disc_OP_IF_ELSE m : quiet m -> disc OP_IF_ELSE m (fun _ m' => final m').
Proof.
  intro Hq. unfold OP_IF_ELSE. do 5 pre. cbn. fin.
Qed.

Lemma disc_eval_body m : quiet m -> disc eval_body m (fun _ m' => final m').
Proof.
  intro Hq. unfold eval_body. do 6 pre.
  destruct (flag_on _ _); cbn; fin.
Qed.

Lemma disc_OP_MERKLEVAL m : quiet m -> disc OP_MERKLEVAL m (fun _ m' => final m').
Proof.
  intro Hq. unfold OP_MERKLEVAL. do 10 pre. apply disc_eval_body. assumption.
Qed.

Lemma disc_OP_TRY_EXCEPT m : quiet m -> disc OP_TRY_EXCEPT m (fun _ m' => final m').
Proof.
  intro Hq. unfold OP_TRY_EXCEPT. do 4 pre. cbn. fin.
Qed.

Lemma disc_loop_go_quiet n : forall i limit tid cond m,
  quiet m -> disc (loop_go n i limit tid cond) m (fun _ m' => quiet m').
Proof.
  induction n as [|n IH]; intros i limit tid cond m Hq; cbn [loop_go];
    (destruct (bytes_to_bool cond); [|exact Hq]); pre.
  - exact I.
  - cbn [disc bind act act_ok]. split; [assumption|]. split; [apply quiet_M0|].
    split; [apply quiet_M0|]. intro c. apply IH, quiet_M0.
Qed.

Lemma disc_OP_LOOP_quiet m : quiet m -> disc OP_LOOP m (fun _ m' => quiet m').
Proof. intro Hq. unfold OP_LOOP. do 5 pre. apply disc_loop_go_quiet. assumption. Qed.

Lemma disc_OP_LOOP m : quiet m -> disc OP_LOOP m (fun _ m' => final m').
Proof. intro Hq. apply disc_quiet_final, disc_OP_LOOP_quiet, Hq. Qed.

Lemma disc_OP_TAPROOT m : quiet m -> disc OP_TAPROOT m (fun _ m' => final m').
Proof.
  intro Hq. unfold OP_TAPROOT. do 4 pre.
  destruct (_ =? _)%Z.
  - do 7 pre. destruct (bytes_eqb _ _).
    + pre. apply disc_eval_body. assumption.
    + apply simple_final; [cls|assumption].
  - apply simple_final; [cls|assumption].
Qed.

Theorem op_prog_disc (o : opcode) : disc (op_prog o) M0 (fun _ m => final m).
Proof.
  destruct (ctrl_op o) eqn:E; [|apply simple_final; [apply op_prog_simple, E|apply quiet_M0]].
  (* the nine control instructions, in the order of [opcode] *)
  destruct o; try discriminate E; cbn [op_prog];
    [> apply disc_OP_CALL | apply disc_OP_IF | apply disc_OP_IF_ELSE | apply disc_eval_body
     | apply disc_OP_RETURN_final | apply disc_OP_MERKLEVAL | apply disc_OP_TRY_EXCEPT
     | apply disc_OP_LOOP | apply disc_OP_TAPROOT ]; apply quiet_M0.
Qed.

(* every code: the assigned ones and the unassigned ones (NOP) *)
Theorem dispatch_disc (code : nat) : disc (dispatch code) M0 (fun _ m => final m).
Proof.
  unfold dispatch. destruct (opcode_of_nat code) as [o|].
  - apply op_prog_disc.
  - apply simple_final; [apply basic_within_simple, basic_NOP|apply quiet_M0].
Qed.

Section Run.
Variable orc : oracle.
Variable cfg : config.

Definition code_at (st : state) (tid ptr : nat) : nat :=
  N.to_nat (Byte.to_N (nth ptr (to_data (nth_tape st tid)) x00)).

Lemma run_tape_unfold f tid ptr st :
  ptr < List.length (to_data (nth_tape st tid)) ->
  run_tape orc cfg (S f) tid ptr st =
    match interp orc cfg (fun t s => run_tape orc cfg f t 0 s) (dispatch (code_at st tid ptr))
                 {| fr_tid := tid; fr_ptr := S ptr |} st with
    | Done _ fr' st' => run_tape orc cfg f tid (fr_ptr fr') st'
    | Raised e fr' st' => Raised e fr' st'
    | OutOfFuel => OutOfFuel
    | Unmodelled w => Unmodelled w
    end.
Proof.
  intro H. rewrite run_tape_succ. apply Nat.leb_gt in H. rewrite H. reflexivity.
Qed.

Definition tape_post (o : outcome unit) : Prop :=
  match o with
  | Done _ fr' st' => flag_clear st' \/ at_end fr' st'
  | Raised _ _ st' => flag_clear st'
  | _ => True
  end.

Lemma tape_post_run_ok run : (forall t s, flag_clear s -> tape_post (run t s)) -> run_ok run.
Proof.
  intros H t s Hs. specialize (H t s Hs). destruct (run t s); simpl in *; auto.
Qed.

(* one instruction, run from a flag-clear state by an activation of tape [tid] *)
Lemma instr_inv f tid ptr st :
  (forall t s, flag_clear s -> tape_post (run_tape orc cfg f t 0 s)) ->
  flag_clear st ->
  match interp orc cfg (fun t s => run_tape orc cfg f t 0 s) (dispatch (code_at st tid ptr))
               {| fr_tid := tid; fr_ptr := S ptr |} st with
  | Done _ fr' st' => fr_tid fr' = tid /\ (flag_clear st' \/ at_end fr' st')
  | Raised _ _ st' => flag_clear st'
  | _ => True
  end.
Proof.
  intros IH Hc.
  pose proof (disc_sound orc cfg _ (tape_post_run_ok _ IH) unit (dispatch (code_at st tid ptr)) M0 _
                (dispatch_disc _) {| fr_tid := tid; fr_ptr := S ptr |} st Hc) as Hi.
  assert (Hheap : Closure.run_ok R_heap (fun t s => run_tape orc cfg f t 0 s))
    by (intros t s; apply run_tape_heap).
  pose proof (interp_ptr orc cfg _ Hheap unit (dispatch (code_at st tid ptr))
                {| fr_tid := tid; fr_ptr := S ptr |} st) as Hp.
  destruct (interp orc cfg _ _ _ st) as [a fr' st'|e fr' st'| |w]; try exact I; [|exact Hi].
  destruct Hi as (m' & Hf & Hs). destruct Hp as (Ht & _). simpl in Ht.
  split; [exact Ht|].
  destruct Hf as [->|[->| ->]]; simpl in Hs.
  - left. exact Hs.
  - left. apply Hs.
  - right. exact Hs.
Qed.

Theorem run_tape_inv : forall fuel tid ptr st,
  flag_clear st -> tape_post (run_tape orc cfg fuel tid ptr st).
Proof.
  induction fuel as [|f IH]; intros tid ptr st Hc; [exact I|].
  destruct (Nat.lt_ge_cases ptr (List.length (to_data (nth_tape st tid)))) as [Hlt|Hge].
  - rewrite run_tape_unfold by exact Hlt.
    pose proof (instr_inv f tid ptr st (fun t s => IH t 0 s) Hc) as Hi.
    destruct (interp orc cfg _ _ _ st) as [a fr' st'|e fr' st'| |w]; try exact I; [|exact Hi].
    destruct Hi as (Ht & [Hc'|He]).
    + apply IH. exact Hc'.
    + (* the instruction returned: the pointer is at the end, the loop stops *)
      unfold at_end in He. rewrite Ht in He.
      rewrite run_tape_at_end by exact He.
      destruct f; [exact I|]. simpl. right. exact He.
  - cbn [run_tape]. apply Nat.leb_le in Hge. rewrite Hge. simpl. left. exact Hc.
Qed.

Theorem run_tape_discipline : forall fuel tid ptr st,
  flag_clear st ->
  match run_tape orc cfg fuel tid ptr st with
  | Done _ fr' st' => flag_clear st' \/ at_end fr' st'
  | Raised _ _ st' => flag_clear st'
  | _ => True
  end.
Proof. exact run_tape_inv. Qed.

(* In run_tape (S f) tid ptr st (see run_tape_unfold) with a clear flag and an instruction left:
   the instruction is interpreted from the flag-clear state st; if it raises, the flag is clear;
   if it ends normally and the pointer is still inside the tape -- so that run_tape will fetch
   another instruction -- the flag is clear again. *)
Theorem fetch_flag_clear f tid ptr st :
  flag_clear st ->
  match interp orc cfg (fun t s => run_tape orc cfg f t 0 s) (dispatch (code_at st tid ptr))
               {| fr_tid := tid; fr_ptr := S ptr |} st with
  | Done _ fr' st' =>
      fr_tid fr' = tid /\
      (fr_ptr fr' < List.length (to_data (nth_tape st' tid)) -> flag_clear st')
  | Raised _ _ st' => flag_clear st'
  | _ => True
  end.
Proof.
  intros Hc.
  pose proof (instr_inv f tid ptr st (fun t s => run_tape_inv f t 0 s) Hc) as Hi.
  destruct (interp orc cfg _ _ _ st) as [a fr' st'|e fr' st'| |w]; try exact I; [|exact Hi].
  destruct Hi as (Ht & [Hc'|He]); split; try exact Ht; intro Hlt; [exact Hc'|].
  unfold at_end in He. rewrite Ht in He. lia.
Qed.

(* the state in which auth_rest starts script [s] after the top-level tape [prev] *)
Definition next_script_state (st : state) (prev : nat) (s : bytes) : state :=
  let p := nth_tape st prev in
  let st1 := snd (new_tape st {| to_data := s; to_count := to_count p; to_defs := to_defs p |}) in
  with_cache st1 (cache_del (st_cache st1) returned_key).

Lemma auth_rest_cons fuel s rest prev st :
  auth_rest orc cfg fuel (s :: rest) prev st =
    match run_tape orc cfg fuel (List.length (st_tapes st)) 0 (next_script_state st prev s) with
    | Done _ _ st' => auth_rest orc cfg fuel rest (List.length (st_tapes st)) st'
    | Raised _ _ st' => AuthVerdict false st'
    | OutOfFuel => AuthFuel
    | Unmodelled w => AuthUnmod w
    end.
Proof. reflexivity. Qed.

Theorem auth_scripts_start_clear st prev s : flag_clear (next_script_state st prev s).
Proof. apply cache_get_del_same. Qed.

(* the discipline of every script run by auth_rest: it starts with the flag clear, a raise leaves
   the flag clear, a normal end leaves the flag clear or the pointer at the end *)
Fixpoint auth_rest_disc (fuel : nat) (scripts : list bytes) (prev : nat) (st : state) : Prop :=
  match scripts with
  | [] => True
  | s :: rest =>
    let st2 := next_script_state st prev s in
    let tid := List.length (st_tapes st) in
    flag_clear st2 /\
    match run_tape orc cfg fuel tid 0 st2 with
    | Done _ fr' st' => (flag_clear st' \/ at_end fr' st') /\ auth_rest_disc fuel rest tid st'
    | Raised _ _ st' => flag_clear st'
    | _ => True
    end
  end.

Theorem auth_rest_discipline fuel scripts : forall prev st, auth_rest_disc fuel scripts prev st.
Proof.
  induction scripts as [|s rest IH]; intros prev st; cbn [auth_rest_disc]; [exact I|].
  cbv zeta. split; [apply auth_scripts_start_clear|].
  pose proof (run_tape_inv fuel (List.length (st_tapes st)) 0 (next_script_state st prev s)
                (auth_scripts_start_clear st prev s)) as H.
  destruct (run_tape orc cfg fuel _ 0 _) as [a fr' st'|e fr' st'| |w]; simpl in H; try exact I; [|exact H].
  split; [exact H|]. apply IH.
Qed.

Lemma init_state_clear script vals :
  cache_get (init_cache cfg vals) returned_key = None -> flag_clear (init_state cfg script vals).
Proof. intro H. exact H. Qed.

(* a sufficient condition on the embedder's values *)
Lemma init_cache_clear vals :
  Forall (fun kv => ckey_eqb (fst kv) returned_key = false) vals ->
  cache_get (init_cache cfg vals) returned_key = None.
Proof.
  unfold init_cache.
  assert (H0 : cache_get [(KStr (str "timestamp"), VOne (AInt (c_now cfg)))] returned_key = None)
    by reflexivity.
  revert H0. generalize [(KStr (str "timestamp"), VOne (AInt (c_now cfg)))].
  induction vals as [|[k v] vals IH]; intros c Hc HF; simpl; [exact Hc|].
  inversion HF as [|x l Hk HF']; subst. apply IH; [|exact HF'].
  simpl. rewrite cache_get_set_other by exact Hk. exact Hc.
Qed.

Theorem run_script_discipline fuel script vals :
  cache_get (init_cache cfg vals) returned_key = None ->
  tape_post (run_script orc cfg fuel script vals).
Proof. intro H. apply run_tape_inv. apply init_state_clear. exact H. Qed.

Theorem run_auth_scripts_discipline fuel scripts vals :
  cache_get (init_cache cfg vals) returned_key = None ->
  match scripts with
  | [] => True
  | s :: rest =>
    flag_clear (init_state cfg s vals) /\
    match run_script orc cfg fuel s vals with
    | Done _ fr' st' => (flag_clear st' \/ at_end fr' st') /\ auth_rest_disc fuel rest 0 st'
    | Raised _ _ st' => flag_clear st'
    | _ => True
    end
  end.
Proof.
  intro H. destruct scripts as [|s rest]; [exact I|].
  split; [apply init_state_clear; exact H|].
  pose proof (run_script_discipline fuel s vals H) as Hr.
  destruct (run_script orc cfg fuel s vals) as [a fr' st'|e fr' st'| |w]; simpl in Hr; try exact I; [|exact Hr].
  split; [exact Hr|]. apply auth_rest_discipline.
Qed.

End Run.

Print Assumptions disc_sound.
Print Assumptions dispatch_disc.
Print Assumptions run_tape_discipline.
Print Assumptions fetch_flag_clear.
Print Assumptions auth_scripts_start_clear.
Print Assumptions auth_rest_discipline.
Print Assumptions run_auth_scripts_discipline.
