(* An instruction that leaves the model takes the whole run with it; the tape is written [pre ++ c :: tail]
   and the pointer is [length pre]. *)
From Coq Require Import List NArith.
From Coq.Strings Require Import Byte String.
From TS Require Import Bytes State Prog Ops Interp BytesLemmas TapeLemmas.
Import ListNotations.
Local Open Scope nat_scope.

Section Steps.
Variable orc : oracle.
Variable cfg : config.

(* the instruction under the pointer leaves the model *)
Lemma step_unmod f tid st (pre : bytes) c tail w :
  tdata st tid = pre ++ c :: tail ->
  interp orc cfg (fun t s => run_tape orc cfg f t 0 s) (dispatch (N.to_nat (Byte.to_N c)))
         {| fr_tid := tid; fr_ptr := S (List.length pre) |} st = Unmodelled w ->
  run_tape orc cfg (S f) tid (List.length pre) st = Unmodelled w.
Proof.
  intros H E. rewrite (run_tape_fetch_at orc cfg f tid _ st _ c tail H (skipn_after pre (c :: tail))), E.
  reflexivity.
Qed.

End Steps.
