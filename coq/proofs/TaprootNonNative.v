(* C05 (builders): the non-native taproot lock of tools.make_nonnative_taproot_lock against the native
   OP_TAPROOT lock (Builders.taproot_lock), each run as the last script of run_auth_scripts.  On the key path
   the two give the same verdict.  On the script path they run the same committed script from the same stack,
   but with call count + 2 against + 1 and with definition 0 bound against not, so the verdicts can differ
   (differ_on_call_d0, differ_on_call_budget). *)
From Coq Require Import ZArith List Bool Lia.
From Coq.Strings Require Import Byte String.
From TS Require Import Bytes State Prog Ops Interp StateLemmas InterpLemmas NopSpec StackLemmas
  BytesLemmas TapeLemmas SigSpec ConfigSpec AuthSpec TimeSpec Asm Builders BuilderSpec
  BuilderSpecC15 BuilderSpecC13b TaprootSpec Closure Pointer.
Import ListNotations.
Local Open Scope nat_scope.

(* nn_def, nn_script_arm, nn_key_arm, nonnative_taproot_lock: model/Builders.v (extracted; compared with the real
   builder on every run by the BLD correspondence) *)

Definition hexval (a : Ascii.ascii) : N :=
  let n := Ascii.N_of_ascii a in
  if (n <? 58)%N then (n - 48)%N else (n - 87)%N.
Fixpoint of_hex (s : string) : bytes :=
  match s with
  | String a (String b t) =>
    match Byte.of_N (hexval a * 16 + hexval b) with Some x => x :: of_hex t | None => [] end
  | _ => []
  end.
Definition seq_bytes (n : nat) : bytes := map (fun i => z2b (Z.of_nat i)) (seq 0 n).

(* output of
     T.aggregate_points = lambda pts: bytes(range(32))
     T.make_nonnative_taproot_lock(pk, Script.from_src('true')).bytes.hex()
   (the builder COMPUTES the root from the internal key and the script commitment; bytes(range(32)) is not a
   curve point, so the root is injected by replacing tools.aggregate_points) *)
Example nonnative_bytes_0_31 :
  nonnative_taproot_lock (seq_bytes 32) x00 =
  of_hex "290000220320000102030405060708090a0b0c0d0e0f101112131415161718191a1b1c1d1e1f1d080220212c00141d3400021d3401031e371e4c004f1b022a00222d00042a002300".
Proof. vm_compute. reflexivity. Qed.

(* output of the unmodified builder for pk = VerifyKey of seed bytes(range(32)), script 'true', sigflags '05';
   the root (bytes 6..37 of the output) is the one the builder computed *)
Example nonnative_bytes_real :
  nonnative_taproot_lock (of_hex "7b72253c1f4454c7599fe81bcd199c7550a4c417b31c498f84e35199beb8d624") x05 =
  of_hex "2900002203207b72253c1f4454c7599fe81bcd199c7550a4c417b31c498f84e35199beb8d6241d080220212c00141d3400021d3401031e371e4c004f1b022a00222d00042a002305".
Proof. vm_compute. reflexivity. Qed.
(* make_taproot_lock for the same key and script: the same root *)
Example native_bytes_real :
  taproot_lock (of_hex "7b72253c1f4454c7599fe81bcd199c7550a4c417b31c498f84e35199beb8d624") x00 =
  of_hex "03207b72253c1f4454c7599fe81bcd199c7550a4c417b31c498f84e35199beb8d6245b00".
Proof. vm_compute. reflexivity. Qed.

(* the state in which OP_DEF leaves the machine: a new tape object (count 0, the definition table of the
   defining tape) and the handle bound to it in that table *)
Definition def_state (st : state) (tid : nat) (h : byte) (body : bytes) : state :=
  let did := to_defs (nth_tape st tid) in
  with_defs (with_tapes st (st_tapes st ++ [{| to_data := body; to_count := 0%Z; to_defs := did |}]))
            (list_set (st_defs st) did (defs_put (nth_defs st did) h (List.length (st_tapes st)))).

Lemma def_state_new st tid h body :
  nth_tape (def_state st tid h body) (List.length (st_tapes st)) =
    {| to_data := body; to_count := 0%Z; to_defs := to_defs (nth_tape st tid) |}.
Proof. exact (nth_tape_new st (def_state st tid h body) _ eq_refl). Qed.

Lemma def_state_old st tid h body t :
  t < List.length (st_tapes st) -> nth_tape (def_state st tid h body) t = nth_tape st t.
Proof. exact (nth_tape_old st (def_state st tid h body) _ t eq_refl). Qed.

Lemma def_state_defs st tid h body :
  to_defs (nth_tape st tid) < List.length (st_defs st) ->
  nth_defs (def_state st tid h body) (to_defs (nth_tape st tid)) =
    defs_put (nth_defs st (to_defs (nth_tape st tid))) h (List.length (st_tapes st)).
Proof. intro H. unfold nth_defs, def_state. cbn [st_defs with_tapes with_defs]. apply nth_list_set_same. exact H. Qed.

Lemma def_state_length st tid h body :
  List.length (st_tapes (def_state st tid h body)) = S (List.length (st_tapes st)).
Proof. exact (tapes_len_new st (def_state st tid h body) _ eq_refl). Qed.

(* the state in which the script of OP_EVAL starts: like sub_start, the call count one higher *)
Definition eval_start (st : state) (tid : nat) (script : bytes) : state :=
  with_tapes (with_defs st (st_defs st ++ [nth_defs st (to_defs (nth_tape st tid))]))
    (st_tapes st ++ [{| to_data := script; to_count := (to_count (nth_tape st tid) + 1)%Z;
                        to_defs := List.length (st_defs st) |}]).

Section Gen.
Variable orc : oracle.
Variable cfg : config.
Variable run : nat -> state -> outcome unit.

(* OP_DEF, the pointer standing just behind the opcode *)
Lemma def_exec fr st h body tail :
  data_at fr st = h :: len2 body ++ body ++ tail -> (blen body < 65536)%Z ->
  interp orc cfg run OP_DEF fr st =
    Done tt (adv fr (3 + List.length body)) (def_state st (fr_tid fr) h body).
Proof.
  intros Hd Hb. unfold OP_DEF. unfold read at 1, act at 1. cbn [bind].
  rewrite (read1 orc cfg run fr st h _ _ _ Hd).
  rewrite (read_block orc cfg run _ _ (adv fr 1) st body tail (data_at_adv1 _ _ _ _ Hd) Hb).
  cbn [interp step hd]. rewrite adv_adv, app_length, length_len2. reflexivity.
Qed.

(* OP_CALL, the pointer standing just behind the opcode: budget check, handle read, counter of the calling
   tape + 1, the definition's tape object gets that counter and is run from offset 0, the control flag is
   cleared *)
Lemma call_exec fr st h tail dtid :
  data_at fr st = h :: tail ->
  (to_count (nth_tape st (fr_tid fr)) <? c_limit cfg)%Z = true ->
  let st1 := set_count st (fr_tid fr) (to_count (nth_tape st (fr_tid fr)) + 1) in
  defs_get (nth_defs st1 (to_defs (nth_tape st1 (fr_tid fr)))) h = Some dtid ->
  interp orc cfg run OP_CALL fr st =
    match run dtid (set_count st1 dtid (to_count (nth_tape st1 (fr_tid fr)))) with
    | Done _ _ st' => Done tt (adv fr 1) (with_cache st' (cache_del (st_cache st') returned_key))
    | Raised e _ st' => Raised e (adv fr 1) st'
    | OutOfFuel => OutOfFuel
    | Unmodelled w => Unmodelled w
    end.
Proof.
  intros Hd Hc st1 Hg. unfold OP_CALL, config_, read, act, sert. cbn [bind].
  rewrite config_step, count_step, Hc. cbn [bind].
  rewrite (read1 orc cfg run fr st h tail _ _ Hd).
  rewrite countincr_step. cbn [fr_tid adv]. fold st1.
  rewrite defget_step. cbn [fr_tid adv hd]. rewrite Hg.
  rewrite calldef_step. cbn [fr_tid adv].
  destruct (run dtid _) as [[] fr' st'|e fr' st'| |w]; reflexivity.
Qed.

End Gen.

Section Ops.
Variable orc : oracle.
Variable cfg : config.

Notation op c := (dispatch (N.to_nat (Byte.to_N c))).

Section Exec.
Variable run : nat -> state -> outcome unit.

(* OP_DERIVE_POINT caches its result under b"X" when flag 2 is set; OP_TAPROOT does not *)
Definition xstate (st : state) (X : bytes) : state :=
  if flagon cfg 2 then with_cache st (cache_set (st_cache st) (KBytes (str "X")) (VOne (ABytes X))) else st.

Lemma derive_point_exec fr st x s X :
  st_stack st = x :: s -> orc PBaseMult [x] = OOk [X] -> fits cfg X -> space cfg s ->
  interp orc cfg run OP_DERIVE_POINT fr st = Done tt fr (with_stack (xstate st X) (X :: s)).
Proof.
  intros Hs Ho Hf Hsp. unfold OP_DERIVE_POINT, config_, get, put, act, derive_point. cbn [bind].
  rewrite config_step.
  rewrite (get_step orc cfg run _ _ fr st x s Hs).
  rewrite (prim1_step orc cfg run _ _ PBaseMult [x] X _ _ Ho).
  unfold xstate. destruct (flagon cfg 2).
  - unfold cache_raw, act. cbn [bind]. cbn [interp step].
    destruct (c_max_item_size cfg <? List.length X) eqn:E1; [apply Nat.ltb_lt in E1; unfold fits in Hf; lia|].
    cbn [st_stack with_cache with_stack].
    destruct (c_max_items cfg <=? List.length s) eqn:E2; [apply Nat.leb_le in E2; unfold space in Hsp; lia|].
    reflexivity.
  - cbn [bind].
    rewrite (put_step orc cfg run _ _ _ _ X s); [reflexivity|reflexivity|exact Hf|exact Hsp].
Qed.

End Exec.

Lemma xstate_tdata st X t : tdata (xstate st X) t = tdata st t.
Proof. unfold xstate. destruct (flagon cfg 2); reflexivity. Qed.

Lemma derive_point_runs tid st x s X :
  st_stack st = x :: s -> orc PBaseMult [x] = OOk [X] -> fits cfg X -> space cfg s ->
  runs orc cfg 1 tid [x4f] st (with_stack (xstate st X) (X :: s)).
Proof.
  intros Hs Ho Hf Hsp. apply runs_op0; [apply xstate_tdata|]. intros run fr.
  change (op x4f) with OP_DERIVE_POINT. exact (derive_point_exec run fr st x s X Hs Ho Hf Hsp).
Qed.

Lemma def_runs tid st h body :
  tid < List.length (st_tapes st) -> (blen body < 65536)%Z ->
  runs orc cfg 1 tid (x29 :: h :: len2 body ++ body) st (def_state st tid h body).
Proof.
  intros Ht Hb. apply (runs_op orc cfg tid x29 (h :: len2 body ++ body)).
  - exact (tdata_old st (def_state st tid h body) [_] tid eq_refl Ht).
  - intros f p rest Hd. change (dispatch (N.to_nat (Byte.to_N x29))) with OP_DEF.
    cbn [app] in Hd. rewrite <- app_assoc in Hd.
    rewrite (def_exec orc cfg _ _ st h body rest Hd Hb).
    cbn [List.length]. rewrite app_length, length_len2. reflexivity.
Qed.

End Ops.

Definition sarm : bytes :=
  [x1d; x34; x00; x02; x1d; x34; x01; x03; x1e; x37; x1e; x4c; x00; x4f; x1b; x02; x2a; x00; x22; x2d].
Definition karm (fl : byte) : bytes := [x2a; x00; x23; fl].
Lemma sarm_enc : encode nn_script_arm = sarm.  Proof. reflexivity. Qed.
Lemma karm_enc fl : encode (nn_key_arm fl) = karm fl.  Proof. reflexivity. Qed.

Section Arms.
Variable orc : oracle.
Variable cfg : config.
Notation sub f := (fun t s0 => run_tape orc cfg f t 0 s0).

Lemma xstate_tapes st X : st_tapes (xstate cfg st X) = st_tapes st.
Proof. unfold xstate. destruct (flagon cfg 2); reflexivity. Qed.
Lemma xstate_defs st X : st_defs (xstate cfg st X) = st_defs st.
Proof. unfold xstate. destruct (flagon cfg 2); reflexivity. Qed.
Lemma xstate_stack st X : st_stack (xstate cfg st X) = st_stack st.
Proof. unfold xstate. destruct (flagon cfg 2); reflexivity. Qed.
Lemma xstate_nth_tape st X t : nth_tape (xstate cfg st X) t = nth_tape st t.
Proof. unfold xstate. destruct (flagon cfg 2); reflexivity. Qed.
Lemma xstate_nth_defs st X d : nth_defs (xstate cfg st X) d = nth_defs st d.
Proof. unfold xstate. destruct (flagon cfg 2); reflexivity. Qed.

Lemma xstate_with_stack st X l l' :
  with_stack (xstate cfg (with_stack st l) X) l' = with_stack (xstate cfg st X) l'.
Proof. unfold xstate. destruct (flagon cfg 2); reflexivity. Qed.

(* the state after `call d0` in an arm running as tape A (count c), the definition being tape T:
   both tape objects carry the count c + 1, the control flag is cleared *)
Definition after_call (s : state) (A T : nat) (c : Z) : state :=
  let s2 := set_count (set_count s A (c + 1)) T (c + 1) in
  with_cache s2 (cache_del (st_cache s2) returned_key).

Lemma after_call_with_stack s l l' A T c :
  with_stack (after_call (with_stack s l) A T c) l' = with_stack (after_call s A T c) l'.
Proof. reflexivity. Qed.
Lemma tdata_after_call s A T c t : tdata (after_call s A T c) t = tdata s t.
Proof.
  unfold after_call. cbv zeta.
  change (tdata (set_count (set_count s A (c + 1)) T (c + 1)) t = tdata s t).
  rewrite !tdata_set_count. reflexivity.
Qed.

(* `call d0` where definition 0 is the tape [PUSH1 root].  The callee needs two units of fuel of its own: an
   equation at a pointer, not a segment *)
Lemma call_d0_step f A T st p data rest root s c :
  tdata st A = data -> skipn p data = x2a :: x00 :: rest ->
  A < List.length (st_tapes st) -> T < List.length (st_tapes st) -> T <> A ->
  tdata st T = push1_bytes root -> List.length root = 32 ->
  to_count (nth_tape st A) = c -> (c <? c_limit cfg)%Z = true ->
  defs_get (nth_defs st (to_defs (nth_tape st A))) x00 = Some T ->
  st_stack st = s -> 32 <= c_max_item_size cfg -> space cfg s ->
  run_tape orc cfg (S (S (S f))) A p st =
    run_tape orc cfg (S (S f)) A (p + 2) (with_stack (after_call st A T c) (root :: s)).
Proof.
  intros Hd Hp HA HT Hne HdT Lr Hc Hlim Hg Hs Hsz Hsp.
  assert (H1 : nth_tape (set_count st A (c + 1)) A =
               {| to_data := to_data (nth_tape st A); to_count := (c + 1)%Z; to_defs := to_defs (nth_tape st A) |})
    by (apply nth_tape_set_count_same; exact HA).
  rewrite (run_tape_fetch_at orc cfg _ A p st data x2a (x00 :: rest) Hd Hp).
  change (dispatch (N.to_nat (Byte.to_N x2a))) with OP_CALL.
  rewrite (call_exec orc cfg _ _ st x00 rest T (data_at_next A p st data x2a _ Hd Hp)).
  - cbv zeta. cbn [fr_tid]. rewrite Hc, H1. cbn [to_count].
    set (sT := set_count (set_count st A (c + 1)) T (c + 1)).
    assert (HdT' : tdata sT T = push1_bytes root) by (unfold sT; rewrite !tdata_set_count; exact HdT).
    rewrite (runs_end (F := S (S f)) (p := 0)
               (push1_runs orc cfg T sT root s ltac:(lia) Hs ltac:(unfold fits; lia) Hsp) HdT' eq_refl) by lia.
    cbn [fr_ptr adv]. replace (S p + 1) with (p + 2) by lia. reflexivity.
  - cbn [fr_tid]. rewrite Hc. exact Hlim.
  - cbv zeta. cbn [fr_tid]. rewrite Hc, H1. cbn [to_defs]. exact Hg.
Qed.

End Arms.

(* def d0 { push root }  and the condition  dup size push d32 equal *)
Definition hdr (root : bytes) : bytes := x29 :: x00 :: len2 (push1_bytes root) ++ push1_bytes root.
Definition nn_cond : bytes := [x1d; x08; x02; x20; x21].

Lemma nn_lock_bytes root fl :
  nonnative_taproot_lock root fl = (hdr root ++ nn_cond) ++ x2c :: ifelse_ops sarm (karm fl).
Proof.
  unfold nonnative_taproot_lock, encode, nn_def, P1, P0.
  cbn [flat_map]. rewrite app_nil_r.
  change (encode1 (IIfElse nn_script_arm (nn_key_arm fl))) with (x2c :: ifelse_ops sarm (karm fl)).
  cbn [encode1 flat_map]. rewrite app_nil_r.
  change (opcode_byte O_DEF) with x29. change (opcode_byte O_PUSH1) with x03.
  change (x03 :: len1 root :: root) with (push1_bytes root).
  unfold hdr. cbn [app]. rewrite <- !app_assoc. reflexivity.
Qed.

Lemma hdr_len root : List.length root = 32 -> List.length (hdr root ++ nn_cond) = 43.
Proof.
  intro H. unfold hdr. rewrite app_length. cbn [List.length]. rewrite app_length, length_len2.
  unfold push1_bytes. cbn [List.length]. rewrite H. reflexivity.
Qed.

Lemma nn_lock_len root fl : List.length root = 32 -> List.length (nonnative_taproot_lock root fl) = 72.
Proof. intro H. rewrite nn_lock_bytes, app_length, hdr_len by exact H. reflexivity. Qed.

(* the state in which an arm of the lock starts: tape T holds definition 0, tape A the arm, whose definition
   table is a copy of the lock's with handle 0 bound to T *)
Lemma arm_facts st tid root stk arm :
  tid < List.length (st_tapes st) ->
  let T := List.length (st_tapes st) in
  let s1 := def_state st tid x00 (push1_bytes root) in
  let A := List.length (st_tapes s1) in
  let sA := sub_start (with_stack s1 stk) tid arm in
  A = S T /\ List.length (st_tapes sA) = S (S T) /\
  tdata sA A = arm /\ tdata sA T = push1_bytes root /\ (forall t, t < T -> tdata sA t = tdata st t) /\
  to_count (nth_tape sA A) = to_count (nth_tape st tid) /\
  to_defs (nth_tape sA A) = List.length (st_defs st) /\ List.length (st_defs sA) = S (List.length (st_defs st)) /\
  (to_defs (nth_tape st tid) < List.length (st_defs st) ->
   nth_defs sA (List.length (st_defs st)) = defs_put (nth_defs st (to_defs (nth_tape st tid))) x00 T).
Proof.
  intros Ht T s1 A sA.
  assert (HA : A = S T) by exact (tapes_len_new st s1 _ eq_refl).
  assert (Hn1 : nth_tape s1 tid = nth_tape st tid) by exact (nth_tape_old st s1 [_] tid eq_refl Ht).
  assert (Hd1 : List.length (st_defs s1) = List.length (st_defs st)) by apply list_set_length.
  assert (HnA : nth_tape sA A = {| to_data := arm; to_count := to_count (nth_tape s1 tid);
                                   to_defs := List.length (st_defs s1) |})
    by exact (nth_tape_new s1 sA _ eq_refl).
  split; [exact HA|]. split; [rewrite (tapes_len_new s1 sA _ eq_refl); fold A; lia|].
  split; [unfold tdata; rewrite HnA; reflexivity|].
  split.
  { unfold tdata. rewrite (nth_tape_old s1 sA [_] T eq_refl) by (fold A; lia).
    exact (f_equal to_data (nth_tape_new st s1 _ eq_refl)). }
  split.
  { intros t Hlt. unfold tdata. rewrite (nth_tape_old s1 sA [_] t eq_refl) by (fold A; lia).
    rewrite (nth_tape_old st s1 [_] t eq_refl Hlt). reflexivity. }
  split; [rewrite HnA; cbn [to_count]; rewrite Hn1; reflexivity|].
  split; [rewrite HnA; exact Hd1|].
  split; [rewrite <- Hd1; exact (defs_len_new s1 sA _ eq_refl)|].
  intro Hdid. rewrite <- Hd1, (nth_defs_new s1 sA _ eq_refl).
  change (nth_tape (with_stack s1 stk) tid) with (nth_tape s1 tid). rewrite Hn1.
  unfold nth_defs, s1, def_state. cbn [st_defs with_tapes with_defs with_stack].
  apply nth_list_set_same. exact Hdid.
Qed.

Lemma i2b_32 : i2b 32 = Ret [x20].  Proof. vm_compute. reflexivity. Qed.
Lemma i2b_64 : i2b 64 = Ret [x40].  Proof. vm_compute. reflexivity. Qed.
Lemma i2b_65 : i2b 65 = Ret [x41].  Proof. vm_compute. reflexivity. Qed.

Section Lock.
Variable orc : oracle.
Variable cfg : config.
Notation sub f := (fun t s0 => run_tape orc cfg f t 0 s0).

(* the condition  dup size push d32 equal  on a stack whose top item has the size byte [bsz] *)
Lemma cond_runs tid st x s bsz :
  st_stack st = x :: s -> fits cfg x -> i2b (blen x) = Ret [bsz] ->
  List.length s + 3 <= c_max_items cfg -> 1 <= c_max_item_size cfg ->
  runs orc cfg 4 tid nn_cond st (with_stack st (boolb (bytes_eqb [x20] [bsz]) :: x :: s)).
Proof.
  intros Hs Fx Hi Hit Hsz.
  (* DUP *)
  eapply (runs_app (n := 1) (a := [x1d])).
  { apply (dup_runs orc cfg tid st x s Hs Fx). lia. }
  (* SIZE *)
  eapply (runs_app (n := 1) (a := [x08])).
  { eapply size_runs; [reflexivity|exact Hi|unfold fits; simpl; lia|unfold space; simpl; lia]. }
  (* PUSH0 x20 *)
  eapply (runs_app (n := 1) (a := [x02; x20])).
  { eapply push0_runs; [reflexivity|unfold fits; simpl; lia|unfold space; simpl; lia]. }
  (* EQUAL *)
  exact (equal_runs orc cfg tid (with_stack st ([x20] :: [bsz] :: x :: s)) [x20] [bsz] (x :: s) eq_refl
           ltac:(unfold room; simpl; lia)).
Qed.

(* from the start of the lock to the selected arm; IF_ELSE is the last instruction of the lock *)
Lemma nn_to_arm g tid st root fl x s bsz :
  tdata st tid = nonnative_taproot_lock root fl -> List.length root = 32 ->
  tid < List.length (st_tapes st) ->
  st_stack st = x :: s -> fits cfg x -> i2b (blen x) = Ret [bsz] ->
  List.length s + 3 <= c_max_items cfg -> 1 <= c_max_item_size cfg ->
  run_tape orc cfg (7 + g) tid 0 st =
    let s1 := def_state st tid x00 (push1_bytes root) in
    ifelse_last_outcome tid 72
      (run_tape orc cfg (S g) (List.length (st_tapes s1)) 0
         (sub_start (with_stack s1 (x :: s)) tid (if bytes_eqb [x20] [bsz] then sarm else karm fl))).
Proof.
  intros Hd Lr Ht Hs Fx Hi Hit Hsz. cbv zeta. rewrite nn_lock_bytes in Hd.
  set (s1 := def_state st tid x00 (push1_bytes root)).
  assert (Hh : runs orc cfg 5 tid (hdr root ++ nn_cond) st (with_stack s1 (boolb (bytes_eqb [x20] [bsz]) :: x :: s))).
  { apply (runs_app (n := 1) (m := 4) (st1 := s1)).
    - apply def_runs; [exact Ht|]. unfold blen, push1_bytes. cbn [List.length]. lia.
    - exact (cond_runs tid s1 x s bsz Hs Fx Hi Hit Hsz). }
  rewrite (runs_at (p := 0) (f := S (S g)) Hh Hd eq_refl) by reflexivity.
  pose proof (runs_data Hh) as Hd2. rewrite Hd in Hd2.
  rewrite (if_else_last orc cfg g tid _ (0 + List.length (hdr root ++ nn_cond)) (hdr root ++ nn_cond) sarm (karm fl)
             (boolb (bytes_eqb [x20] [bsz])) (x :: s) Hd2 eq_refl);
    [ | change (tid < List.length (st_tapes s1)); unfold s1; rewrite def_state_length; lia
      | reflexivity | reflexivity | reflexivity ].
  rewrite bytes_to_bool_boolb, with_stack_twice, <- (nn_lock_bytes root fl), nn_lock_len by exact Lr.
  reflexivity.
Qed.

End Lock.

Inductive vres := VBool (b : bool) | VFuel | VUnmod (w : string).

Definition vres_of_auth (r : auth_result) : vres :=
  match r with AuthVerdict b _ => VBool b | AuthFuel => VFuel | AuthUnmod w => VUnmod w end.

(* the verdict when the outcome [o] is that of the LAST script: the stack must be exactly [xff] *)
Definition vres_of_run (o : outcome unit) : vres :=
  match o with
  | Done _ _ st' => VBool (accepting st')
  | Raised _ _ _ => VBool false
  | OutOfFuel => VFuel
  | Unmodelled w => VUnmod w
  end.

Lemma vres_of_finish o : vres_of_auth (finish o) = vres_of_run o.
Proof.
  destruct o as [[] fr st|e fr st| |w]; try reflexivity.
  unfold vres_of_run, accepting. cbn [finish]. destruct (st_stack st) as [|i [|j l]]; reflexivity.
Qed.

(* an instruction that runs another tape and then leaves the stack alone hands the verdict of that tape on *)
Lemma vres_call_outcome post q tid r o :
  (forall s, st_stack (post s) = st_stack s) -> vres_of_run (call_outcome post q tid r o) = vres_of_run o.
Proof.
  intro Hpost. destruct o as [[] fr st|e fr st| |w]; try reflexivity.
  cbn [call_outcome vres_of_run]. unfold accepting. rewrite Hpost. reflexivity.
Qed.

Section Key.
Variable orc : oracle.
Variable cfg : config.
Notation sub f := (fun t s0 => run_tape orc cfg f t 0 s0).

(* the signature check of both key paths, as a function of the oracle's answer *)
Definition key_outcome (root sig : bytes) (fl : byte) (c0 : cache) : vres :=
  if negb (flags_permitted (sig_flag sig) (b2z fl)) then VBool false
  else match msg_of (sig_flag sig) c0 with
       | None => VBool false
       | Some m =>
         if c_max_item_size cfg <? List.length m then VBool false
         else match orc PVerify [root; m; firstn 64 sig] with
              | OErr _ => VBool false
              | OOk [x] => VBool (bytes_to_bool x)
              | OOk _ => VUnmod "oracle arity"
              end
       end.

Lemma key_outcome_true root sig fl c0 :
  key_outcome root sig fl c0 = VBool true <-> sig_accepts orc cfg root sig (b2z fl) c0.
Proof.
  unfold key_outcome, sig_accepts.
  destruct (flags_permitted (sig_flag sig) (b2z fl)); cbn [negb].
  2:{ split; [discriminate|]. intros [H _]. discriminate. }
  destruct (msg_of (sig_flag sig) c0) as [m|].
  2:{ split; [discriminate|]. intros (_ & m & x & H & _). discriminate. }
  destruct (c_max_item_size cfg <? List.length m) eqn:El.
  { apply Nat.ltb_lt in El. split; [discriminate|]. intros (_ & m' & x & H & Hlen & _).
    injection H as <-. lia. }
  apply Nat.ltb_ge in El.
  destruct (orc PVerify [root; m; firstn 64 sig]) as [[|x [|y l]]|e] eqn:Eo.
  - split; [discriminate|]. intros (_ & m' & x & H & _ & H2 & _). injection H as <-. congruence.
  - split.
    + intro H. injection H as Hb. split; [reflexivity|]. exists m, x. repeat split; assumption.
    + intros (_ & m' & x' & H & _ & H2 & H3). injection H as <-.
      assert (Hx : OOk [x'] = OOk [x]) by (rewrite <- H2; exact Eo). injection Hx as <-. rewrite H3. reflexivity.
  - split; [discriminate|]. intros (_ & m' & x' & H & _ & H2 & _). injection H as <-. congruence.
  - split; [discriminate|]. intros (_ & m' & x' & H & _ & H2 & _). injection H as <-. congruence.
Qed.

(* the check on the stack [root; sig], every outcome against [key_outcome]; [c0] is any cache that selects
   the same message *)
Lemma check_sig_body_key run fr s fl root sig c0 :
  st_stack s = [root; sig] -> List.length root = 32 -> (List.length sig = 64 \/ List.length sig = 65) ->
  msg_of (sig_flag sig) (st_cache s) = msg_of (sig_flag sig) c0 -> room cfg [] ->
  match interp orc cfg run (check_sig_body (b2z fl)) fr s with
  | Done _ fr' s' => fr' = fr /\ exists b, s' = with_stack s [boolb b] /\ key_outcome root sig fl c0 = VBool b
  | Raised _ _ _ => key_outcome root sig fl c0 = VBool false
  | OutOfFuel => False
  | Unmodelled w => key_outcome root sig fl c0 = VUnmod w
  end.
Proof.
  intros Hs Lr Lsig Hm [Hr1 Hr2].
  assert (E1 : negb (blen root =? 32)%Z = false) by (unfold blen; rewrite Lr; reflexivity).
  assert (E2 : negb ((blen sig =? 64) || (blen sig =? 65))%Z = false)
    by (unfold blen; destruct Lsig as [->| ->]; reflexivity).
  assert (E3 : (c_max_items cfg <=? @List.length bytes []) = false) by (apply Nat.leb_gt; exact Hr1).
  assert (E4 : (c_max_item_size cfg <? 1) = false) by (apply Nat.ltb_ge; exact Hr2).
  rewrite (check_sig_body_exact orc cfg run (b2z fl) fr s root sig [] Hs). cbv zeta.
  rewrite E1, E2, Hm, E3, E4. unfold key_outcome.
  destruct (flags_permitted (sig_flag sig) (b2z fl)); cbn [negb]; [|reflexivity].
  destruct (msg_of (sig_flag sig) c0) as [m|]; [|reflexivity].
  rewrite orb_false_r.
  destruct (c_max_item_size cfg <? List.length m); [reflexivity|].
  destruct (orc PVerify [root; m; firstn 64 sig]) as [[|x [|y l]]|e]; try reflexivity.
  split; [reflexivity|]. exists (bytes_to_bool x). split; reflexivity.
Qed.

(* the tape ends with an instruction that comes down to this check *)
Lemma key_last f tid p st data c fl s root sig c0 :
  tdata st tid = data -> skipn p data = [c; fl] ->
  interp orc cfg (sub (S f)) (dispatch (N.to_nat (Byte.to_N c))) {| fr_tid := tid; fr_ptr := S p |} st =
    interp orc cfg (sub (S f)) (check_sig_body (b2z fl)) {| fr_tid := tid; fr_ptr := S p + 1 |} s ->
  tdata s tid = data -> st_stack s = [root; sig] ->
  List.length root = 32 -> (List.length sig = 64 \/ List.length sig = 65) ->
  msg_of (sig_flag sig) (st_cache s) = msg_of (sig_flag sig) c0 -> room cfg [] ->
  vres_of_run (run_tape orc cfg (S (S f)) tid p st) = key_outcome root sig fl c0.
Proof.
  intros Hd Hp Hi Hds Hs Lr Lsig Hm Hr.
  rewrite (run_tape_fetch_at orc cfg (S f) tid p st data c [fl] Hd Hp), Hi.
  pose proof (check_sig_body_key (sub (S f)) {| fr_tid := tid; fr_ptr := S p + 1 |} s fl root sig c0
                Hs Lr Lsig Hm Hr) as H.
  destruct (interp orc cfg _ (check_sig_body (b2z fl)) _ s) as [[] fr' s'|e fr' s'| |w];
    cbn [vres_of_run]; [|symmetry; exact H|contradiction|symmetry; exact H].
  destruct H as (-> & b & -> & ->). cbn [fr_ptr].
  rewrite run_tape_end_at with (data := data); [|exact Hds|].
  - unfold vres_of_run, accepting. cbn [st_stack with_stack]. rewrite boolb_is_true. reflexivity.
  - exact (skipn_app_r (S p) data [fl] [] (skipn_S_of data p c [fl] Hp)).
Qed.

Lemma msg_of_after_call s A T c g : msg_of g (st_cache (after_call s A T c)) = msg_of g (st_cache s).
Proof. unfold after_call. cbv zeta. cbn [st_cache with_cache]. apply msg_of_del_returned. Qed.

(* the key arm:  call d0 ; check_sig fl  on the stack [sig] *)
Lemma key_arm_runs f A T sA sig root fl c c0 :
  tdata sA A = karm fl -> st_stack sA = [sig] ->
  A < List.length (st_tapes sA) -> T < List.length (st_tapes sA) -> T <> A ->
  tdata sA T = push1_bytes root ->
  to_count (nth_tape sA A) = c -> (c <? c_limit cfg)%Z = true ->
  defs_get (nth_defs sA (to_defs (nth_tape sA A))) x00 = Some T ->
  List.length root = 32 -> (List.length sig = 64 \/ List.length sig = 65) ->
  (forall g, msg_of g (st_cache sA) = msg_of g c0) ->
  32 <= c_max_item_size cfg -> 2 <= c_max_items cfg ->
  vres_of_run (run_tape orc cfg (3 + f) A 0 sA) = key_outcome root sig fl c0.
Proof.
  intros Hd Hs HA HT Hne HdT Hc Hlim Hg Lr Lsig Hmsg Hsz Hit. cbn [Nat.add].
  rewrite (call_d0_step orc cfg f A T sA 0 (karm fl) [x23; fl] root [sig] c Hd eq_refl HA HT Hne HdT Lr Hc Hlim Hg
             Hs Hsz) by (unfold space; simpl; lia).
  set (sC := with_stack (after_call sA A T c) [root; sig]).
  assert (HdC : tdata sC A = karm fl) by (rewrite <- Hd; apply (tdata_after_call sA A T c A)).
  apply (key_last f A 2 sC (karm fl) x23 fl (sigext_log cfg sC) root sig c0 HdC eq_refl).
  - change (dispatch (N.to_nat (Byte.to_N x23))) with OP_CHECK_SIG.
    exact (check_sig_decomposed orc cfg _ _ sC fl [] (data_at_next A 2 sC (karm fl) x23 [fl] HdC eq_refl)).
  - exact HdC.
  - reflexivity.
  - exact Lr.
  - exact Lsig.
  - change (st_cache (sigext_log cfg sC)) with (st_cache (after_call sA A T c)).
    rewrite msg_of_after_call. apply Hmsg.
  - unfold room. simpl. lia.
Qed.

(* the state in which the last script starts (auth_rest) *)
Lemma start_facts st0 prev lock :
  let tid := fst (next_start st0 prev lock) in
  let st := snd (next_start st0 prev lock) in
  tdata st tid = lock /\ tid < List.length (st_tapes st) /\ st_stack st = st_stack st0 /\
  to_count (nth_tape st tid) = to_count (nth_tape st0 prev) /\
  to_defs (nth_tape st tid) = to_defs (nth_tape st0 prev) /\
  st_defs st = st_defs st0 /\
  cache_get (st_cache st) returned_key = None /\
  (forall g, msg_of g (st_cache st) = msg_of g (st_cache st0)) /\
  tid = List.length (st_tapes st0).
Proof.
  cbv zeta. destruct (next_start_spec st0 prev lock) as (_ & H2 & H3 & H4 & H5 & _).
  split; [apply next_start_tdata|]. split; [apply next_start_lt|].
  split; [exact H4|]. split; [exact H2|]. split; [exact H3|]. split; [exact H5|].
  split; [apply next_start_returned|]. split; [intro g; apply next_start_msg|reflexivity].
Qed.

(* key path of the non-native lock, from the start of the lock tape *)
Lemma nn_key_lock f tid st root fl sig c0 :
  tdata st tid = nonnative_taproot_lock root fl -> tid < List.length (st_tapes st) ->
  to_defs (nth_tape st tid) < List.length (st_defs st) ->
  st_stack st = [sig] -> List.length root = 32 -> (List.length sig = 64 \/ List.length sig = 65) ->
  (to_count (nth_tape st tid) <? c_limit cfg)%Z = true ->
  (forall g, msg_of g (st_cache st) = msg_of g c0) ->
  65 <= c_max_item_size cfg -> 3 <= c_max_items cfg ->
  vres_of_run (run_tape orc cfg (9 + f) tid 0 st) = key_outcome root sig fl c0.
Proof.
  intros Hd Ht Hdid Hs Lr Lsig Hlim Hmsg Hsz Hit.
  assert (Hi : exists bsz, i2b (blen sig) = Ret [bsz] /\ bytes_eqb [x20] [bsz] = false).
  { unfold blen. destruct Lsig as [->| ->]; [exists x40|exists x41]; split; reflexivity. }
  destruct Hi as (bsz & Hi & Hne).
  change (9 + f) with (7 + (2 + f)).
  rewrite (nn_to_arm orc cfg (2 + f) tid st root fl sig [] bsz Hd Lr Ht Hs) ;
    [ | unfold fits; destruct Lsig; lia | exact Hi | simpl; lia | lia ].
  cbv zeta. rewrite Hne, ifelse_last_outcome_call, (vres_call_outcome _ _ _ _ _ stack_prop_cache).
  destruct (arm_facts st tid root [sig] (karm fl) Ht) as (EA & F3 & F1 & F4 & F7 & F5 & F6 & _ & Fd).
  set (s1 := def_state st tid x00 (push1_bytes root)) in *.
  set (A := List.length (st_tapes s1)) in *.
  set (sA := sub_start (with_stack s1 [sig]) tid (karm fl)) in *.
  set (T := List.length (st_tapes st)) in *.
  assert (Hg : defs_get (nth_defs sA (to_defs (nth_tape sA A))) x00 = Some T)
    by (rewrite F6, (Fd Hdid); apply defs_get_put_same).
  apply (key_arm_runs f A T sA sig root fl (to_count (nth_tape st tid)) c0 F1 eq_refl); try assumption; try lia.
Qed.

Lemma native_lock_bytes root fl : taproot_lock root fl = push1_bytes root ++ [x5b; fl].
Proof. unfold taproot_lock, encode, P1. cbn [flat_map encode1]. reflexivity. Qed.

Lemma native_lock_len root fl : List.length root = 32 -> List.length (taproot_lock root fl) = 36.
Proof. intro H. rewrite native_lock_bytes, app_length. unfold push1_bytes. simpl. lia. Qed.

(* key path of the native lock, from the start of the lock tape *)
Lemma native_key_lock f tid st root fl sig c0 :
  tdata st tid = taproot_lock root fl ->
  st_stack st = [sig] -> List.length root = 32 -> (List.length sig = 64 \/ List.length sig = 65) ->
  (forall g, msg_of g (st_cache st) = msg_of g c0) ->
  65 <= c_max_item_size cfg -> 2 <= c_max_items cfg ->
  vres_of_run (run_tape orc cfg (3 + f) tid 0 st) = key_outcome root sig fl c0.
Proof.
  intros Hd Hs Lr Lsig Hmsg Hsz Hit. pose proof Hd as Hd0. rewrite native_lock_bytes in Hd. cbn [Nat.add].
  rewrite (runs1_at (p := 0) (code := push1_bytes root)
             (push1_runs orc cfg tid st root [sig] ltac:(lia) Hs ltac:(unfold fits; lia) ltac:(unfold space; simpl; lia))
             Hd eq_refl).
  set (st1 := with_stack st [root; sig]).
  apply (key_last f tid _ st1 _ x5b fl (sigext_log cfg st1) root sig c0 Hd (skipn_app_r 0 _ _ _ eq_refl)).
  - change (dispatch (N.to_nat (Byte.to_N x5b))) with OP_TAPROOT.
    apply (taproot_key_path orc cfg _ _ st1 fl [] root sig []
             (data_at_next tid _ st1 _ x5b [fl] Hd (skipn_app_r 0 _ _ _ eq_refl)) eq_refl Lr);
      [destruct Lsig; lia|simpl; lia|lia].
  - exact Hd.
  - reflexivity.
  - exact Lr.
  - exact Lsig.
  - apply Hmsg.
  - unfold room. simpl. lia.
Qed.

End Key.

Section Script.
Variable orc : oracle.
Variable cfg : config.
Notation sub f := (fun t s0 => run_tape orc cfg f t 0 s0).

(* the tape ends with an instruction that comes down to OP_EVAL of [script] *)
Lemma eval_body_last f tid p st data c tail s script rest :
  tdata st tid = data -> skipn p data = c :: tail ->
  interp orc cfg (sub (S f)) (dispatch (N.to_nat (Byte.to_N c))) {| fr_tid := tid; fr_ptr := S p |} st =
    interp orc cfg (sub (S f)) eval_body {| fr_tid := tid; fr_ptr := S p + List.length tail |} s ->
  tid < List.length (st_tapes s) -> tdata s tid = data ->
  no_eval_ban cfg -> st_stack s = script :: rest -> (to_count (nth_tape s tid) < c_limit cfg)%Z -> script <> [] ->
  vres_of_run (run_tape orc cfg (S (S f)) tid p st) =
    vres_of_run (run_tape orc cfg (S f) (List.length (st_tapes s)) 0 (eval_start (with_stack s rest) tid script)).
Proof.
  intros Hd Hp Hi Hlt Hds Hfl Hs Hc Hne.
  rewrite (eval_finish_last orc cfg f tid p st data c tail (List.length (st_tapes s))
             (eval_start (with_stack s rest) tid script) Hd Hp).
  - rewrite eval_last_outcome_call. apply vres_call_outcome. apply stack_eval_cache.
  - erewrite tapes_len_new by reflexivity. exact (Nat.lt_lt_succ_r _ _ Hlt).
  - erewrite tdata_old; [exact Hds|reflexivity|exact Hlt].
  - rewrite Hi. exact (eval_exec orc cfg _ tid _ s script rest Hfl Hs Hc Hne).
Qed.

Lemma nth_tape_after_call_A s A T c :
  A < List.length (st_tapes s) -> T <> A ->
  nth_tape (after_call s A T c) A =
    {| to_data := to_data (nth_tape s A); to_count := (c + 1)%Z; to_defs := to_defs (nth_tape s A) |}.
Proof.
  intros HA Hne. unfold after_call. cbv zeta.
  change (nth_tape (set_count (set_count s A (c + 1)) T (c + 1)) A = 
          {| to_data := to_data (nth_tape s A); to_count := (c + 1)%Z; to_defs := to_defs (nth_tape s A) |}).
  rewrite nth_tape_set_count_other by exact Hne. apply nth_tape_set_count_same. exact HA.
Qed.

Lemma after_call_tapes_len s A T c : List.length (st_tapes (after_call s A T c)) = List.length (st_tapes s).
Proof.
  unfold after_call. cbv zeta. cbn [st_tapes with_cache]. rewrite !set_count_length. reflexivity.
Qed.

(* the state in which the committed script starts under the non-native lock *)
Definition nn_eval_state (st : state) (tid : nat) (root key script : bytes) (rest : list bytes) (point : bytes) : state :=
  let s1 := def_state st tid x00 (push1_bytes root) in
  let A := List.length (st_tapes s1) in
  let T := List.length (st_tapes st) in
  let sA := sub_start (with_stack s1 (key :: script :: rest)) tid sarm in
  let sC := after_call (xstate cfg sA point) A T (to_count (nth_tape st tid)) in
  eval_start (with_stack sC rest) A script.

(* the state in which the committed script starts under the native lock *)
Definition native_eval_state (st : state) (tid : nat) (script : bytes) (rest : list bytes) : state :=
  eval_start (with_stack st rest) tid script.

(* what the oracle answers on the way from (key, script) to the point that must equal the root *)
Section Committed.
Variables (key script : bytes) (rest : list bytes) (hs h point agg : bytes).
Hypotheses (Lk : List.length key = 32) (Lh : List.length h = 32).
Hypotheses (O1 : orc PSha256 [script] = OOk [hs]) (O2 : orc PSha256 [key ++ hs] = OOk [h]).
Hypothesis O3 : orc PBaseMult [clamp32 h] = OOk [point].
Hypotheses (O4 : orc PValidPoint [point] = OOk [[x01]]) (O5 : orc PValidPoint [key] = OOk [[x01]]).
Hypothesis O6 : orc PPointAdd [point; key] = OOk [agg].
Hypotheses (Fs : fits cfg script) (Hsz : 32 <= c_max_item_size cfg).
(* the non-native lock computes the point on the stack *)
Hypotheses (Fhs : fits cfg hs) (Fc : fits cfg (key ++ hs)) (Fp : fits cfg point) (Fa : fits cfg agg).

(* the script arm up to `call d0`: the point committed to by key and script is on top of the stack *)
Lemma script_arm_runs A sA :
  st_stack sA = key :: script :: rest ->
  List.length rest + 4 <= c_max_items cfg ->
  runs orc cfg 10 A (firstn 16 sarm) sA (with_stack (xstate cfg sA point) (agg :: script :: rest)).
Proof.
  intros Hs Hit.
  assert (Fk : fits cfg key) by (unfold fits; lia).
  (* each step splits the code of one instruction off with runs_app; the lemma of the instruction gives the next
     state, read off the stack of the present one *)
  (* DUP *)
  eapply (runs_app (n := 1) (a := [x1d])).
  { apply (dup_runs orc cfg A sA key (script :: rest) Hs Fk). simpl. lia. }
  (* SWAP 0 2 *)
  eapply (runs_app (n := 1) (a := [x34; x00; x02])).
  { apply swap_runs; [reflexivity|simpl; lia|simpl; lia]. }
  cbn [st_stack with_stack]. change (Z.to_nat (b2z x00)) with 0. change (Z.to_nat (b2z x02)) with 2.
  cbn [swap_nth list_set nth].
  (* DUP *)
  eapply (runs_app (n := 1) (a := [x1d])).
  { eapply dup_runs; [reflexivity|exact Fs|simpl; lia]. }
  (* SWAP 1 3 *)
  eapply (runs_app (n := 1) (a := [x34; x01; x03])).
  { apply swap_runs; [reflexivity|simpl; lia|simpl; lia]. }
  cbn [st_stack with_stack]. change (Z.to_nat (b2z x01)) with 1. change (Z.to_nat (b2z x03)) with 3.
  cbn [swap_nth list_set nth].
  (* SHA256 *)
  eapply (runs_app (n := 1) (a := [x1e])).
  { eapply sha256_runs; [reflexivity|exact O1|exact Fhs|unfold space; simpl; lia]. }
  (* CONCAT *)
  eapply (runs_app (n := 1) (a := [x37])).
  { eapply concat_runs; [reflexivity|exact Fc|unfold space; simpl; lia]. }
  (* SHA256 *)
  eapply (runs_app (n := 1) (a := [x1e])).
  { eapply sha256_runs; [reflexivity|exact O2|unfold fits; lia|unfold space; simpl; lia]. }
  (* CLAMP_SCALAR x00 *)
  eapply (runs_app (n := 1) (a := [x4c; x00])).
  { eapply clamp_runs; [reflexivity|exact Lh|exact Hsz|unfold space; simpl; lia]. }
  (* DERIVE_POINT *)
  eapply (runs_app (n := 1) (a := [x4f])).
  { eapply derive_point_runs; [reflexivity|exact O3|exact Fp|unfold space; simpl; lia]. }
  rewrite !xstate_with_stack.
  (* ADD_POINTS x02 *)
  exact (add_points2_runs orc cfg A (with_stack (xstate cfg sA point) (point :: key :: script :: rest)) point key
           (script :: rest) agg eq_refl O4 O5 O6 Fa ltac:(unfold space; simpl; lia)).
Qed.

(* the script arm up to EVAL *)
Lemma script_arm_to_eval f A T sA root c :
  tdata sA A = sarm -> st_stack sA = key :: script :: rest ->
  A < List.length (st_tapes sA) -> T < List.length (st_tapes sA) -> T <> A ->
  tdata sA T = push1_bytes root ->
  to_count (nth_tape sA A) = c -> (c <? c_limit cfg)%Z = true ->
  defs_get (nth_defs sA (to_defs (nth_tape sA A))) x00 = Some T ->
  List.length root = 32 ->
  List.length rest + 4 <= c_max_items cfg ->
  run_tape orc cfg (14 + f) A 0 sA =
    let sC := after_call (xstate cfg sA point) A T c in
    if bytes_eqb agg root then run_tape orc cfg (S (S f)) A 19 (with_stack sC (script :: rest))
    else Raised ScriptExecutionError {| fr_tid := A; fr_ptr := 19 |} (with_stack sC (script :: rest)).
Proof.
  intros Hd Hs HA HT Hne HdT Hc Hlim Hg Lr Hit. cbv zeta.
  rewrite (runs_at (p := 0) (f := S (S (S (S f))))
             (script_arm_runs A sA Hs Hit)
             Hd eq_refl) by reflexivity.
  change (0 + List.length (firstn 16 sarm)) with 16.
  set (sX := xstate cfg sA point).
  assert (HdX : tdata sX A = sarm) by (unfold sX; rewrite xstate_tdata; exact Hd).
  assert (HdTX : tdata sX T = push1_bytes root) by (unfold sX; rewrite xstate_tdata; exact HdT).
  assert (HAX : A < List.length (st_tapes sX)) by (unfold sX; rewrite xstate_tapes; exact HA).
  assert (HTX : T < List.length (st_tapes sX)) by (unfold sX; rewrite xstate_tapes; exact HT).
  assert (HcX : to_count (nth_tape sX A) = c) by (unfold sX; rewrite xstate_nth_tape; exact Hc).
  assert (HgX : defs_get (nth_defs sX (to_defs (nth_tape sX A))) x00 = Some T)
    by (unfold sX; rewrite xstate_nth_tape, xstate_nth_defs; exact Hg).
  (* CALL x00 *)
  rewrite (call_d0_step orc cfg (S f) A T (with_stack sX (agg :: script :: rest)) 16 sarm [x22; x2d] root
             (agg :: script :: rest) c HdX eq_refl HAX HTX Hne HdTX Lr HcX Hlim HgX eq_refl Hsz)
    by (unfold space; simpl; lia).
  rewrite after_call_with_stack. set (sC := after_call sX A T c).
  (* EQUAL_VERIFY *)
  rewrite (equal_verify_step orc cfg (S (S f)) A (16 + 2) (with_stack sC (root :: agg :: script :: rest)) sarm [x2d]
             root agg (script :: rest));
    [ | rewrite <- HdX; apply (tdata_after_call sX A T c A) | reflexivity
      | reflexivity | unfold room; simpl; lia ].
  rewrite (bytes_eqb_sym root agg). reflexivity.
Qed.

Lemma nn_script_lock f tid st root fl :
  tdata st tid = nonnative_taproot_lock root fl -> tid < List.length (st_tapes st) ->
  to_defs (nth_tape st tid) < List.length (st_defs st) ->
  st_stack st = key :: script :: rest ->
  List.length root = 32 ->
  List.length rest + 4 <= c_max_items cfg ->
  script <> [] ->
  flag_get (c_flags cfg) (FKStr (str "disallow_OP_EVAL")) = None ->
  (to_count (nth_tape st tid) + 1 <? c_limit cfg)%Z = true ->
  vres_of_run (run_tape orc cfg (20 + f) tid 0 st) =
    if bytes_eqb agg root
    then vres_of_run (run_tape orc cfg (S f) (List.length (st_tapes st) + 2) 0
                        (nn_eval_state st tid root key script rest point))
    else VBool false.
Proof.
  intros Hd Ht Hdid Hs Lr Hit Hne Hflag Hlim.
  assert (Hlim0 : (to_count (nth_tape st tid) <? c_limit cfg)%Z = true).
  { apply Z.ltb_lt. apply Z.ltb_lt in Hlim. lia. }
  change (20 + f) with (7 + (13 + f)).
  rewrite (nn_to_arm orc cfg (13 + f) tid st root fl key (script :: rest) x20 Hd Lr Ht Hs);
    [ | unfold fits; lia | unfold blen; rewrite Lk; exact i2b_32 | simpl; lia | lia ].
  cbv zeta. change (bytes_eqb [x20] [x20]) with true. cbv iota.
  rewrite ifelse_last_outcome_call, (vres_call_outcome _ _ _ _ _ stack_prop_cache).
  destruct (arm_facts st tid root (key :: script :: rest) sarm Ht) as (EA & F3 & F1 & F4 & F7 & F5 & F6 & _ & Fd).
  unfold nn_eval_state. cbv zeta.
  set (s1 := def_state st tid x00 (push1_bytes root)) in *.
  set (A := List.length (st_tapes s1)) in *.
  set (sA := sub_start (with_stack s1 (key :: script :: rest)) tid sarm) in *.
  set (T := List.length (st_tapes st)) in *.
  set (c := to_count (nth_tape st tid)) in *.
  assert (Hg : defs_get (nth_defs sA (to_defs (nth_tape sA A))) x00 = Some T)
    by (rewrite F6, (Fd Hdid); apply defs_get_put_same).
  change (S (13 + f)) with (14 + f).
  rewrite (script_arm_to_eval f A T sA root c F1 eq_refl); try assumption; try lia.
  cbv zeta. destruct (bytes_eqb agg root); [|reflexivity].
  set (sC := after_call (xstate cfg sA point) A T c).
  assert (HdC : tdata (with_stack sC (script :: rest)) A = sarm).
  { rewrite <- F1. change (tdata sC A = tdata sA A). unfold sC. rewrite tdata_after_call. apply xstate_tdata. }
  assert (HlenC : List.length (st_tapes sC) = S (S T)).
  { unfold sC. rewrite after_call_tapes_len, xstate_tapes. exact F3. }
  (* EVAL *)
  replace (T + 2) with (List.length (st_tapes (with_stack sC (script :: rest))))
    by (change (List.length (st_tapes sC) = T + 2); lia).
  apply (eval_body_last f A 19 _ sarm x2d [] (with_stack sC (script :: rest)) script rest HdC eq_refl eq_refl);
    [ change (A < List.length (st_tapes sC)); lia | exact HdC | exact Hflag | reflexivity | | exact Hne ].
  change (nth_tape (with_stack sC (script :: rest)) A) with (nth_tape sC A). unfold sC.
  rewrite nth_tape_after_call_A by (rewrite ?xstate_tapes; lia). apply Z.ltb_lt. exact Hlim.
Qed.

Lemma native_script_lock f tid st root fl :
  tdata st tid = taproot_lock root fl -> tid < List.length (st_tapes st) ->
  st_stack st = key :: script :: rest ->
  List.length root = 32 ->
  List.length rest + 3 <= c_max_items cfg ->
  script <> [] ->
  flag_get (c_flags cfg) (FKStr (str "disallow_OP_EVAL")) = None ->
  (to_count (nth_tape st tid) <? c_limit cfg)%Z = true ->
  vres_of_run (run_tape orc cfg (3 + f) tid 0 st) =
    if bytes_eqb agg root
    then vres_of_run (run_tape orc cfg (S f) (List.length (st_tapes st)) 0 (native_eval_state st tid script rest))
    else VBool false.
Proof.
  intros Hd Ht Hs Lr Hit Hne Hflag Hlim.
  pose proof (native_lock_len root fl Lr) as Hlen. rewrite native_lock_bytes in Hd, Hlen. cbn [Nat.add].
  rewrite (runs1_at (p := 0) (code := push1_bytes root)
             (push1_runs orc cfg tid st root _ ltac:(lia) Hs ltac:(unfold fits; lia) ltac:(unfold space; simpl; lia))
             Hd eq_refl).
  set (st1 := with_stack st (root :: key :: script :: rest)).
  assert (Hp : skipn (0 + List.length (push1_bytes root)) (push1_bytes root ++ [x5b; fl]) = [x5b; fl])
    by exact (skipn_app_r 0 _ _ _ eq_refl).
  pose proof (fun run => taproot_script_path orc cfg run _ st1 fl [] root key script rest hs h point agg
                (data_at_next tid _ st1 _ x5b [fl] Hd Hp) eq_refl Lr Lk Lh O1 O2 O3 O4 O5 O6 Fs ltac:(lia) ltac:(lia))
    as Hi.
  destruct (bytes_eqb agg root).
  - apply (eval_body_last f tid _ st1 _ x5b [fl] (with_stack st1 (script :: rest)) script rest Hd Hp (Hi _));
      [exact Ht|exact Hd|exact Hflag|reflexivity|apply Z.ltb_lt; exact Hlim|exact Hne].
  - rewrite (run_tape_fetch_at orc cfg (S f) tid _ st1 _ x5b [fl] Hd Hp).
    change (dispatch (N.to_nat (Byte.to_N x5b))) with OP_TAPROOT. rewrite Hi.
    cbn [fr_ptr adv fr_tid]. rewrite run_tape_end.
    + unfold vres_of_run, accepting. cbn [st_stack with_stack]. destruct rest; reflexivity.
    + change (List.length (tdata st tid) <= S (0 + List.length (push1_bytes root)) + 1). rewrite Hd, Hlen.
      unfold push1_bytes. cbn [List.length]. lia.
Qed.

End Committed.

End Script.

(* the lock as the last script of run_auth_scripts (auth_rest), after any witness that left the machine in
   state st0 (previous top-level tape [prev]) *)
Section Main.
Variable orc : oracle.
Variable cfg : config.

(* key path, non-native lock.  The witness left exactly [sig] (64 or 65 bytes).
   Premises special to the non-native lock: the definition table of the witness tape exists (true of every
   reachable state), the call budget is not used up (call d0 spends one unit), three stack slots. *)
Theorem nonnative_key_path f prev st0 root fl sig :
  st_stack st0 = [sig] -> List.length root = 32 -> (List.length sig = 64 \/ List.length sig = 65) ->
  to_defs (nth_tape st0 prev) < List.length (st_defs st0) ->
  (to_count (nth_tape st0 prev) <? c_limit cfg)%Z = true ->
  65 <= c_max_item_size cfg -> 3 <= c_max_items cfg ->
  vres_of_auth (auth_rest orc cfg (9 + f) [nonnative_taproot_lock root fl] prev st0) =
    key_outcome orc cfg root sig fl (st_cache st0).
Proof.
  intros Hs Lr Lsig Hdid Hlim Hsz Hit.
  rewrite auth_last, vres_of_finish.
  destruct (start_facts st0 prev (nonnative_taproot_lock root fl)) as (S1 & S2 & S3 & S4 & S5 & S6 & S7 & S8 & S9).
  apply nn_key_lock; try assumption.
  all: first [ rewrite S5, S6; exact Hdid | rewrite S3; exact Hs | rewrite S4; exact Hlim ].
Qed.

Theorem native_key_path f prev st0 root fl sig :
  st_stack st0 = [sig] -> List.length root = 32 -> (List.length sig = 64 \/ List.length sig = 65) ->
  65 <= c_max_item_size cfg -> 2 <= c_max_items cfg ->
  vres_of_auth (auth_rest orc cfg (3 + f) [taproot_lock root fl] prev st0) =
    key_outcome orc cfg root sig fl (st_cache st0).
Proof.
  intros Hs Lr Lsig Hsz Hit.
  rewrite auth_last, vres_of_finish.
  destruct (start_facts st0 prev (taproot_lock root fl)) as (S1 & S2 & S3 & S4 & S5 & S6 & S7 & S8 & S9).
  apply native_key_lock; try assumption.
  all: rewrite S3; exact Hs.
Qed.

(* the two key paths give the same verdict (the same unmodelled-oracle report too), and it is `true`
   exactly when the signature is accepted under the root with the allowed-flags byte fl *)
Theorem key_path_same_verdict f f' prev st0 root fl sig :
  st_stack st0 = [sig] -> List.length root = 32 -> (List.length sig = 64 \/ List.length sig = 65) ->
  to_defs (nth_tape st0 prev) < List.length (st_defs st0) ->
  (to_count (nth_tape st0 prev) <? c_limit cfg)%Z = true ->
  65 <= c_max_item_size cfg -> 3 <= c_max_items cfg ->
  vres_of_auth (auth_rest orc cfg (9 + f) [nonnative_taproot_lock root fl] prev st0) =
    vres_of_auth (auth_rest orc cfg (3 + f') [taproot_lock root fl] prev st0) /\
  (vres_of_auth (auth_rest orc cfg (9 + f) [nonnative_taproot_lock root fl] prev st0) = VBool true <->
   sig_accepts orc cfg root sig (b2z fl) (st_cache st0)) /\
  (vres_of_auth (auth_rest orc cfg (3 + f') [taproot_lock root fl] prev st0) = VBool true <->
   sig_accepts orc cfg root sig (b2z fl) (st_cache st0)).
Proof.
  intros Hs Lr Lsig Hdid Hlim Hsz Hit.
  rewrite (nonnative_key_path f prev st0 root fl sig) by assumption.
  rewrite (native_key_path f' prev st0 root fl sig) by (first [assumption | lia]).
  split; [reflexivity|]. split; apply key_outcome_true.
Qed.

(* script path, non-native lock.  The witness left key (32 bytes) on top of script.
   st is the state in which the lock tape (id tid) starts. *)
Theorem nonnative_script_path f prev st0 root fl key script rest hs h point agg :
  st_stack st0 = key :: script :: rest ->
  List.length root = 32 -> List.length key = 32 -> List.length h = 32 ->
  orc PSha256 [script] = OOk [hs] -> orc PSha256 [key ++ hs] = OOk [h] ->
  orc PBaseMult [clamp32 h] = OOk [point] ->
  orc PValidPoint [point] = OOk [[x01]] -> orc PValidPoint [key] = OOk [[x01]] ->
  orc PPointAdd [point; key] = OOk [agg] ->
  fits cfg script -> fits cfg hs -> fits cfg (key ++ hs) -> fits cfg point -> fits cfg agg ->
  List.length rest + 4 <= c_max_items cfg -> 32 <= c_max_item_size cfg ->
  script <> [] ->
  flag_get (c_flags cfg) (FKStr (str "disallow_OP_EVAL")) = None ->
  to_defs (nth_tape st0 prev) < List.length (st_defs st0) ->
  (to_count (nth_tape st0 prev) + 1 <? c_limit cfg)%Z = true ->
  let tid := List.length (st_tapes st0) in
  let st := snd (next_start st0 prev (nonnative_taproot_lock root fl)) in
  vres_of_auth (auth_rest orc cfg (20 + f) [nonnative_taproot_lock root fl] prev st0) =
    if bytes_eqb agg root
    then vres_of_run (run_tape orc cfg (S f) (tid + 3) 0 (nn_eval_state cfg st tid root key script rest point))
    else VBool false.
Proof.
  intros Hs Lr Lk Lh O1 O2 O3 O4 O5 O6 Fs Fhs Fc Fp Fa Hit Hsz Hne Hflag Hdid Hlim tid st.
  rewrite auth_last, vres_of_finish.
  destruct (start_facts st0 prev (nonnative_taproot_lock root fl)) as (S1 & S2 & S3 & S4 & S5 & S6 & S7 & S8 & S9).
  fold st in S1, S2, S3, S4, S5, S6, S7, S8 |- *. rewrite S9 in *. fold tid in S1, S2, S4, S5 |- *.
  rewrite (nn_script_lock orc cfg key script rest hs h point agg Lk Lh O1 O2 O3 O4 O5 O6 Fs Hsz Fhs Fc Fp Fa
             f tid st root fl S1 S2); try assumption.
  all: try (first [ rewrite S5, S6; exact Hdid | rewrite S3; exact Hs | rewrite S4; exact Hlim ]).
  replace (List.length (st_tapes st) + 2) with (tid + 3); [reflexivity|].
  unfold st, next_start. cbn [snd st_tapes with_cache with_tapes]. rewrite app_length. simpl. unfold tid. lia.
Qed.

Theorem native_script_path f prev st0 root fl key script rest hs h point agg :
  st_stack st0 = key :: script :: rest ->
  List.length root = 32 -> List.length key = 32 -> List.length h = 32 ->
  orc PSha256 [script] = OOk [hs] -> orc PSha256 [key ++ hs] = OOk [h] ->
  orc PBaseMult [clamp32 h] = OOk [point] ->
  orc PValidPoint [point] = OOk [[x01]] -> orc PValidPoint [key] = OOk [[x01]] ->
  orc PPointAdd [point; key] = OOk [agg] ->
  fits cfg script ->
  List.length rest + 3 <= c_max_items cfg -> 32 <= c_max_item_size cfg ->
  script <> [] ->
  flag_get (c_flags cfg) (FKStr (str "disallow_OP_EVAL")) = None ->
  (to_count (nth_tape st0 prev) <? c_limit cfg)%Z = true ->
  let tid := List.length (st_tapes st0) in
  let st := snd (next_start st0 prev (taproot_lock root fl)) in
  vres_of_auth (auth_rest orc cfg (3 + f) [taproot_lock root fl] prev st0) =
    if bytes_eqb agg root
    then vres_of_run (run_tape orc cfg (S f) (tid + 1) 0 (native_eval_state st tid script rest))
    else VBool false.
Proof.
  intros Hs Lr Lk Lh O1 O2 O3 O4 O5 O6 Fs Hit Hsz Hne Hflag Hlim tid st.
  rewrite auth_last, vres_of_finish.
  destruct (start_facts st0 prev (taproot_lock root fl)) as (S1 & S2 & S3 & S4 & S5 & S6 & S7 & S8 & S9).
  fold st in S1, S2, S3, S4, S5, S6, S7, S8 |- *. rewrite S9 in *. fold tid in S1, S2, S4, S5 |- *.
  rewrite (native_script_lock orc cfg key script rest hs h point agg Lk Lh O1 O2 O3 O4 O5 O6 Fs Hsz
             f tid st root fl S1 S2); try assumption.
  all: try (first [ rewrite S3; exact Hs | rewrite S4; exact Hlim ]).
  replace (List.length (st_tapes st)) with (tid + 1); [reflexivity|].
  unfold st, next_start. cbn [snd st_tapes with_cache with_tapes]. rewrite app_length. simpl. unfold tid. lia.
Qed.

(* the two start states of the committed script, field by field, for any lock bytes.  The control flag was
   deleted when the lock started; the second deletion that `call d0` performs finds nothing to delete *)
Lemma native_start_exact st0 prev lock script rest :
  let tid := List.length (st_tapes st0) in
  let sT := native_eval_state (snd (next_start st0 prev lock)) tid script rest in
  nth_tape sT (tid + 1) =
    {| to_data := script; to_count := (to_count (nth_tape st0 prev) + 1)%Z; to_defs := List.length (st_defs st0) |} /\
  nth_defs sT (List.length (st_defs st0)) = nth_defs st0 (to_defs (nth_tape st0 prev)) /\
  st_stack sT = rest /\ st_cache sT = cache_del (st_cache st0) returned_key /\
  st_log sT = st_log st0 /\ st_rand sT = st_rand st0.
Proof.
  intros tid sT. set (st := snd (next_start st0 prev lock)) in *.
  pose proof (nth_tape_new st0 st _ eq_refl) as Hn. fold tid in Hn.
  split.
  { replace (tid + 1) with (List.length (st_tapes (with_stack st rest)))
      by (exact (eq_trans (tapes_len_new st0 st _ eq_refl) (eq_sym (Nat.add_1_r tid)))).
    rewrite (nth_tape_new (with_stack st rest) sT _ eq_refl).
    change (nth_tape (with_stack st rest) tid) with (nth_tape st tid). rewrite Hn. reflexivity. }
  split; [|repeat split; reflexivity].
  change (List.length (st_defs st0)) with (List.length (st_defs (with_stack st rest))).
  rewrite (nth_defs_new (with_stack st rest) sT _ eq_refl).
  change (nth_tape (with_stack st rest) tid) with (nth_tape st tid). rewrite Hn. reflexivity.
Qed.

Lemma nonnative_start_exact st0 prev lock root key script rest point :
  let tid := List.length (st_tapes st0) in
  let did := to_defs (nth_tape st0 prev) in
  let sN := nn_eval_state cfg (snd (next_start st0 prev lock)) tid root key script rest point in
  nth_tape sN (tid + 3) =
    {| to_data := script; to_count := (to_count (nth_tape st0 prev) + 1 + 1)%Z;
       to_defs := List.length (st_defs st0) + 1 |} /\
  (did < List.length (st_defs st0) ->
   nth_defs sN (List.length (st_defs st0) + 1) = defs_put (nth_defs st0 did) x00 (tid + 1)) /\
  to_data (nth_tape sN (tid + 1)) = push1_bytes root /\
  st_stack sN = rest /\
  st_cache sN = (if flagon cfg 2
                 then cache_set (cache_del (st_cache st0) returned_key) (KBytes (str "X")) (VOne (ABytes point))
                 else cache_del (st_cache st0) returned_key) /\
  st_log sN = st_log st0 /\ st_rand sN = st_rand st0.
Proof.
  intros tid did sN. set (st := snd (next_start st0 prev lock)) in *.
  pose proof (nth_tape_new st0 st _ eq_refl) as Hn. fold tid in Hn.
  pose proof (tapes_len_new st0 st _ eq_refl) as Hlen. fold tid in Hlen.
  destruct (arm_facts st tid root (key :: script :: rest) sarm ltac:(lia)) as (EA & F3 & F1 & F4 & F7 & F5 & F6 & Fl & Fd).
  unfold sN, nn_eval_state. cbv zeta.
  set (s1 := def_state st tid x00 (push1_bytes root)) in *.
  set (A := List.length (st_tapes s1)) in *.
  set (sA := sub_start (with_stack s1 (key :: script :: rest)) tid sarm) in *.
  set (T := List.length (st_tapes st)) in *.
  set (c := to_count (nth_tape st tid)) in *.
  set (sX := xstate cfg sA point).
  set (sC := after_call sX A T c).
  assert (HnC : nth_tape sC A = {| to_data := to_data (nth_tape sA A); to_count := (c + 1)%Z;
                                   to_defs := to_defs (nth_tape sA A) |}).
  { unfold sC. rewrite nth_tape_after_call_A by (unfold sX; rewrite ?xstate_tapes; lia).
    unfold sX. rewrite xstate_nth_tape. reflexivity. }
  assert (HlenC : List.length (st_tapes sC) = tid + 3)
    by (unfold sC, sX; rewrite after_call_tapes_len, xstate_tapes; lia).
  assert (HdefC : List.length (st_defs (with_stack sC rest)) = List.length (st_defs st0) + 1).
  { change (st_defs (with_stack sC rest)) with (st_defs sX). unfold sX. rewrite xstate_defs, Fl. exact (eq_sym (Nat.add_1_r _)). }
  split.
  { rewrite <- HlenC. change (st_tapes sC) with (st_tapes (with_stack sC rest)).
    rewrite (nth_tape_new (with_stack sC rest) (eval_start (with_stack sC rest) A script) _ eq_refl), HdefC.
    change (nth_tape (with_stack sC rest) A) with (nth_tape sC A). rewrite HnC. cbn [to_count].
    unfold c. rewrite Hn. reflexivity. }
  split.
  { intro Hdid. rewrite <- HdefC, (nth_defs_new (with_stack sC rest) (eval_start (with_stack sC rest) A script) _ eq_refl).
    change (nth_tape (with_stack sC rest) A) with (nth_tape sC A). rewrite HnC. cbn [to_defs]. rewrite F6.
    change (nth_defs (with_stack sC rest) (List.length (st_defs st))) with (nth_defs sX (List.length (st_defs st))).
    unfold sX. rewrite xstate_nth_defs, Fd by (rewrite Hn; exact Hdid).
    rewrite Hn. cbn [to_defs]. replace (tid + 1) with T by lia. reflexivity. }
  split.
  { change (tdata (eval_start (with_stack sC rest) A script) (tid + 1) = push1_bytes root).
    erewrite tdata_old; [|reflexivity|change (tid + 1 < List.length (st_tapes sC)); lia].
    change (tdata sC (tid + 1) = push1_bytes root). unfold sC. rewrite tdata_after_call. unfold sX.
    rewrite xstate_tdata. replace (tid + 1) with T by lia. exact F4. }
  split; [reflexivity|].
  split; [|split].
  - match goal with |- _ = ?R => change (cache_del (st_cache sX) returned_key = R) end.
    unfold sX, xstate. destruct (flagon cfg 2); apply cache_del_absent;
      [rewrite cache_get_set_other by reflexivity|]; apply cache_get_del_same.
  - change (st_log sX = st_log st0). unfold sX, xstate. destruct (flagon cfg 2); reflexivity.
  - change (st_rand sX = st_rand st0). unfold sX, xstate. destruct (flagon cfg 2); reflexivity.
Qed.

(* what the two sub-tapes share and where they differ.  Both hold the committed script and start from
   the same stack (the witness stack minus key and script).  Differences:
   - call count: the non-native one runs with count + 2 (call d0 and EVAL), the native one with count + 1;
   - definitions: under the non-native lock handle 0 is bound (to the tape [PUSH1 root]), so the committed
     script can itself `call d0`; under the native lock it sees the witness's definitions only;
   - heap addresses: two more tape objects (the definition, the IF_ELSE arm) and one more definition table;
   - cache: with flag 2 set OP_DERIVE_POINT caches the tweak point under b"X" (stated for flag 2 unset). *)
Theorem script_path_subtapes prev st0 root fl fl' key script rest point :
  to_defs (nth_tape st0 prev) < List.length (st_defs st0) ->
  let tid := List.length (st_tapes st0) in
  let did := to_defs (nth_tape st0 prev) in
  let c0 := to_count (nth_tape st0 prev) in
  let sN := nn_eval_state cfg (snd (next_start st0 prev (nonnative_taproot_lock root fl))) tid root key script rest point in
  let sT := native_eval_state (snd (next_start st0 prev (taproot_lock root fl'))) tid script rest in
  (tdata sN (tid + 3) = script /\ tdata sT (tid + 1) = script) /\
  (st_stack sN = rest /\ st_stack sT = rest) /\
  (to_count (nth_tape sN (tid + 3)) = (c0 + 2)%Z /\ to_count (nth_tape sT (tid + 1)) = (c0 + 1)%Z) /\
  (nth_defs sN (to_defs (nth_tape sN (tid + 3))) = defs_put (nth_defs st0 did) x00 (tid + 1) /\
   nth_defs sT (to_defs (nth_tape sT (tid + 1))) = nth_defs st0 did) /\
  (st_cache sT = cache_del (st_cache st0) returned_key /\
   (flagon cfg 2 = false -> st_cache sN = cache_del (st_cache st0) returned_key)) /\
  (st_log sN = st_log st0 /\ st_log sT = st_log st0).
Proof.
  intros Hdid tid did c0 sN sT.
  destruct (nonnative_start_exact st0 prev (nonnative_taproot_lock root fl) root key script rest point)
    as (N1 & N2 & _ & N3 & N4 & N5 & _).
  destruct (native_start_exact st0 prev (taproot_lock root fl') script rest) as (T1 & T2 & T3 & T4 & T5 & _).
  fold tid sN in N1, N2, N3, N4, N5. fold tid sT in T1, T2, T3, T4, T5.
  unfold tdata. rewrite N1, T1. cbn [to_data to_count to_defs].
  split; [split; reflexivity|]. split; [split; assumption|].
  split; [split; [unfold c0; lia|reflexivity]|].
  split; [split; [exact (N2 Hdid)|exact T2]|].
  split; [split; [exact T4|intro Hf; rewrite N4, Hf; reflexivity]|split; assumption].
Qed.

(* mismatch: the lock raises at EQUAL_VERIFY; the heap holds exactly three new tape objects (the lock,
   definition 0, the IF_ELSE arm): no tape object for the supplied script was created *)
Theorem nonnative_script_mismatch f prev st0 root fl key script rest hs h point agg :
  st_stack st0 = key :: script :: rest ->
  List.length root = 32 -> List.length key = 32 -> List.length h = 32 ->
  orc PSha256 [script] = OOk [hs] -> orc PSha256 [key ++ hs] = OOk [h] ->
  orc PBaseMult [clamp32 h] = OOk [point] ->
  orc PValidPoint [point] = OOk [[x01]] -> orc PValidPoint [key] = OOk [[x01]] ->
  orc PPointAdd [point; key] = OOk [agg] ->
  fits cfg script -> fits cfg hs -> fits cfg (key ++ hs) -> fits cfg point -> fits cfg agg ->
  List.length rest + 4 <= c_max_items cfg -> 32 <= c_max_item_size cfg ->
  to_defs (nth_tape st0 prev) < List.length (st_defs st0) ->
  (to_count (nth_tape st0 prev) <? c_limit cfg)%Z = true ->
  bytes_eqb agg root = false ->
  let tid := List.length (st_tapes st0) in
  exists st',
    auth_rest orc cfg (20 + f) [nonnative_taproot_lock root fl] prev st0 = AuthVerdict false st' /\
    List.length (st_tapes st') = tid + 3 /\
    tdata st' tid = nonnative_taproot_lock root fl /\
    tdata st' (tid + 1) = push1_bytes root /\ tdata st' (tid + 2) = sarm /\
    st_stack st' = script :: rest.
Proof.
  intros Hs Lr Lk Lh O1 O2 O3 O4 O5 O6 Fs Fhs Fc Fp Fa Hit Hsz Hdid Hlim Hneq tid.
  rewrite auth_rest_unfold.
  destruct (start_facts st0 prev (nonnative_taproot_lock root fl)) as (S1 & S2 & S3 & S4 & S5 & S6 & S7 & S8 & S9).
  set (st := snd (next_start st0 prev (nonnative_taproot_lock root fl))) in *.
  rewrite S9 in *. fold tid in S1, S2, S4, S5 |- *.
  assert (Hlen : List.length (st_tapes st) = tid + 1).
  { unfold st, next_start. cbn [snd st_tapes with_cache with_tapes]. rewrite app_length. simpl. unfold tid. lia. }
  assert (Hdid' : to_defs (nth_tape st tid) < List.length (st_defs st)) by (rewrite S5, S6; exact Hdid).
  change (20 + f) with (7 + (13 + f)).
  rewrite (nn_to_arm orc cfg (13 + f) tid st root fl key (script :: rest) x20 S1 Lr S2);
    [ | rewrite S3; exact Hs | unfold fits; lia | unfold blen; rewrite Lk; exact i2b_32 | simpl; lia | lia ].
  cbv zeta. change (bytes_eqb [x20] [x20]) with true. cbv iota. change (S (13 + f)) with (14 + f).
  destruct (arm_facts st tid root (key :: script :: rest) sarm S2) as (EA & F3 & F1 & F4 & F7 & F5 & F6 & _ & Fd).
  set (s1 := def_state st tid x00 (push1_bytes root)) in *.
  set (A := List.length (st_tapes s1)) in *.
  set (sA := sub_start (with_stack s1 (key :: script :: rest)) tid sarm) in *.
  set (T := List.length (st_tapes st)) in *.
  set (c := to_count (nth_tape st tid)) in *.
  assert (Hg : defs_get (nth_defs sA (to_defs (nth_tape sA A))) x00 = Some T)
    by (rewrite F6, (Fd Hdid'); apply defs_get_put_same).
  rewrite (script_arm_to_eval orc cfg key script rest hs h point agg Lk Lh O1 O2 O3 O4 O5 O6 Fs Hsz Fhs Fc Fp Fa
             f A T sA root c F1 eq_refl); try assumption; try lia.
  cbv zeta. rewrite Hneq. cbn [ifelse_last_outcome].
  eexists. split; [reflexivity|].
  cbn [st_stack with_stack].
  change (st_tapes (with_stack (after_call (xstate cfg sA point) A T c) (script :: rest)))
    with (st_tapes (after_call (xstate cfg sA point) A T c)).
  rewrite after_call_tapes_len, xstate_tapes, F3.
  split; [lia|].
  assert (Hold : forall t, tdata (with_stack (after_call (xstate cfg sA point) A T c) (script :: rest)) t = tdata sA t).
  { intro t. change (tdata (after_call (xstate cfg sA point) A T c) t = tdata sA t).
    rewrite tdata_after_call. apply xstate_tdata. }
  rewrite !Hold.
  split; [rewrite F7 by lia; exact S1|].
  split; [replace (tid + 1) with T by lia; exact F4|].
  split; [replace (tid + 2) with A by lia; exact F1|reflexivity].
Qed.

End Main.

(* the definition table of a top-level tape always exists *)

Definition R_dt (st st' : state) : Prop :=
  List.length (st_tapes st) <= List.length (st_tapes st') /\
  (forall t, t < List.length (st_tapes st) -> to_defs (nth_tape st' t) = to_defs (nth_tape st t)) /\
  List.length (st_defs st) <= List.length (st_defs st').

Lemma R_dt_refl s : R_dt s s.
Proof. repeat split; auto. Qed.
Lemma R_dt_trans a b c : R_dt a b -> R_dt b c -> R_dt a c.
Proof.
  intros (H1 & H2 & H3) (H4 & H5 & H6). split; [lia|]. split; [|lia].
  intros t Ht. rewrite H5 by lia. apply H2. exact Ht.
Qed.
Lemma R_dt_grow st st' l :
  st_tapes st' = st_tapes st ++ l -> List.length (st_defs st) <= List.length (st_defs st') -> R_dt st st'.
Proof.
  intros E Hd. unfold R_dt, nth_tape. rewrite E, app_length. split; [lia|]. split; [|exact Hd].
  intros i Hi. rewrite app_nth1 by exact Hi. reflexivity.
Qed.
Lemma R_dt_same st st' : st_tapes st' = st_tapes st -> st_defs st' = st_defs st -> R_dt st st'.
Proof. intros E1 E2. apply (R_dt_grow st st' []); [rewrite app_nil_r; exact E1|rewrite E2; lia]. Qed.
Lemma R_dt_set_count st tid c : R_dt st (set_count st tid c).
Proof.
  unfold R_dt, set_count, nth_tape. simpl. rewrite list_set_length. split; [lia|]. split; [|lia].
  intros t Ht. destruct (Nat.eq_dec tid t) as [->|Hne].
  - rewrite nth_list_set_same by exact Ht. reflexivity.
  - rewrite nth_list_set_other by exact Hne. reflexivity.
Qed.

Section DT.
Variable orc : oracle.
Variable cfg : config.

Ltac sub_run Hrun :=
  match goal with |- context [?run ?t ?s] =>
    match type of Hrun with run_ok _ run =>
      let H := fresh "H" in pose proof (Hrun t s) as H; destruct (run t s) end end.

Lemma step_closed_dt : step_closed orc cfg R_dt.
Proof.
  intros run Hrun X a fr st.
  destruct a; simpl;
    try (apply R_dt_refl);
    try (apply R_dt_same; reflexivity).
  - destruct (st_stack st); simpl; [apply R_dt_refl|apply R_dt_same; reflexivity].
  - destruct (_ <? _); simpl; [apply R_dt_refl|].
    destruct (_ <=? _); simpl; [apply R_dt_refl|apply R_dt_same; reflexivity].
  - destruct (st_stack st); simpl; apply R_dt_refl.
  - destruct (_ && _); simpl; [apply R_dt_same; reflexivity|exact I].
  - destruct (_ <? _); simpl; apply R_dt_refl.
  - (* ACountIncr *) apply R_dt_set_count.
  - (* ADefSet *) eapply R_dt_grow; [reflexivity|]. simpl. rewrite list_set_length. lia.
  - (* ACallDef *)
    unfold after_run. sub_run Hrun; simpl in *; try exact I;
      (eapply R_dt_trans; [|exact H]); apply R_dt_set_count.
  - (* ARunSub *)
    unfold after_run. sub_run Hrun; simpl in *; try exact I;
      (eapply R_dt_trans; [|exact H]); (eapply R_dt_grow; [reflexivity|]); simpl; rewrite app_length; lia.
  - (* ATrySub *)
    sub_run Hrun; simpl in *; try exact I;
      (eapply R_dt_trans; [|exact H]); (eapply R_dt_grow; [reflexivity|]); simpl; rewrite app_length; lia.
  - (* ALoopNew *) eapply R_dt_grow; [reflexivity|]. simpl. lia.
  - (* ARunLoop *)
    unfold after_run. sub_run Hrun; simpl in *; try exact I; exact H.
Qed.

Theorem run_tape_dt : forall fuel tid ptr st, R_out R_dt st (run_tape orc cfg fuel tid ptr st).
Proof. apply run_tape_closed; [apply R_dt_refl|apply R_dt_trans|apply step_closed_dt]. Qed.

(* after any first script, tape 0 still uses definition table 0, which exists *)
Lemma witness_defs_ok F w vals fr st1 :
  run_script orc cfg F w vals = Done tt fr st1 ->
  to_defs (nth_tape st1 0) < List.length (st_defs st1).
Proof.
  intro H. unfold run_script in H.
  pose proof (run_tape_dt F 0 0 (init_state cfg w vals)) as HR. rewrite H in HR.
  cbn [R_out] in HR. destruct HR as (H1 & H2 & H3).
  rewrite H2 by (simpl; lia). simpl in H3. simpl. lia.
Qed.

(* for every witness script w that ends with key (32 bytes) on top of script: each lock's verdict is
   `false` when the recomputed point differs from the root, and otherwise the verdict of running `script` as
   a sub-tape from the stack `rest` (the two sub-tapes are compared in script_path_subtapes) *)
Theorem script_path_pair f w vals fr st1 root fl key script rest hs h point agg :
  run_script orc cfg (20 + f) w vals = Done tt fr st1 ->
  st_stack st1 = key :: script :: rest ->
  List.length root = 32 -> List.length key = 32 -> List.length h = 32 ->
  orc PSha256 [script] = OOk [hs] -> orc PSha256 [key ++ hs] = OOk [h] ->
  orc PBaseMult [clamp32 h] = OOk [point] ->
  orc PValidPoint [point] = OOk [[x01]] -> orc PValidPoint [key] = OOk [[x01]] ->
  orc PPointAdd [point; key] = OOk [agg] ->
  fits cfg script -> fits cfg hs -> fits cfg (key ++ hs) -> fits cfg point -> fits cfg agg ->
  List.length rest + 4 <= c_max_items cfg -> 32 <= c_max_item_size cfg ->
  script <> [] ->
  flag_get (c_flags cfg) (FKStr (str "disallow_OP_EVAL")) = None ->
  (to_count (nth_tape st1 0) + 1 <? c_limit cfg)%Z = true ->
  let tid := List.length (st_tapes st1) in
  let sN := nn_eval_state cfg (snd (next_start st1 0 (nonnative_taproot_lock root fl))) tid root key script rest point in
  let sT := native_eval_state (snd (next_start st1 0 (taproot_lock root fl))) tid script rest in
  vres_of_auth (run_auth_scripts orc cfg (20 + f) [w; nonnative_taproot_lock root fl] vals) =
    (if bytes_eqb agg root then vres_of_run (run_tape orc cfg (S f) (tid + 3) 0 sN) else VBool false) /\
  vres_of_auth (run_auth_scripts orc cfg (20 + f) [w; taproot_lock root fl] vals) =
    (if bytes_eqb agg root then vres_of_run (run_tape orc cfg (S (17 + f)) (tid + 1) 0 sT) else VBool false).
Proof.
  intros Hw Hs Lr Lk Lh O1 O2 O3 O4 O5 O6 Fs Fhs Fc Fp Fa Hit Hsz Hne Hflag Hlim tid sN sT.
  pose proof (witness_defs_ok _ _ _ _ _ Hw) as Hdid.
  assert (Hlim0 : (to_count (nth_tape st1 0) <? c_limit cfg)%Z = true).
  { apply Z.ltb_lt. apply Z.ltb_lt in Hlim. lia. }
  unfold run_auth_scripts. rewrite Hw. split.
  - apply (nonnative_script_path orc cfg f 0 st1 root fl key script rest hs h point agg); assumption.
  - change (20 + f) with (3 + (17 + f)).
    apply (native_script_path orc cfg (17 + f) 0 st1 root fl key script rest hs h point agg); try assumption. lia.
Qed.

End DT.

(* The two locks are not interchangeable on the script path: concrete runs of the model with a toy oracle that
   answers every query consistently (so that the committed script recomputes to the root under both locks). *)
Definition toy_root : bytes := seq_bytes 32.
Definition toy_key : bytes := repeat x33 32.
Definition toy_orc : oracle := fun p _ =>
  match p with
  | PSha256 => OOk [repeat x11 32]
  | PBaseMult => OOk [repeat x22 32]
  | PValidPoint => OOk [[x01]]
  | PPointAdd => OOk [toy_root]
  | _ => OErr OtherError
  end.
Definition toy_cfg (limit : Z) : config :=
  {| c_max_items := 1024; c_max_item_size := 1024; c_limit := limit; c_flags := []; c_sigext := [];
     c_ctplugins := []; c_contracts := []; c_now := 0 |}.
Definition toy_witness (script : bytes) : bytes := encode [P1 script; P1 toy_key].

(* a committed script that calls definition 0:  call d0 ; pop0 ; true.
   Under the non-native lock handle 0 is the lock's own definition (push root): accepted.
   Under the native lock handle 0 is undefined (KeyError): rejected. *)
Example differ_on_call_d0 :
  let script := [x2a; x00; x06; x01] in
  vres_of_auth (run_auth_scripts toy_orc (toy_cfg 64) 40 [toy_witness script; nonnative_taproot_lock toy_root x00] []) = VBool true /\
  vres_of_auth (run_auth_scripts toy_orc (toy_cfg 64) 40 [toy_witness script; taproot_lock toy_root x00] []) = VBool false.
Proof. vm_compute. split; reflexivity. Qed.

(* the call budget: with callstack_limit = 1 and a witness that made no call, the native lock EVALs the
   committed script (count 0 < 1); the non-native lock has spent the unit on `call d0` and its EVAL raises *)
Example differ_on_call_budget :
  let script := [x01; x06; x01] in
  vres_of_auth (run_auth_scripts toy_orc (toy_cfg 1) 40 [toy_witness script; nonnative_taproot_lock toy_root x00] []) = VBool false /\
  vres_of_auth (run_auth_scripts toy_orc (toy_cfg 1) 40 [toy_witness script; taproot_lock toy_root x00] []) = VBool true.
Proof. vm_compute. split; reflexivity. Qed.

(* with room in the budget the same script is accepted by both *)
Example agree_simple_script :
  let script := [x01; x06; x01] in
  vres_of_auth (run_auth_scripts toy_orc (toy_cfg 64) 40 [toy_witness script; nonnative_taproot_lock toy_root x00] []) = VBool true /\
  vres_of_auth (run_auth_scripts toy_orc (toy_cfg 64) 40 [toy_witness script; taproot_lock toy_root x00] []) = VBool true.
Proof. vm_compute. split; reflexivity. Qed.

Print Assumptions nonnative_bytes_0_31.
Print Assumptions nonnative_bytes_real.
Print Assumptions def_exec.
Print Assumptions call_exec.
Print Assumptions cond_runs.
Print Assumptions script_arm_runs.
Print Assumptions key_arm_runs.
Print Assumptions nonnative_key_path.
Print Assumptions native_key_path.
Print Assumptions key_path_same_verdict.
Print Assumptions key_outcome_true.
Print Assumptions nonnative_script_path.
Print Assumptions native_script_path.
Print Assumptions script_path_subtapes.
Print Assumptions nonnative_script_mismatch.
Print Assumptions script_path_pair.
Print Assumptions differ_on_call_d0.
Print Assumptions differ_on_call_budget.
Print Assumptions agree_simple_script.
