(* C05: in what exactly the two start states of the committed script differ (script path of the non-native taproot
   lock against the native OP_TAPROOT lock).  By TaprootNonNative.script_path_pair the non-native lock runs the
   committed script as sub-tape tid + 3 from sN := nn_eval_state cfg s0N tid root key script rest point, the native lock
   runs it as sub-tape tid + 1 from sT := native_eval_state s0T tid script rest, where s0N / s0T are the states in which
   the two locks start (next_start st1 0 lock) and tid = length (st_tapes st1).  The two start states are compared
   field by field, as equations.  The only side condition (used for the definitions only): the definition table of the
   witness tape exists, which witness_defs_ok provides after every first script. *)
From Coq Require Import ZArith List Bool Lia.
From Coq.Strings Require Import Byte String.
From TS Require Import Bytes State Ops Interp StateLemmas AuthSpec Builders BuilderSpec TaprootNonNative.
Import ListNotations.
Local Open Scope nat_scope.

Lemma ckey_neq_eqb (a k : ckey) : k <> a -> ckey_eqb a k = false.
Proof.
  intro H. destruct (ckey_eqb a k) eqn:E; [|reflexivity]. apply ckey_eqb_eq in E. congruence.
Qed.

Definition xkey : ckey := KBytes (str "X").

Section Compare.
Variable cfg : config.
Variables (st1 : state) (prev : nat) (root : bytes) (fl : byte) (key script : bytes) (rest : list bytes) (point : bytes).

Notation tid := (List.length (st_tapes st1)).
Notation sN := (nn_eval_state cfg (snd (next_start st1 prev (nonnative_taproot_lock root fl))) tid root key script rest point).
Notation sT := (native_eval_state (snd (next_start st1 prev (taproot_lock root fl))) tid script rest).

Theorem same_code_stack_log_rand :
  (to_data (nth_tape sN (tid + 3)) = script /\ to_data (nth_tape sT (tid + 1)) = script) /\
  (st_stack sN = rest /\ st_stack sT = rest) /\
  st_log sN = st_log sT /\ st_rand sN = st_rand sT.
Proof.
  destruct (nonnative_start_exact cfg st1 prev (nonnative_taproot_lock root fl) root key script rest point)
    as (N1 & _ & N2 & N3 & N4 & N5 & N6).
  destruct (native_start_exact st1 prev (taproot_lock root fl) script rest) as (T1 & T2 & T3 & T4 & T5 & T6).
  cbv zeta in *.
  rewrite N1, T1, N3, T3, N5, T5, N6, T6. repeat split; reflexivity.
Qed.

Theorem cache_exact :
  st_cache sT = cache_del (st_cache st1) returned_key /\
  st_cache sN = (if flagon cfg 2 then cache_set (st_cache sT) xkey (VOne (ABytes point)) else st_cache sT).
Proof.
  destruct (nonnative_start_exact cfg st1 prev (nonnative_taproot_lock root fl) root key script rest point)
    as (N1 & _ & N2 & N3 & N4 & N5 & N6).
  destruct (native_start_exact st1 prev (taproot_lock root fl) script rest) as (T1 & T2 & T3 & T4 & T5 & T6).
  cbv zeta in *.
  rewrite N4, T4. split; reflexivity.
Qed.

(* every key other than the bytes key X reads the same in both caches (the control flag included: next) *)
Theorem cache_same_off_X k : k <> xkey -> cache_get (st_cache sN) k = cache_get (st_cache sT) k.
Proof.
  intro Hk. destruct cache_exact as [_ ->].
  destruct (flagon cfg 2); [|reflexivity].
  apply cache_get_set_other. apply ckey_neq_eqb. exact Hk.
Qed.

(* the control flag is absent on BOTH sides: next_start deleted it when each lock started; the second deletion
   that `call d0` performs under the non-native lock (after_call) finds nothing to delete *)
Theorem cache_control_flag_absent :
  cache_get (st_cache sN) returned_key = None /\ cache_get (st_cache sT) returned_key = None.
Proof.
  assert (HT : cache_get (st_cache sT) returned_key = None).
  { destruct cache_exact as [-> _]. apply cache_get_del_same. }
  split; [|exact HT].
  rewrite cache_same_off_X by discriminate. exact HT.
Qed.

(* flag 2 off: the two caches are EQUAL (as association lists, hence on every key) *)
Theorem cache_equal_flag2_off : flagon cfg 2 = false -> st_cache sN = st_cache sT.
Proof. intro Hf. destruct cache_exact as [_ ->]. rewrite Hf. reflexivity. Qed.

(* flag 2 on: key X holds the tweak point under the non-native lock, whatever the witness had left there *)
Theorem cache_X_flag2_on :
  flagon cfg 2 = true -> cache_get (st_cache sN) xkey = Some (VOne (ABytes point)).
Proof. intro Hf. destruct cache_exact as [_ ->]. rewrite Hf. apply cache_get_set_same. Qed.

Theorem count_exact :
  to_count (nth_tape sN (tid + 3)) = (to_count (nth_tape sT (tid + 1)) + 1)%Z /\
  to_count (nth_tape sT (tid + 1)) = (to_count (nth_tape st1 prev) + 1)%Z.
Proof.
  destruct (nonnative_start_exact cfg st1 prev (nonnative_taproot_lock root fl) root key script rest point)
    as (N1 & _).
  destruct (native_start_exact st1 prev (taproot_lock root fl) script rest) as (T1 & _).
  cbv zeta in *. rewrite N1, T1. split; reflexivity.
Qed.

(* side condition: the definition table of the witness tape exists *)
Theorem defs_exact :
  to_defs (nth_tape st1 prev) < List.length (st_defs st1) ->
  let dN := nth_defs sN (to_defs (nth_tape sN (tid + 3))) in
  let dT := nth_defs sT (to_defs (nth_tape sT (tid + 1))) in
  dT = nth_defs st1 (to_defs (nth_tape st1 prev)) /\
  dN = defs_put dT x00 (tid + 1) /\
  defs_get dN x00 = Some (tid + 1) /\
  to_data (nth_tape sN (tid + 1)) = push1_bytes root /\
  (forall h, h <> x00 -> defs_get dN h = defs_get dT h).
Proof.
  intros Hdid dN dT.
  destruct (nonnative_start_exact cfg st1 prev (nonnative_taproot_lock root fl) root key script rest point)
    as (N1 & D1 & N2 & _).
  destruct (native_start_exact st1 prev (taproot_lock root fl) script rest) as (T1 & D2 & _).
  cbv zeta in *. specialize (D1 Hdid). unfold dN, dT. rewrite N1, T1. cbn [to_defs].
  split; [exact D2|]. split; [rewrite D1, D2; reflexivity|].
  split; [rewrite D1; apply defs_get_put_same|]. split; [exact N2|].
  intros h Hh. rewrite D1, D2. apply defs_get_put_other. exact Hh.
Qed.

(* the witness's own handle 0, if any, is overwritten under the non-native lock and kept under the native one *)
Corollary defs_handle0_shadowed t :
  to_defs (nth_tape st1 prev) < List.length (st_defs st1) ->
  defs_get (nth_defs st1 (to_defs (nth_tape st1 prev))) x00 = Some t ->
  defs_get (nth_defs sT (to_defs (nth_tape sT (tid + 1)))) x00 = Some t /\
  defs_get (nth_defs sN (to_defs (nth_tape sN (tid + 3)))) x00 = Some (tid + 1).
Proof.
  intros Hdid Ht. destruct (defs_exact Hdid) as (D1 & _ & D3 & _). cbv zeta in D1, D3.
  split; [rewrite D1; exact Ht|exact D3].
Qed.

Theorem footprints_exact_prev :
  to_defs (nth_tape st1 prev) < List.length (st_defs st1) ->
  let dN := nth_defs sN (to_defs (nth_tape sN (tid + 3))) in
  let dT := nth_defs sT (to_defs (nth_tape sT (tid + 1))) in
  (to_data (nth_tape sN (tid + 3)) = script /\ to_data (nth_tape sT (tid + 1)) = script) /\
  (st_stack sN = rest /\ st_stack sT = rest) /\
  st_log sN = st_log sT /\ st_rand sN = st_rand sT /\
  st_cache sT = cache_del (st_cache st1) returned_key /\
  st_cache sN = (if flagon cfg 2 then cache_set (st_cache sT) xkey (VOne (ABytes point)) else st_cache sT) /\
  (forall k, k <> xkey -> cache_get (st_cache sN) k = cache_get (st_cache sT) k) /\
  (cache_get (st_cache sN) returned_key = None /\ cache_get (st_cache sT) returned_key = None) /\
  (flagon cfg 2 = false -> st_cache sN = st_cache sT) /\
  (flagon cfg 2 = true -> cache_get (st_cache sN) xkey = Some (VOne (ABytes point))) /\
  to_count (nth_tape sN (tid + 3)) = (to_count (nth_tape sT (tid + 1)) + 1)%Z /\
  dN = defs_put dT x00 (tid + 1) /\
  defs_get dN x00 = Some (tid + 1) /\
  to_data (nth_tape sN (tid + 1)) = push1_bytes root /\
  (forall h, h <> x00 -> defs_get dN h = defs_get dT h).
Proof.
  intros Hdid dN dT.
  destruct same_code_stack_log_rand as (A1 & A2 & A3 & A4).
  destruct cache_exact as (B1 & B2).
  destruct count_exact as (C1 & _).
  destruct (defs_exact Hdid) as (_ & D2 & D3 & D4 & D5). cbv zeta in D2, D3, D5. fold dN dT in D2, D3, D5.
  split; [exact A1|]. split; [exact A2|]. split; [exact A3|]. split; [exact A4|].
  split; [exact B1|]. split; [exact B2|]. split; [exact cache_same_off_X|].
  split; [exact cache_control_flag_absent|]. split; [exact cache_equal_flag2_off|].
  split; [exact cache_X_flag2_on|]. split; [exact C1|].
  split; [exact D2|]. split; [exact D3|]. split; [exact D4|exact D5].
Qed.

End Compare.

(* the summary for the pair (witness, lock) of run_auth_scripts: st1 is the state the witness left, prev = 0 *)
Theorem footprints_exact cfg st1 root fl key script rest point :
  to_defs (nth_tape st1 0) < List.length (st_defs st1) ->
  let tid := List.length (st_tapes st1) in
  let tN := tid + 3 in
  let tT := tid + 1 in
  let sN := nn_eval_state cfg (snd (next_start st1 0 (nonnative_taproot_lock root fl))) tid root key script rest point in
  let sT := native_eval_state (snd (next_start st1 0 (taproot_lock root fl))) tid script rest in
  let dN := nth_defs sN (to_defs (nth_tape sN tN)) in
  let dT := nth_defs sT (to_defs (nth_tape sT tT)) in
  (* same code, stack, log, random counter *)
  (to_data (nth_tape sN tN) = script /\ to_data (nth_tape sT tT) = script) /\
  (st_stack sN = rest /\ st_stack sT = rest) /\
  st_log sN = st_log sT /\ st_rand sN = st_rand sT /\
  (* cache *)
  st_cache sT = cache_del (st_cache st1) returned_key /\
  st_cache sN = (if flagon cfg 2 then cache_set (st_cache sT) (KBytes (str "X")) (VOne (ABytes point)) else st_cache sT) /\
  (forall k, k <> KBytes (str "X") -> cache_get (st_cache sN) k = cache_get (st_cache sT) k) /\
  (cache_get (st_cache sN) returned_key = None /\ cache_get (st_cache sT) returned_key = None) /\
  (flagon cfg 2 = false -> st_cache sN = st_cache sT) /\
  (flagon cfg 2 = true -> cache_get (st_cache sN) (KBytes (str "X")) = Some (VOne (ABytes point))) /\
  (* call counts *)
  to_count (nth_tape sN tN) = (to_count (nth_tape sT tT) + 1)%Z /\
  (* definitions *)
  dN = defs_put dT x00 (tid + 1) /\
  defs_get dN x00 = Some (tid + 1) /\
  to_data (nth_tape sN (tid + 1)) = push1_bytes root /\
  (forall h, h <> x00 -> defs_get dN h = defs_get dT h).
Proof.
  intros Hdid. cbv zeta.
  exact (footprints_exact_prev cfg st1 0 root fl key script rest point Hdid).
Qed.

(* after any witness script: the side condition is discharged by witness_defs_ok *)
Theorem footprints_exact_witness orc cfg F w vals fr st1 root fl key script rest point :
  run_script orc cfg F w vals = Done tt fr st1 ->
  let tid := List.length (st_tapes st1) in
  let tN := tid + 3 in
  let tT := tid + 1 in
  let sN := nn_eval_state cfg (snd (next_start st1 0 (nonnative_taproot_lock root fl))) tid root key script rest point in
  let sT := native_eval_state (snd (next_start st1 0 (taproot_lock root fl))) tid script rest in
  let dN := nth_defs sN (to_defs (nth_tape sN tN)) in
  let dT := nth_defs sT (to_defs (nth_tape sT tT)) in
  (to_data (nth_tape sN tN) = script /\ to_data (nth_tape sT tT) = script) /\
  (st_stack sN = rest /\ st_stack sT = rest) /\
  st_log sN = st_log sT /\ st_rand sN = st_rand sT /\
  st_cache sT = cache_del (st_cache st1) returned_key /\
  st_cache sN = (if flagon cfg 2 then cache_set (st_cache sT) (KBytes (str "X")) (VOne (ABytes point)) else st_cache sT) /\
  (forall k, k <> KBytes (str "X") -> cache_get (st_cache sN) k = cache_get (st_cache sT) k) /\
  (cache_get (st_cache sN) returned_key = None /\ cache_get (st_cache sT) returned_key = None) /\
  (flagon cfg 2 = false -> st_cache sN = st_cache sT) /\
  (flagon cfg 2 = true -> cache_get (st_cache sN) (KBytes (str "X")) = Some (VOne (ABytes point))) /\
  to_count (nth_tape sN tN) = (to_count (nth_tape sT tT) + 1)%Z /\
  dN = defs_put dT x00 (tid + 1) /\
  defs_get dN x00 = Some (tid + 1) /\
  to_data (nth_tape sN (tid + 1)) = push1_bytes root /\
  (forall h, h <> x00 -> defs_get dN h = defs_get dT h).
Proof.
  intro Hw. exact (footprints_exact cfg st1 root fl key script rest point (witness_defs_ok orc cfg F w vals fr st1 Hw)).
Qed.

Print Assumptions same_code_stack_log_rand.
Print Assumptions cache_exact.
Print Assumptions cache_same_off_X.
Print Assumptions cache_control_flag_absent.
Print Assumptions cache_equal_flag2_off.
Print Assumptions cache_X_flag2_on.
Print Assumptions count_exact.
Print Assumptions defs_exact.
Print Assumptions defs_handle0_shadowed.
Print Assumptions footprints_exact.
Print Assumptions footprints_exact_witness.
