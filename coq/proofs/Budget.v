(* C07 (budget part): the result does not depend on the fuel once it suffices; what is true of the
   per-tape call counter (it is NOT monotone, but no activation ever lowers a counter below the
   value its own tape had when it started); CALL / EVAL sub-activations start within the call
   budget; OP_LOOP runs its body at most callstack_limit times; in every reachable state every call
   counter is at most max 0 callstack_limit ([capped]). *)
From Coq Require Import ZArith List Bool Lia.
From Coq.Strings Require Import Byte String.
From TS Require Import Bytes State Prog Ops Interp StateLemmas Closure Pointer InterpLemmas Within Discipline.
Import ListNotations.
Local Open Scope nat_scope.

Definition run_ext (run run' : nat -> state -> outcome unit) : Prop :=
  forall t s, run t s <> OutOfFuel -> run' t s = run t s.

Section FuelMono.
Variable orc : oracle.
Variable cfg : config.

Lemma step_ext run run' (H : run_ext run run') X (a : action X) fr st :
  step orc cfg run a fr st <> SFuel -> step orc cfg run' a fr st = step orc cfg run a fr st.
Proof.
  (* the four actions that run a sub-tape hand its outcome back; OutOfFuel becomes SFuel *)
  destruct a; simpl; try reflexivity; intro Hn;
    match goal with |- context [run' ?t ?s] => rewrite (H t s); [reflexivity|] end;
    intro E; apply Hn; rewrite E; reflexivity.
Qed.

Lemma interp_ext run run' (H : run_ext run run') A (p : prog A) : forall fr st,
  interp orc cfg run p fr st <> OutOfFuel -> interp orc cfg run' p fr st = interp orc cfg run p fr st.
Proof.
  induction p as [a|e|w|X a k IH]; intros fr st Hn; cbn [interp] in *; try reflexivity.
  assert (Hs : step orc cfg run a fr st <> SFuel).
  { intro E. rewrite E in Hn. apply Hn. reflexivity. }
  rewrite (step_ext run run' H X a fr st Hs).
  destruct (step orc cfg run a fr st) as [x fr' st'|e fr' st'| |w]; try reflexivity.
  apply IH. exact Hn.
Qed.

(* the runner that run_tape hands to its instructions *)
Definition rt (f : nat) : nat -> state -> outcome unit := fun t s => run_tape orc cfg f t 0 s.

Lemma run_tape_eq f tid ptr st :
  run_tape orc cfg (S f) tid ptr st =
    if List.length (to_data (nth_tape st tid)) <=? ptr then Done tt {| fr_tid := tid; fr_ptr := ptr |} st
    else match interp orc cfg (rt f) (dispatch (code_at st tid ptr)) {| fr_tid := tid; fr_ptr := S ptr |} st with
         | Done _ fr' st' => run_tape orc cfg f tid (fr_ptr fr') st'
         | Raised e fr' st' => Raised e fr' st'
         | OutOfFuel => OutOfFuel
         | Unmodelled w => Unmodelled w
         end.
Proof. exact (run_tape_succ orc cfg f tid ptr st). Qed.

Lemma run_tape_next f tid ptr st :
  ptr < List.length (to_data (nth_tape st tid)) ->
  run_tape orc cfg (S f) tid ptr st =
    match interp orc cfg (rt f) (dispatch (code_at st tid ptr)) {| fr_tid := tid; fr_ptr := S ptr |} st with
    | Done _ fr' st' => run_tape orc cfg f tid (fr_ptr fr') st'
    | Raised e fr' st' => Raised e fr' st'
    | OutOfFuel => OutOfFuel
    | Unmodelled w => Unmodelled w
    end.
Proof. exact (run_tape_unfold orc cfg f tid ptr st). Qed.

Lemma run_tape_S : forall f tid ptr st,
  run_tape orc cfg f tid ptr st <> OutOfFuel ->
  run_tape orc cfg (S f) tid ptr st = run_tape orc cfg f tid ptr st.
Proof.
  induction f as [|f IH]; intros tid ptr st Hn; [exfalso; apply Hn; reflexivity|].
  assert (Hext : run_ext (rt f) (rt (S f))) by (intros t s Ht; apply IH; exact Ht).
  rewrite (run_tape_eq (S f)). rewrite (run_tape_eq f) in Hn |- *.
  destruct (List.length (to_data (nth_tape st tid)) <=? ptr); [reflexivity|].
  set (code := code_at st tid ptr) in *.
  set (fr0 := {| fr_tid := tid; fr_ptr := S ptr |}) in *.
  assert (Hi : interp orc cfg (rt f) (dispatch code) fr0 st <> OutOfFuel).
  { intro E. rewrite E in Hn. apply Hn. reflexivity. }
  rewrite (interp_ext _ _ Hext unit (dispatch code) fr0 st Hi).
  destruct (interp orc cfg (rt f) (dispatch code) fr0 st) as [u fr' st'|e fr' st'| |w]; try reflexivity.
  apply IH. exact Hn.
Qed.

Theorem run_tape_fuel_mono f tid ptr st r :
  run_tape orc cfg f tid ptr st = r -> r <> OutOfFuel ->
  forall k, run_tape orc cfg (f + k) tid ptr st = r.
Proof.
  intros E Hr k. induction k as [|k IH].
  - rewrite Nat.add_0_r. exact E.
  - rewrite Nat.add_succ_r. rewrite run_tape_S; [exact IH|]. rewrite IH. exact Hr.
Qed.

Corollary run_tape_fuel_le f f' tid ptr st :
  f <= f' -> run_tape orc cfg f tid ptr st <> OutOfFuel ->
  run_tape orc cfg f' tid ptr st = run_tape orc cfg f tid ptr st.
Proof.
  intros Hle Hn. replace f' with (f + (f' - f)) by lia.
  apply run_tape_fuel_mono; [reflexivity|exact Hn].
Qed.

Lemma rt_ext f f' : f <= f' -> run_ext (rt f) (rt f').
Proof. intros Hle t s Hn. apply run_tape_fuel_le; assumption. Qed.

Theorem interp_fuel_le f f' A (p : prog A) fr st :
  f <= f' -> interp orc cfg (rt f) p fr st <> OutOfFuel ->
  interp orc cfg (rt f') p fr st = interp orc cfg (rt f) p fr st.
Proof. intros Hle. apply interp_ext. apply rt_ext. exact Hle. Qed.

Lemma step_fuel_le f f' X (a : action X) fr st :
  f <= f' -> step orc cfg (rt f) a fr st <> SFuel ->
  step orc cfg (rt f') a fr st = step orc cfg (rt f) a fr st.
Proof. intros Hle. apply step_ext. apply rt_ext. exact Hle. Qed.

Corollary run_tape_fuel_irrelevant f1 f2 tid ptr st :
  run_tape orc cfg f1 tid ptr st <> OutOfFuel -> run_tape orc cfg f2 tid ptr st <> OutOfFuel ->
  run_tape orc cfg f1 tid ptr st = run_tape orc cfg f2 tid ptr st.
Proof.
  intros H1 H2. destruct (Nat.le_ge_cases f1 f2) as [Hle|Hle].
  - symmetry. apply run_tape_fuel_le; assumption.
  - apply run_tape_fuel_le; assumption.
Qed.

Theorem run_script_fuel_mono f script vals r :
  run_script orc cfg f script vals = r -> r <> OutOfFuel ->
  forall k, run_script orc cfg (f + k) script vals = r.
Proof. unfold run_script. apply run_tape_fuel_mono. Qed.

Lemma auth_rest_fuel_le f f' : f <= f' -> forall scripts prev st,
  auth_rest orc cfg f scripts prev st <> AuthFuel ->
  auth_rest orc cfg f' scripts prev st = auth_rest orc cfg f scripts prev st.
Proof.
  intros Hle scripts. induction scripts as [|s rest IH]; intros prev st Hn; [reflexivity|].
  revert Hn. cbn [auth_rest]. cbv zeta.
  set (p := nth_tape st prev).
  destruct (new_tape st {| to_data := s; to_count := to_count p; to_defs := to_defs p |}) as [tid st1].
  set (st2 := with_cache st1 (cache_del (st_cache st1) returned_key)).
  intro Hn.
  assert (Hr : run_tape orc cfg f tid 0 st2 <> OutOfFuel).
  { intro E. rewrite E in Hn. apply Hn. reflexivity. }
  rewrite (run_tape_fuel_le f f' tid 0 st2 Hle Hr).
  destruct (run_tape orc cfg f tid 0 st2) as [u fr' st'|e fr' st'| |w]; try reflexivity.
  apply IH. exact Hn.
Qed.

Theorem run_auth_scripts_fuel_le f f' scripts vals :
  f <= f' -> run_auth_scripts orc cfg f scripts vals <> AuthFuel ->
  run_auth_scripts orc cfg f' scripts vals = run_auth_scripts orc cfg f scripts vals.
Proof.
  intros Hle. unfold run_auth_scripts. destruct scripts as [|s rest]; [reflexivity|].
  intro Hn.
  assert (Hr : run_script orc cfg f s vals <> OutOfFuel).
  { intro E. rewrite E in Hn. apply Hn. reflexivity. }
  unfold run_script in *. rewrite (run_tape_fuel_le f f' _ _ _ Hle Hr).
  destruct (run_tape orc cfg f 0 0 (init_state cfg s vals)) as [u fr' st'|e fr' st'| |w]; try reflexivity.
  apply auth_rest_fuel_le; assumption.
Qed.

End FuelMono.

Definition count_of (st : state) (t : nat) : Z := to_count (nth_tape st t).

(* The "budget" judgement over programs (in the style of Discipline.disc).  For an activation of a
   tape of length [L] whose counter was at least [c] when it started:
     - the counter read by ACount is at least [c];
     - ACallDef happens only after ACountIncr (counter >= c + 1) and only if c < callstack_limit;
     - ARunSub SubEval happens only if c < callstack_limit;
     - the bodies given to ARunSub SubCopy / ATrySub are shorter than [L] (ARead results are);
     - ARunLoop runs only the loop tape made by ALoopNew in the same instruction. *)
Record bmode := { m_up : bool; m_loop : option nat }.
Definition base (m : bmode) : bmode := {| m_up := false; m_loop := m_loop m |}.

Section Judge.
Variable cfg : config.
Variable c : Z.
Variable L : nat.

Definition b_ok {X} (a : action X) (m : bmode) (Q : X -> bmode -> Prop) : Prop :=
  match a in action X return (X -> bmode -> Prop) -> Prop with
  | ARead _ => fun Q => forall x, List.length x < L -> Q x m
  | ACount => fun Q => forall x, (c <= x)%Z -> Q x m
  | ACountIncr => fun Q => Q tt {| m_up := true; m_loop := m_loop m |}
  | AConfig => fun Q => Q cfg m
  | ACallDef _ => fun Q => m_up m = true /\ (c < c_limit cfg)%Z /\ Q tt (base m)
  | ARunSub k d => fun Q =>
      match k with SubEval => (c < c_limit cfg)%Z | SubCopy => List.length d < L end /\ Q tt (base m)
  | ATrySub d => fun Q => List.length d < L /\ forall r, Q r (base m)
  | ALoopNew d => fun Q =>
      forall t, Q t (if List.length d <? L then {| m_up := m_up m; m_loop := Some t |} else m)
  | ARunLoop t => fun Q => m_loop m = Some t /\ Q tt (base m)
  | _ => fun Q => forall x, Q x m
  end Q.

Fixpoint bud {A} (p : prog A) (m : bmode) (post : A -> bmode -> Prop) : Prop :=
  match p with
  | Ret a => post a m
  | Raise _ => True
  | Unmod _ => True
  | Act a k => b_ok a m (fun x m' => bud (k x) m' post)
  end.

Lemma b_ok_mono X (a : action X) m (P Q : X -> bmode -> Prop) :
  (forall x m', P x m' -> Q x m') -> b_ok a m P -> b_ok a m Q.
Proof.
  intros H. destruct a; cbn [b_ok]; try (destruct k); intuition auto.
Qed.

Lemma bud_mono A (p : prog A) : forall m (P Q : A -> bmode -> Prop),
  (forall a m', P a m' -> Q a m') -> bud p m P -> bud p m Q.
Proof.
  induction p as [a|e|w|X a k IH]; intros m P Q HPQ H; cbn [bud] in *; auto.
  eapply b_ok_mono; [|exact H]. cbv beta. intros x m' Hx. eapply IH; eauto.
Qed.

Lemma bud_bind A B (p : prog A) (f : A -> prog B) :
  forall m (Q1 : A -> bmode -> Prop) (Q2 : B -> bmode -> Prop),
  bud p m Q1 -> (forall a m', Q1 a m' -> bud (f a) m' Q2) -> bud (bind p f) m Q2.
Proof.
  induction p as [a|e|w|X a k IH]; intros m Q1 Q2 H Hf; cbn [bud bind] in *; auto.
  eapply b_ok_mono; [|exact H]. cbv beta. intros x m' Hx. eapply IH; eauto.
Qed.

(* programs without control actions satisfy the judgement from every mode *)
Lemma simple_bud A (p : prog A) : within (@simple_act) p -> forall m, bud p m (fun _ _ => True).
Proof.
  induction p as [a|e|w|X a k IH]; intros Hs m; cbn [bud within] in *; auto.
  destruct Hs as [Ha Hk].
  destruct a; cbn [b_ok simple_act] in *; try discriminate; intros; apply IH; apply Hk.
Qed.

End Judge.

Lemma set_count_data st t v t' : data_of (set_count st t v) t' = data_of st t'.
Proof. exact (data_set_count st t v t'). Qed.
Lemma count_of_new st st' x :
  st_tapes st' = st_tapes st ++ [x] -> count_of st' (List.length (st_tapes st)) = to_count x.
Proof. intro E. unfold count_of. rewrite (nth_tape_new st st' x E). reflexivity. Qed.
Lemma data_of_new st st' x :
  st_tapes st' = st_tapes st ++ [x] -> data_of st' (List.length (st_tapes st)) = to_data x.
Proof. intro E. unfold data_of. rewrite (nth_tape_new st st' x E). reflexivity. Qed.

Section Sound.
Variable orc : oracle.
Variable cfg : config.
Variable c : Z.

(* what survives every activation whose tape counter started at [c] or above: the heap only grows,
   tape data never change, and a counter that is >= c stays >= c *)
Definition F_rel (st st' : state) : Prop :=
  R_heap st st' /\
  forall t, t < List.length (st_tapes st) -> (c <= count_of st t)%Z -> (c <= count_of st' t)%Z.

Lemma F_rel_refl s : F_rel s s.
Proof. split; [apply R_heap_refl|auto]. Qed.
Lemma F_rel_trans a b d : F_rel a b -> F_rel b d -> F_rel a d.
Proof.
  intros [H1 H2] [H3 H4]. split; [eapply R_heap_trans; eauto|].
  intros t Ht Hc. apply H4; [destruct H1; lia|]. apply H2; assumption.
Qed.
Lemma F_rel_tapes_eq st st' : st_tapes st' = st_tapes st -> F_rel st st'.
Proof.
  intro E. split; [apply R_heap_tapes_eq; exact E|]. unfold count_of, nth_tape. rewrite E. auto.
Qed.
Lemma F_rel_app st st' l : st_tapes st' = st_tapes st ++ l -> F_rel st st'.
Proof.
  intro E. split; [eapply R_heap_tapes_app; exact E|].
  intros t Ht Hc. unfold count_of. rewrite (nth_tape_old st st' l t E Ht). exact Hc.
Qed.
Lemma F_rel_set_count st t v : (c <= v)%Z -> F_rel st (set_count st t v).
Proof.
  intro Hv. split; [apply R_heap_set_count|].
  intros t' Ht' Hc. unfold count_of. destruct (Nat.eq_dec t t') as [->|Hne].
  - rewrite count_set_count_same by exact Ht'. exact Hv.
  - rewrite nth_tape_set_count_other by exact Hne. exact Hc.
Qed.

Definition F_out {A} (s : state) (o : outcome A) : Prop :=
  match o with Done _ _ s' | Raised _ _ s' => F_rel s s' | _ => True end.

(* what is assumed of the function that runs sub-tapes: a sub-tape started with a counter >= c
   (or on a tape id outside the heap, i.e. the empty default tape) respects F_rel *)
Definition floor_ok (run : nat -> state -> outcome unit) : Prop :=
  forall t s, (t < List.length (st_tapes s) -> (c <= count_of s t)%Z) -> F_out s (run t s).

Variable L : nat.
Variable tid : nat.

Definition btid (fr : frame) (st : state) : Prop :=
  fr_tid fr = tid /\ tid < List.length (st_tapes st) /\ List.length (data_of st tid) = L /\
  1 <= fr_ptr fr /\ fr_ptr fr <= L /\ (c <= count_of st tid)%Z.
Definition bloop (l : option nat) (st : state) : Prop :=
  forall t, l = Some t ->
    t < List.length (st_tapes st) /\ (c <= count_of st t)%Z /\ List.length (data_of st t) < L.
Definition bup (b : bool) (st : state) : Prop := b = true -> (c + 1 <= count_of st tid)%Z.

Definition bsem (m : bmode) (fr : frame) (st : state) : Prop :=
  btid fr st /\ bloop (m_loop m) st /\ bup (m_up m) st.

Lemma btid_F fr st st' : btid fr st -> F_rel st st' -> btid fr st'.
Proof.
  intros (H1 & H2 & H3 & H4 & H5 & H6) [[Hl Hd] Hc]. unfold btid.
  repeat split; auto; try lia. rewrite Hd by exact H2. exact H3.
Qed.
Lemma bloop_F l st st' : bloop l st -> F_rel st st' -> bloop l st'.
Proof.
  intros H [[Hl Hd] Hc] t Ht. destruct (H t Ht) as (H1 & H2 & H3).
  repeat split; [lia|auto|]. rewrite Hd by exact H1. exact H3.
Qed.
Lemma bsem_base m fr st st' : bsem m fr st -> F_rel st st' -> bsem (base m) fr st'.
Proof.
  intros (H1 & H2 & H3) HF. split; [eapply btid_F; eauto|]. split; [eapply bloop_F; eauto|].
  intro E. discriminate.
Qed.
Lemma bsem_tapes_eq m fr st st' : st_tapes st' = st_tapes st -> bsem m fr st -> bsem m fr st'.
Proof.
  intros E H. unfold bsem, btid, bloop, bup, count_of, data_of, nth_tape in *. rewrite E. exact H.
Qed.
Lemma bsem_app m fr st st' l : st_tapes st' = st_tapes st ++ l -> bsem m fr st -> bsem m fr st'.
Proof.
  intros E (H1 & H2 & H3). pose proof (F_rel_app st st' l E) as HF.
  split; [eapply btid_F; eauto|]. split; [eapply bloop_F; eauto|].
  intro Hu. unfold count_of. rewrite (nth_tape_old st st' l tid E); [apply H3; exact Hu|apply H1].
Qed.

Section Step.
Variable run : nat -> state -> outcome unit.
Hypothesis Hrun : floor_ok run.

Definition sound_sres {X} (Q : X -> bmode -> Prop) (st : state) (r : sres X) : Prop :=
  match r with
  | SOk x fr' st' => F_rel st st' /\ exists m', Q x m' /\ bsem m' fr' st'
  | SRaise _ _ st' => F_rel st st'
  | _ => True
  end.

Lemma keep X (Q : X -> bmode -> Prop) x m fr st st' :
  st_tapes st' = st_tapes st -> Q x m -> bsem m fr st ->
  F_rel st st' /\ exists m', Q x m' /\ bsem m' fr st'.
Proof.
  intros E HQ Hs. split; [apply F_rel_tapes_eq; exact E|]. exists m. split; [exact HQ|].
  eapply bsem_tapes_eq; eauto.
Qed.

(* a sub-tape run from [s1], which was made from [st], on a tape whose counter is at least c *)
Lemma sub_floor m fr st t s1 :
  bsem m fr st -> F_rel st s1 -> (t < List.length (st_tapes s1) -> (c <= count_of s1 t)%Z) ->
  match run t s1 with
  | Done _ _ st' | Raised _ _ st' => F_rel st st' /\ bsem (base m) fr st'
  | _ => True
  end.
Proof.
  intros Hs HF Ht. pose proof (Hrun t s1 Ht) as Hr.
  destruct (run t s1) as [u fr' st'|e fr' st'| |w]; simpl in Hr; try exact I;
    (assert (HF' : F_rel st st') by (eapply F_rel_trans; eauto));
    (split; [exact HF'|eapply bsem_base; eauto]).
Qed.

Lemma after_run_sound (Q : unit -> bmode -> Prop) m fr st t s1 :
  bsem m fr st -> F_rel st s1 -> (t < List.length (st_tapes s1) -> (c <= count_of s1 t)%Z) ->
  Q tt (base m) -> sound_sres Q st (after_run fr (run t s1)).
Proof.
  intros Hs HF Ht HQ. pose proof (sub_floor m fr st t s1 Hs HF Ht) as Hr.
  destruct (run t s1); try exact I; [|apply Hr].
  split; [apply Hr|]. exists (base m). split; [exact HQ|apply Hr].
Qed.

Lemma step_sound X (a : action X) m (Q : X -> bmode -> Prop) fr st :
  b_ok cfg c L a m Q -> bsem m fr st -> sound_sres Q st (step orc cfg run a fr st).
Proof.
  intros H Hs. pose proof Hs as (Ht & Hl & Hu). pose proof Ht as (T1 & T2 & T3 & T4 & T5 & T6).
  (* the actions that leave tapes and frame alone keep everything *)
  destruct a; cbn [b_ok] in H; simpl; try solve [apply keep with (m := m); auto].
  - (* AGet *) destruct (st_stack st); simpl; [apply F_rel_refl|]. apply keep with (m := m); auto.
  - (* APut *)
    destruct (_ <? _); simpl; [apply F_rel_refl|]. destruct (_ <=? _); simpl; [apply F_rel_refl|].
    apply keep with (m := m); auto.
  - (* APeek *) destruct (st_stack st); simpl; [apply F_rel_refl|]. apply keep with (m := m); auto.
  - (* ASwapIdx *) destruct (_ && _); simpl; [|exact I]. apply keep with (m := m); auto.
  - (* ARead *)
    unfold cur. rewrite T1. fold (data_of st tid).
    destruct (_ <? _) eqn:E; simpl; [apply F_rel_refl|]. apply Nat.ltb_ge in E. rewrite T3 in E.
    split; [apply F_rel_refl|]. exists m. split.
    + apply H. rewrite firstn_length, skipn_length. rewrite T3. lia.
    + split; [|split; assumption]. unfold btid. simpl. repeat split; auto; lia.
  - (* ASetPtrEnd *)
    unfold cur. rewrite T1. fold (data_of st tid). rewrite T3.
    split; [apply F_rel_refl|]. exists m. split; [apply H|].
    split; [|split; assumption]. unfold btid. simpl. repeat split; auto; lia.
  - (* ACount *)
    apply keep with (m := m); auto. apply H. unfold cur. rewrite T1. exact T6.
  - (* ACountIncr *)
    unfold cur. rewrite T1. fold (count_of st tid).
    assert (HF : F_rel st (set_count st tid (count_of st tid + 1))) by (apply F_rel_set_count; lia).
    split; [exact HF|]. eexists. split; [exact H|].
    split; [eapply btid_F; eauto|]. split; [eapply bloop_F; eauto|].
    intros _. unfold count_of at 1. rewrite count_set_count_same by exact T2. lia.
  - (* ADefSet *)
    split; [eapply F_rel_app; simpl; reflexivity|]. exists m. split; [apply H|].
    eapply bsem_app; [|exact Hs]. simpl. reflexivity.
  - (* ACallDef *)
    destruct H as (Hup & Hlim & HQ). specialize (Hu Hup).
    unfold cur. rewrite T1. fold (count_of st tid).
    apply after_run_sound with (m := m); [exact Hs|apply F_rel_set_count; lia| |exact HQ].
    intro Hin. rewrite set_count_length in Hin. unfold count_of at 1.
    rewrite count_set_count_same by exact Hin. lia.
  - (* ARunSub *)
    destruct H as (Hk & HQ). unfold cur. rewrite T1. fold (count_of st tid).
    apply after_run_sound with (m := m); [exact Hs|eapply F_rel_app; reflexivity| |exact HQ].
    intros _. simpl List.length. erewrite (count_of_new st) by reflexivity. simpl. destruct k; lia.
  - (* ATrySub *)
    destruct H as (Hk & HQ). unfold cur. rewrite T1. fold (count_of st tid).
    match goal with |- context [run ?t ?s] => pose proof (sub_floor m fr st t s Hs) as Hr end.
    destruct (run _ _); try exact I;
      (destruct Hr as [HF Hb];
       [eapply F_rel_app; reflexivity
       |intros _; simpl List.length; erewrite (count_of_new st) by reflexivity; simpl; lia
       |split; [exact HF|]; exists (base m); split; [apply HQ|exact Hb]]).
  - (* ALoopNew *)
    unfold cur. rewrite T1.
    match goal with |- F_rel st ?s /\ _ => set (st1 := s) end.
    assert (E1 : st_tapes st1 = st_tapes st ++
              [{| to_data := data; to_count := to_count (nth_tape st tid);
                  to_defs := to_defs (nth_tape st tid) |}]) by reflexivity.
    split; [eapply F_rel_app; exact E1|]. eexists. split; [apply H|].
    pose proof (bsem_app m fr st st1 _ E1 Hs) as (B1 & B2 & B3).
    destruct (List.length data <? L) eqn:EL; [|split; [exact B1|split; [exact B2|exact B3]]].
    apply Nat.ltb_lt in EL. split; [exact B1|]. split; [|exact B3].
    intros t Et. simpl in Et. injection Et as <-.
    split; [rewrite E1, app_length; simpl; lia|].
    unfold count_of, data_of. rewrite (nth_tape_new st st1 _ E1). simpl.
    split; [exact T6|exact EL].
  - (* ARunLoop *)
    destruct H as (Hlp & HQ). destruct (Hl _ Hlp) as (L1 & L2 & L3).
    apply after_run_sound with (m := m); [exact Hs|apply F_rel_refl|intros _; exact L2|exact HQ].
Qed.

Theorem bud_sound A (p : prog A) : forall m (post : A -> bmode -> Prop) fr st,
  bud cfg c L p m post -> bsem m fr st ->
  match interp orc cfg run p fr st with
  | Done a fr' st' => F_rel st st' /\ exists m', post a m' /\ bsem m' fr' st'
  | Raised _ _ st' => F_rel st st'
  | _ => True
  end.
Proof.
  induction p as [a|e|w|X a k IH]; intros m post fr st Hd Hs; cbn [bud interp] in *.
  - split; [apply F_rel_refl|]. exists m. split; assumption.
  - apply F_rel_refl.
  - exact I.
  - pose proof (step_sound X a m _ fr st Hd Hs) as Hstep.
    destruct (step orc cfg run a fr st) as [x fr' st'|e fr' st'| |w]; simpl in Hstep; try exact I;
      [|exact Hstep].
    destruct Hstep as (HF & m' & Hd' & Hs').
    specialize (IH x m' post fr' st' Hd' Hs').
    destruct (interp orc cfg run (k x) fr' st') as [a' fr'' st''|e fr'' st''| |w]; try exact I.
    + destruct IH as (HF' & IH). split; [eapply F_rel_trans; eauto|exact IH].
    + eapply F_rel_trans; eauto.
Qed.

End Step.
End Sound.

Section Ops.
Variable cfg : config.
Variable c : Z.
Variable L : nat.

Notation budT p := (forall m, bud cfg c L p m (fun _ _ => True)).

(* a simple prefix, then anything that satisfies the judgement from every mode *)
Lemma bud_pre A B (p : prog A) (f : A -> prog B) :
  within (@simple_act) p -> (forall a, budT (f a)) -> budT (bind p f).
Proof.
  intros Hp Hf m. eapply bud_bind; [apply simple_bud; exact Hp|]. cbv beta. intros a m' _. apply Hf.
Qed.

Lemma bud_OP_RETURN : budT OP_RETURN.
Proof. intro m. cbn. auto. Qed.

Lemma bud_propagate_return : budT propagate_return.
Proof. intro m. cbn. intros [|]; cbn; auto. Qed.

Lemma bud_OP_CALL : budT OP_CALL.
Proof.
  intro m. unfold OP_CALL, config_, read, act. cbn [bind bud b_ok].
  intros x Hx. unfold sert. destruct (x <? c_limit cfg)%Z eqn:E; cbn [bind bud b_ok]; [|exact I].
  apply Z.ltb_lt in E. intros h Hh [t|]; cbn [bind bud b_ok]; [|exact I].
  split; [reflexivity|]. split; [lia|]. intros _. exact I.
Qed.

Lemma bud_OP_IF : budT OP_IF.
Proof.
  intro m. unfold OP_IF, read_u16, read, get, act. cbn [bind bud b_ok].
  intros n Hn d Hd x. destruct (bytes_to_bool x); cbn [bind bud b_ok]; [|exact I].
  split; [exact Hd|]. apply bud_propagate_return.
Qed.

Lemma bud_OP_IF_ELSE : budT OP_IF_ELSE.
Proof.
  intro m. unfold OP_IF_ELSE, read_u16, read, get, act. cbn [bind bud b_ok].
  intros n1 Hn1 d1 Hd1 n2 Hn2 d2 Hd2 x.
  split; [destruct (bytes_to_bool x); assumption|]. apply bud_propagate_return.
Qed.

Lemma bud_eval_body : budT eval_body.
Proof.
  intro m. unfold eval_body, config_, get, act. cbn [bind bud b_ok].
  unfold sert at 1. destruct (flag_get _ _); cbn [bind bud b_ok]; [exact I|].
  intros x Hx. unfold sert. destruct (x <? c_limit cfg)%Z eqn:E; cbn [bind bud b_ok]; [|exact I].
  apply Z.ltb_lt in E. intros script. unfold vert.
  destruct (0 <? blen script)%Z; cbn [bind bud b_ok]; [|exact I].
  split; [lia|]. intros [|]; [|exact I].
  destruct (flag_on _ _); [apply bud_OP_RETURN|cbn; auto].
Qed.

Lemma bud_OP_TRY_EXCEPT : budT OP_TRY_EXCEPT.
Proof.
  intro m. unfold OP_TRY_EXCEPT, read_u16, read, act. cbn [bind bud b_ok].
  intros n1 Hn1 d1 Hd1 n2 Hn2 d2 Hd2. split; [exact Hd1|].
  intros [e|]; cbn [bind bud b_ok cache_items act].
  - intros _. split; [exact Hd2|]. apply bud_propagate_return.
  - apply bud_propagate_return.
Qed.

Lemma bud_loop_go n : forall i limit t cond m,
  m_loop m = Some t -> bud cfg c L (loop_go n i limit t cond) m (fun _ _ => True).
Proof.
  induction n as [|n IH]; intros i limit t cond m Hm; cbn [loop_go];
    (destruct (bytes_to_bool cond); [|exact I]); unfold sert;
    (destruct (i <? limit)%Z; cbn [bind bud b_ok]; [|exact I]).
  - exact I.
  - unfold act. cbn [bind bud b_ok]. split; [exact Hm|].
    intros [|]; cbn [bind bud b_ok]; [auto|]. intros cnd. apply IH. exact Hm.
Qed.

Lemma bud_OP_LOOP : budT OP_LOOP.
Proof.
  intro m. unfold OP_LOOP, read_u16, read, config_, act. cbn [bind bud b_ok].
  intros n Hn d Hd x t. apply Nat.ltb_lt in Hd. rewrite Hd. apply bud_loop_go. reflexivity.
Qed.

Lemma bud_OP_MERKLEVAL : budT OP_MERKLEVAL.
Proof.
  unfold OP_MERKLEVAL. do 10 (apply bud_pre; [solve [cls]|intro]). apply bud_eval_body.
Qed.

Lemma bud_OP_TAPROOT : budT OP_TAPROOT.
Proof.
  unfold OP_TAPROOT. do 4 (apply bud_pre; [solve [cls]|intro]).
  destruct (_ =? _)%Z.
  - do 7 (apply bud_pre; [solve [cls]|intro]). destruct (bytes_eqb _ _).
    + apply bud_pre; [solve [cls]|intro]. apply bud_eval_body.
    + apply simple_bud. cls.
  - apply simple_bud. cls.
Qed.

Theorem op_prog_bud (o : opcode) : budT (op_prog o).
Proof.
  destruct (ctrl_op o) eqn:E; [|apply simple_bud, op_prog_simple, E].
  (* the nine control instructions, in the order of [opcode] *)
  destruct o; try discriminate E; cbn [op_prog];
    [> apply bud_OP_CALL | apply bud_OP_IF | apply bud_OP_IF_ELSE | apply bud_eval_body
     | apply bud_OP_RETURN | apply bud_OP_MERKLEVAL | apply bud_OP_TRY_EXCEPT
     | apply bud_OP_LOOP | apply bud_OP_TAPROOT ].
Qed.

Theorem dispatch_bud (code : nat) : budT (dispatch code).
Proof.
  unfold dispatch. destruct (opcode_of_nat code) as [o|].
  - apply op_prog_bud.
  - apply simple_bud, basic_within_simple, basic_NOP.
Qed.

End Ops.

Definition mode0 : bmode := {| m_up := false; m_loop := None |}.

Section Floor.
Variable orc : oracle.
Variable cfg : config.

Lemma nth_tape_outside st t : List.length (st_tapes st) <= t -> to_data (nth_tape st t) = [].
Proof. intro H. unfold nth_tape. rewrite nth_overflow by exact H. reflexivity. Qed.

(* an instruction can only be fetched from a tape of the heap *)
Lemma fetch_in_heap st t ptr : ptr < List.length (to_data (nth_tape st t)) -> t < List.length (st_tapes st).
Proof.
  intro E. destruct (Nat.lt_ge_cases t (List.length (st_tapes st))) as [Hlt|Hge]; [exact Hlt|].
  rewrite nth_tape_outside in E by exact Hge. simpl in E. lia.
Qed.

Lemma bsem_start c tid ptr st :
  tid < List.length (st_tapes st) -> ptr < List.length (data_of st tid) -> (c <= count_of st tid)%Z ->
  bsem c (List.length (data_of st tid)) tid mode0 {| fr_tid := tid; fr_ptr := S ptr |} st.
Proof.
  intros H1 H2 H3. split; [|split].
  - unfold btid. simpl. repeat split; auto; lia.
  - intros t E. discriminate.
  - intro E. discriminate.
Qed.

(* what IS preserved: an activation whose tape counter is >= c when it starts
   never lowers below c any counter that was >= c -- in the final state and in a raising state *)
Theorem run_tape_floor : forall fuel c tid ptr st,
  (tid < List.length (st_tapes st) -> (c <= count_of st tid)%Z) ->
  F_out c st (run_tape orc cfg fuel tid ptr st).
Proof.
  induction fuel as [|f IH]; intros c tid ptr st Hc; [exact I|].
  rewrite run_tape_eq.
  destruct (List.length (to_data (nth_tape st tid)) <=? ptr) eqn:E; [apply F_rel_refl|].
  apply Nat.leb_gt in E.
  pose proof (fetch_in_heap st tid ptr E) as Hin.
  specialize (Hc Hin).
  assert (Hrun : floor_ok c (rt orc cfg f)) by (intros t s Hs; apply IH; exact Hs).
  pose proof (bud_sound orc cfg c (List.length (data_of st tid)) tid (rt orc cfg f) Hrun unit
                (dispatch (code_at st tid ptr)) mode0 _ {| fr_tid := tid; fr_ptr := S ptr |} st
                (dispatch_bud cfg c _ _ mode0) (bsem_start c tid ptr st Hin E Hc)) as Hi.
  destruct (interp orc cfg (rt orc cfg f) _ _ st) as [u fr' st'|e fr' st'| |w]; try exact I; [|exact Hi].
  destruct Hi as (HF & m' & _ & (Ht & _)).
  pose proof (IH c tid (fr_ptr fr') st' (fun _ => proj2 (proj2 (proj2 (proj2 (proj2 Ht)))))) as H2.
  destruct (run_tape orc cfg f tid (fr_ptr fr') st') as [u' fr'' st''|e fr'' st''| |w]; simpl in *;
    try exact I; eapply F_rel_trans; eauto.
Qed.

(* in particular the counter of the activation's own tape never ends below its starting value *)
Corollary run_tape_own_count fuel tid ptr st :
  tid < List.length (st_tapes st) ->
  match run_tape orc cfg fuel tid ptr st with
  | Done _ _ st' | Raised _ _ st' => (count_of st tid <= count_of st' tid)%Z
  | _ => True
  end.
Proof.
  intro Hin.
  pose proof (run_tape_floor fuel (count_of st tid) tid ptr st (fun _ => Z.le_refl _)) as H.
  destruct (run_tape orc cfg fuel tid ptr st); simpl in H; try exact I; apply H; auto; lia.
Qed.

(* every instruction, run by an activation that started at counter >= c, respects the floor c *)
Corollary instruction_floor f c tid ptr st :
  tid < List.length (st_tapes st) -> ptr < List.length (data_of st tid) -> (c <= count_of st tid)%Z ->
  F_out c st (interp orc cfg (rt orc cfg f) (dispatch (code_at st tid ptr))
                     {| fr_tid := tid; fr_ptr := S ptr |} st).
Proof.
  intros Hin E Hc.
  assert (Hrun : floor_ok c (rt orc cfg f)) by (intros t s Hs; apply run_tape_floor; exact Hs).
  pose proof (bud_sound orc cfg c (List.length (data_of st tid)) tid (rt orc cfg f) Hrun unit
                (dispatch (code_at st tid ptr)) mode0 _ {| fr_tid := tid; fr_ptr := S ptr |} st
                (dispatch_bud cfg c _ _ mode0) (bsem_start c tid ptr st Hin E Hc)) as Hi.
  destruct (interp orc cfg (rt orc cfg f) _ _ st); simpl; try exact I; [apply Hi|exact Hi].
Qed.

Corollary run_script_count fuel script vals :
  match run_script orc cfg fuel script vals with
  | Done _ _ st' | Raised _ _ st' => (0 <= count_of st' 0)%Z
  | _ => True
  end.
Proof.
  pose proof (run_tape_own_count fuel 0 0 (init_state cfg script vals)) as H.
  unfold run_script. destruct (run_tape orc cfg fuel 0 0 _); try exact I; apply H; simpl; lia.
Qed.

End Floor.

(* ACallDef overwrites the callee's counter with the caller's.  A definition that was called from a
   deeper nesting keeps the deeper counter after it returns; a later call from a shallower
   activation LOWERS it.  (Witness: tape 2, the definition 1, goes from 2 to 1.) *)
Definition cex_orc : oracle := fun _ _ => OErr OtherError.
Definition cex_cfg : config :=
  {| c_max_items := 1024; c_max_item_size := 1024; c_limit := 64; c_flags := []; c_sigext := [];
     c_ctplugins := []; c_contracts := []; c_now := 0 |}.
Definition cex_script : bytes :=
  [x29; x00; x00; x02; x2a; x01;      (* DEF 0 { CALL 1 } *)
   x29; x01; x00; x00;                (* DEF 1 { } *)
   x01;                               (* TRUE *)
   x2b; x00; x02; x2a; x00;           (* IF { CALL 0 } *)
   x30;                               (* RETURN: the script stops here ... *)
   x2a; x01].                         (* CALL 1: ... and is resumed here below *)
Definition cex_mid : state :=
  match run_script cex_orc cex_cfg 10 cex_script [] with
  | Done _ _ st => st
  | _ => init_state cex_cfg [] []
  end.

Example count_not_monotone :
  map to_count (st_tapes cex_mid) = [0; 2; 2; 1]%Z /\
  exists fr st',
    run_tape cex_orc cex_cfg 10 0 17 cex_mid = Done tt fr st' /\
    map to_count (st_tapes st') = [1; 2; 1; 1]%Z /\
    (count_of st' 2 < count_of cex_mid 2)%Z.
Proof.
  split; [vm_compute; reflexivity|].
  destruct (run_tape cex_orc cex_cfg 10 0 17 cex_mid) as [u fr st'| | |] eqn:E;
    try (vm_compute in E; discriminate).
  exists fr, st'. destruct u. split; [reflexivity|].
  vm_compute in E. injection E as <- <-. vm_compute. repeat split; reflexivity.
Qed.

Section CallBounded.
Variable orc : oracle.
Variable cfg : config.

(* a runner that refuses to start a heap tape whose counter exceeds callstack_limit *)
Definition within_budget (run : nat -> state -> outcome unit) : nat -> state -> outcome unit :=
  fun t s =>
    if (t <? List.length (st_tapes s)) && (c_limit cfg <? count_of s t)%Z
    then Unmodelled "sub-tape started over the call budget"
    else run t s.

(* OP_CALL: the counter it reads is < callstack_limit or it raises before doing anything; the
   definition it calls starts with counter = that value + 1 <= callstack_limit *)
Theorem OP_CALL_bounded run fr st :
  fr_tid fr < List.length (st_tapes st) ->
  interp orc cfg run OP_CALL fr st = interp orc cfg (within_budget run) OP_CALL fr st.
Proof.
  intro Hin. unfold OP_CALL, config_, read, act, sert. cbn [bind interp step].
  destruct (to_count (cur fr st) <? c_limit cfg)%Z eqn:E; cbn [bind interp step]; [|reflexivity].
  apply Z.ltb_lt in E.
  destruct (_ <? _); cbn [bind interp step]; [reflexivity|].
  destruct (defs_get _ _) as [t|]; cbn [bind interp step]; [|reflexivity].
  unfold within_budget at 1.
  match goal with |- context [run t ?s] => set (s1 := s) end.
  replace ((t <? List.length (st_tapes s1)) && (c_limit cfg <? count_of s1 t)%Z) with false; [reflexivity|].
  symmetry. apply andb_false_iff.
  destruct (t <? List.length (st_tapes s1)) eqn:Et; [right|left; reflexivity].
  apply Nat.ltb_lt in Et. apply Z.ltb_ge.
  unfold s1 in *. rewrite set_count_length in Et. unfold count_of.
  rewrite count_set_count_same by exact Et.
  unfold cur. simpl fr_tid. rewrite count_set_count_same by exact Hin. unfold cur in E. lia.
Qed.

Theorem OP_CALL_over_budget run fr st :
  (c_limit cfg <= to_count (cur fr st))%Z ->
  interp orc cfg run OP_CALL fr st = Raised ScriptExecutionError fr st.
Proof.
  intro H. unfold OP_CALL, config_, read, act, sert. cbn [bind interp step].
  apply Z.ltb_ge in H. rewrite H. reflexivity.
Qed.

(* EVAL (also inside MERKLEVAL and TAPROOT) *)
Theorem eval_body_bounded run fr st :
  interp orc cfg run eval_body fr st = interp orc cfg (within_budget run) eval_body fr st.
Proof.
  unfold eval_body, config_, get, act. cbn [bind interp step].
  unfold sert at 1 3. destruct (flag_get _ _); cbn [bind interp step]; [reflexivity|].
  unfold sert. destruct (to_count (cur fr st) <? c_limit cfg)%Z eqn:E; cbn [bind interp step]; [|reflexivity].
  apply Z.ltb_lt in E.
  destruct (st_stack st) as [|script s]; cbn [bind interp step]; [reflexivity|].
  unfold vert. destruct (0 <? blen script)%Z; cbn [bind interp step]; [|reflexivity].
  unfold new_tape.
  unfold within_budget at 1.
  match goal with |- context [run ?t ?s] => set (s1 := s); set (t1 := t) end.
  replace ((t1 <? List.length (st_tapes s1)) && (c_limit cfg <? count_of s1 t1)%Z) with false.
  { unfold after_run. destruct (run t1 s1) as [u fr' st'|e fr' st'| |w]; try reflexivity.
    destruct (cache_get (st_cache st') returned_key); [destruct (flag_on _ _)|]; reflexivity. }
  symmetry. apply andb_false_iff. right. apply Z.ltb_ge.
  unfold count_of, nth_tape, s1, t1. simpl. rewrite app_nth2 by lia. rewrite Nat.sub_diag. simpl.
  change (cur fr (with_stack st s)) with (cur fr st). lia.
Qed.

Theorem eval_body_over_budget run fr st :
  (c_limit cfg <= to_count (cur fr st))%Z ->
  interp orc cfg run eval_body fr st = Raised ScriptExecutionError fr st.
Proof.
  intro H. unfold eval_body, config_, get, act. cbn [bind interp step].
  unfold sert at 1. destruct (flag_get _ _); cbn [bind interp step]; [reflexivity|].
  unfold sert. apply Z.ltb_ge in H. rewrite H. reflexivity.
Qed.

End CallBounded.

Section LoopBounded.
Variable orc : oracle.
Variable cfg : config.
Variable run : nat -> state -> outcome unit.

Definition is_run_loop {X} (a : action X) : nat := match a with ARunLoop _ => 1 | _ => 0 end.

(* the number of ARunLoop actions executed by [interp run p fr st] (counting semantics: the same
   recursion as [interp], adding one for each ARunLoop met on the executed path) *)
Fixpoint run_loops {A} (p : prog A) (fr : frame) (st : state) : nat :=
  match p with
  | Act a k =>
    is_run_loop a +
    match step orc cfg run a fr st with
    | SOk x fr' st' => run_loops (k x) fr' st'
    | _ => 0
    end
  | _ => 0
  end.

Lemma run_loops_bind A B (p : prog A) (f : A -> prog B) : forall fr st,
  run_loops (bind p f) fr st =
  run_loops p fr st +
  match interp orc cfg run p fr st with
  | Done a fr' st' => run_loops (f a) fr' st'
  | _ => 0
  end.
Proof.
  induction p as [a|e|w|X a k IH]; intros fr st; cbn [bind run_loops interp]; try reflexivity.
  destruct (step orc cfg run a fr st) as [x fr' st'|e fr' st'| |w]; try lia.
  rewrite IH. lia.
Qed.

Theorem loop_go_bounded n : forall i limit tid cond fr st,
  run_loops (loop_go n i limit tid cond) fr st <= Z.to_nat (limit - i).
Proof.
  induction n as [|n IH]; intros i limit tid cond fr st; cbn [loop_go];
    (destruct (bytes_to_bool cond); [|simpl; lia]); unfold sert;
    (destruct (i <? limit)%Z eqn:E; cbn [bind run_loops]; [|lia]).
  - lia.
  - apply Z.ltb_lt in E. unfold act. cbn [bind run_loops is_run_loop].
    destruct (step orc cfg run (ARunLoop tid) fr st) as [x fr' st'|e fr' st'| |w]; try lia.
    cbn [step].
    destruct (match cache_get (st_cache st') returned_key with Some _ => true | None => false end);
      cbn [bind run_loops is_run_loop step]; [lia|].
    destruct (st_stack st') as [|top s]; [lia|].
    specialize (IH (i + 1)%Z limit tid top fr' st'). cbn [is_run_loop]. lia.
Qed.

(* with a false condition, or the bound already reached, the body is not run at all *)
Theorem loop_go_stops n i limit tid cond fr st :
  bytes_to_bool cond = false \/ (limit <= i)%Z ->
  run_loops (loop_go n i limit tid cond) fr st = 0 /\
  interp orc cfg run (loop_go n i limit tid cond) fr st =
    if bytes_to_bool cond then Raised ScriptExecutionError fr st else Done tt fr st.
Proof.
  intros H. destruct n; cbn [loop_go]; destruct (bytes_to_bool cond); try (split; reflexivity);
    (destruct H as [H|H]; [discriminate|]); apply Z.ltb_ge in H; unfold sert; rewrite H; split; reflexivity.
Qed.

(* the program bound [nat_of limit + 1] handed to loop_go by OP_LOOP is never exhausted:
   "Unmod loop bound" is unreachable *)
Theorem loop_go_bound_suffices n : forall i limit tid cond fr st,
  Z.to_nat (limit - i) < n ->
  (forall t s, run t s <> Unmodelled "loop bound") ->
  interp orc cfg run (loop_go n i limit tid cond) fr st <> Unmodelled "loop bound".
Proof.
  induction n as [|n IH]; intros i limit tid cond fr st Hn Hrun; [lia|].
  cbn [loop_go]. destruct (bytes_to_bool cond); [|discriminate]. unfold sert.
  destruct (i <? limit)%Z eqn:E; cbn [bind interp]; [|discriminate].
  apply Z.ltb_lt in E. unfold act. cbn [bind interp step]. unfold after_run.
  pose proof (Hrun tid st) as Hr.
  destruct (run tid st) as [u fr' st'|e fr' st'| |w]; try discriminate.
  - cbn [interp step].
    destruct (match cache_get (st_cache st') returned_key with Some _ => true | None => false end);
      cbn [bind interp step]; [discriminate|].
    destruct (st_stack st') as [|top s]; [discriminate|].
    apply IH; [lia|exact Hrun].
  - intro E'. apply Hr. injection E' as ->. reflexivity.
Qed.

Theorem loop_bounded fr st : run_loops OP_LOOP fr st <= Z.to_nat (c_limit cfg).
Proof.
  unfold OP_LOOP, read_u16, read, config_, act. cbn [bind run_loops is_run_loop step].
  destruct (_ <? _); [lia|]. cbn [bind run_loops is_run_loop step].
  destruct (_ <? _); [lia|]. cbn [bind run_loops is_run_loop step].
  destruct (st_stack st); [lia|]. cbn [bind run_loops is_run_loop step new_tape].
  match goal with |- context [loop_go ?n ?i ?l ?t ?cnd] =>
    match goal with |- context [run_loops (loop_go n i l t cnd) ?f ?s] =>
      pose proof (loop_go_bounded n i l t cnd f s) as H end end.
  rewrite Z.sub_0_r in H. lia.
Qed.

End LoopBounded.

(* programs that neither touch the flag 'returned', nor run a sub-tape, nor increment the counter
   (Discipline.simple_act minus ACountIncr) *)
Definition plain_act {X} (a : action X) : bool :=
  match a with ACountIncr => false | _ => simple_act a end.

Fixpoint plain {A} (p : prog A) : Prop :=
  match p with
  | Act a k => plain_act a = true /\ forall x, plain (k x)
  | _ => True
  end.

(* [plain] is [within plain_act] (see Discipline.within_simple) *)
Lemma within_plain A (p : prog A) : within (@plain_act) p -> plain p.
Proof. exact (fun H => H). Qed.

Lemma plain_basic_act X (a : action X) : basic_act a = true -> plain_act a = true.
Proof. destruct a; try reflexivity; discriminate. Qed.

Lemma basic_plain A (p : prog A) : basic p -> plain p.
Proof. intro H. apply within_plain, (basic_within _ plain_basic_act), H. Qed.

Lemma plain_sert c : plain (sert c). Proof. apply basic_plain, basic_sert. Qed.
Lemma plain_vert c : plain (vert c). Proof. apply basic_plain, basic_vert. Qed.
Lemma plain_tert c : plain (tert c). Proof. apply basic_plain, basic_tert. Qed.
Lemma plain_get : plain get. Proof. apply basic_plain, basic_get. Qed.
Lemma plain_put b : plain (put b). Proof. apply basic_plain, basic_put. Qed.
Lemma plain_read n : plain (read n). Proof. apply basic_plain, basic_read. Qed.
Lemma plain_read_u8 : plain read_u8. Proof. apply basic_plain, basic_read_u8. Qed.
Lemma plain_read_u16 : plain read_u16. Proof. apply basic_plain, basic_read_u16. Qed.
Lemma plain_config : plain config_. Proof. apply basic_plain, basic_config. Qed.
Lemma plain_prim_list p l : plain (prim_list p l). Proof. apply basic_plain, basic_prim_list. Qed.
Lemma plain_prim1 p l : plain (prim1 p l). Proof. apply basic_plain, basic_prim1. Qed.
Lemma plain_prim_bool p l : plain (prim_bool p l). Proof. apply basic_plain, basic_prim_bool. Qed.
Lemma plain_repeat_get n : plain (repeat_get n). Proof. apply basic_plain, basic_repeat_get. Qed.
Lemma plain_put_all l : plain (put_all l). Proof. apply basic_plain, basic_put_all. Qed.
Lemma plain_fl2 a : plain (fl2_prog a). Proof. apply basic_plain, basic_fl2. Qed.
Lemma plain_i2b n : plain (i2b n). Proof. apply basic_plain, basic_i2b. Qed.
Lemma plain_b2i b : plain (b2i b). Proof. apply basic_plain, basic_b2i. Qed.
Lemma plain_get_int : plain get_int. Proof. apply basic_plain, basic_get_int. Qed.
Lemma plain_repeat_get_z n : plain (repeat_get_z n).
Proof. apply basic_plain, basic_repeat_get_z. Qed.
Lemma plain_put_bool b : plain (put_bool b). Proof. apply basic_plain, basic_put_bool. Qed.
Lemma plain_cache_raw k v : plain (cache_raw k v). Proof. apply basic_plain, basic_cache_raw. Qed.
Lemma plain_cache_items k l : plain (cache_items k l).
Proof. apply basic_plain, basic_cache_items. Qed.
Lemma plain_log_sigext l : plain (log_sigext l).
Proof. apply within_plain, within_log_sigext. reflexivity. Qed.
Lemma plain_run_sig_ext : plain run_sig_ext.
Proof. apply within_plain, within_run_sig_ext; [exact plain_basic_act|reflexivity]. Qed.
Lemma plain_msg_go idx flag : forall acc, plain (msg_go idx flag acc).
Proof. intro. apply basic_plain, basic_msg_go. Qed.
Lemma plain_get_message_core f : plain (get_message_core f).
Proof. apply basic_plain, basic_get_message_core. Qed.
Lemma plain_put_atoms l : plain (put_atoms l). Proof. apply basic_plain, basic_put_atoms. Qed.
Lemma plain_put_values l : plain (put_values l). Proof. apply basic_plain, basic_put_values. Qed.
Lemma plain_read_cache_key k : plain (read_cache_key k).
Proof. apply basic_plain, basic_read_cache_key. Qed.
Lemma plain_cache_size_key k : plain (cache_size_key k).
Proof. apply basic_plain, basic_cache_size_key. Qed.
Lemma plain_fold_ints n f : forall acc, plain (fold_ints n f acc).
Proof. intro. apply basic_plain, basic_fold_ints. Qed.
Lemma plain_pydiv a b : plain (pydiv a b). Proof. apply basic_plain, basic_pydiv. Qed.
Lemma plain_pymod a b : plain (pymod a b). Proof. apply basic_plain, basic_pymod. Qed.
Lemma plain_get_float_t : plain get_float_t. Proof. apply basic_plain, basic_get_float_t. Qed.
Lemma plain_bytes_to_float x : plain (bytes_to_float x).
Proof. apply basic_plain, basic_bytes_to_float. Qed.
Lemma plain_check_nan d : plain (check_nan d). Proof. apply basic_plain, basic_check_nan. Qed.
Lemma plain_put_float d : plain (put_float d). Proof. apply basic_plain, basic_put_float. Qed.
Lemma plain_fold_floats n p : forall acc, plain (fold_floats n p acc).
Proof. intro. apply basic_plain, basic_fold_floats. Qed.
Lemma plain_clamp_scalar s b : plain (clamp_scalar s b).
Proof. apply basic_plain, basic_clamp_scalar. Qed.
Lemma plain_H_big l : plain (H_big l). Proof. apply basic_plain, basic_H_big. Qed.
Lemma plain_H_small l : plain (H_small l). Proof. apply basic_plain, basic_H_small. Qed.
Lemma plain_derive_key s : plain (derive_key_from_seed s).
Proof. apply basic_plain, basic_derive_key. Qed.
Lemma plain_derive_point x : plain (derive_point x).
Proof. apply basic_plain, basic_derive_point. Qed.
Lemma plain_check_points l : plain (check_points l).
Proof. apply basic_plain, basic_check_points. Qed.
Lemma plain_sum_with p l : forall acc, plain (sum_with p acc l).
Proof. intro. apply basic_plain, basic_sum_with. Qed.
Lemma plain_aggregate_points l : plain (aggregate_points l).
Proof. apply basic_plain, basic_aggregate_points. Qed.
Lemma plain_aggregate_scalars l : plain (aggregate_scalars l).
Proof. apply basic_plain, basic_aggregate_scalars. Qed.
Lemma plain_sub_go n p : forall acc, plain (sub_go n p acc).
Proof. intro. apply basic_plain, basic_sub_go. Qed.
Lemma plain_check_sig_body a : plain (check_sig_body a).
Proof. apply basic_plain, basic_check_sig_body. Qed.
Lemma plain_ms_find a sig keys : plain (ms_find a sig keys).
Proof. apply basic_plain, basic_ms_find. Qed.
Lemma plain_ms_go a sigs : forall keys confirmed, plain (ms_go a sigs keys confirmed).
Proof. intros. apply basic_plain, basic_ms_go. Qed.
Lemma plain_ct_run l t f : plain (ct_run l t f). Proof. apply basic_plain, basic_ct_run. Qed.
Lemma plain_ct_go idx flag : forall valid, plain (ct_go idx flag valid).
Proof. intro. apply basic_plain, basic_ct_go. Qed.
Lemma plain_decode_utf8 b : plain (decode_utf8 b). Proof. apply basic_plain, basic_decode_utf8. Qed.
Lemma plain_swap_core i j : plain (swap_core i j). Proof. apply basic_plain, basic_swap_core. Qed.
Lemma plain_when b p : plain p -> plain (when b p).
Proof. intro H. destruct b; [exact H|exact I]. Qed.
Lemma plain_OP_DUP : plain OP_DUP. Proof. apply basic_plain, basic_OP_DUP. Qed.
Lemma plain_OP_SHA256 : plain OP_SHA256. Proof. apply basic_plain, basic_OP_SHA256. Qed.
Lemma plain_OP_SWAP2 : plain OP_SWAP2. Proof. apply basic_plain, basic_OP_SWAP2. Qed.
Lemma plain_OP_XOR : plain OP_XOR. Proof. apply basic_plain, basic_OP_XOR. Qed.
Lemma plain_OP_EQUAL_VERIFY : plain OP_EQUAL_VERIFY.
Proof. apply basic_plain, basic_OP_EQUAL_VERIFY. Qed.

Section Cap.
Variable cfg : config.

Definition cap : Z := Z.max 0 (c_limit cfg).

(* the judgement tracks the exact counter of the current tape, when known *)
Definition k_ok {X} (a : action X) (k : option Z) (Q : X -> option Z -> Prop) : Prop :=
  match a in action X return (X -> option Z -> Prop) -> Prop with
  | ACount => fun Q => forall x, Q x (Some x)
  | ACountIncr => fun Q =>
      match k with Some x => (x < c_limit cfg)%Z /\ Q tt (Some (x + 1)%Z) | None => False end
  | AConfig => fun Q => Q cfg k
  | ACallDef _ => fun Q => Q tt None
  | ARunSub sk _ => fun Q =>
      match sk with SubEval => exists x, k = Some x /\ (x < c_limit cfg)%Z | SubCopy => True end /\ Q tt None
  | ATrySub _ => fun Q => forall r, Q r None
  | ARunLoop _ => fun Q => Q tt None
  | _ => fun Q => forall x, Q x k
  end Q.

Fixpoint capj {A} (p : prog A) (k : option Z) (post : A -> option Z -> Prop) : Prop :=
  match p with
  | Ret a => post a k
  | Raise _ => True
  | Unmod _ => True
  | Act a f => k_ok a k (fun x k' => capj (f x) k' post)
  end.

Lemma k_ok_mono X (a : action X) k (P Q : X -> option Z -> Prop) :
  (forall x k', P x k' -> Q x k') -> k_ok a k P -> k_ok a k Q.
Proof.
  intros H. destruct a; cbn [k_ok]; try (destruct k0); try (destruct k); intuition auto.
Qed.

Lemma capj_bind A B (p : prog A) (f : A -> prog B) :
  forall k (Q1 : A -> option Z -> Prop) (Q2 : B -> option Z -> Prop),
  capj p k Q1 -> (forall a k', Q1 a k' -> capj (f a) k' Q2) -> capj (bind p f) k Q2.
Proof.
  induction p as [a|e|w|X a g IH]; intros k Q1 Q2 H Hf; cbn [capj bind] in *; auto.
  eapply k_ok_mono; [|exact H]. cbv beta. intros x k' Hx. eapply IH; eauto.
Qed.

(* the judgement constrains only ACountIncr and ARunSub SubEval: a program without them satisfies it
   from every counter *)
Definition loose_act {X} (a : action X) : bool :=
  match a with ACountIncr | ARunSub SubEval _ => false | _ => true end.

Lemma loose_capj A (p : prog A) : within (@loose_act) p -> forall k, capj p k (fun _ _ => True).
Proof.
  induction p as [a|e|w|X a g IH]; intros Hs k; cbn [capj within] in *; auto.
  destruct Hs as [Ha Hk].
  destruct a; cbn [k_ok loose_act] in *; try discriminate;
    try (destruct k0; [split; [exact I|]|discriminate]); intros; apply IH; apply Hk.
Qed.

Lemma loose_basic_act X (a : action X) : basic_act a = true -> loose_act a = true.
Proof. destruct a; try reflexivity; discriminate. Qed.
Lemma basic_within_loose A (p : prog A) : basic p -> within (@loose_act) p.
Proof. apply basic_within, loose_basic_act. Qed.
Lemma run_sig_ext_loose : within (@loose_act) run_sig_ext.
Proof. apply within_run_sig_ext; [exact loose_basic_act|reflexivity]. Qed.
Lemma loop_go_loose n : forall i limit t cond, within (@loose_act) (loop_go n i limit t cond).
Proof. induction n as [|n IH]; intros i limit t cond; cbn [loop_go]; cls. Qed.
Local Hint Resolve basic_within_loose run_sig_ext_loose loop_go_loose : within_db.

Notation capT p := (forall k, capj p k (fun _ _ => True)).

Lemma capj_pre A B (p : prog A) (f : A -> prog B) :
  within (@loose_act) p -> (forall a, capT (f a)) -> capT (bind p f).
Proof.
  intros Hp Hf k. eapply capj_bind; [apply loose_capj; exact Hp|]. cbv beta. intros a k' _. apply Hf.
Qed.

Lemma capj_OP_CALL : capT OP_CALL.
Proof.
  intro k. unfold OP_CALL, config_, read, act. cbn [bind capj k_ok].
  intros x. unfold sert. destruct (x <? c_limit cfg)%Z eqn:E; cbn [bind capj k_ok]; [|exact I].
  apply Z.ltb_lt in E. intros h. split; [exact E|]. intros [t|]; cbn [bind capj k_ok]; [|exact I].
  intros _. exact I.
Qed.

Lemma capj_eval_body : capT eval_body.
Proof.
  intro k. unfold eval_body, config_, get, act. cbn [bind capj k_ok].
  unfold sert at 1. destruct (flag_get _ _); cbn [bind capj k_ok]; [exact I|].
  intros x. unfold sert. destruct (x <? c_limit cfg)%Z eqn:E; cbn [bind capj k_ok]; [|exact I].
  apply Z.ltb_lt in E. intros script. unfold vert.
  destruct (0 <? blen script)%Z; cbn [bind capj k_ok]; [|exact I].
  split; [exists x; split; [reflexivity|exact E]|]. intros [|]; [|exact I].
  apply loose_capj. cls.
Qed.

Lemma capj_OP_MERKLEVAL : capT OP_MERKLEVAL.
Proof.
  unfold OP_MERKLEVAL. do 10 (apply capj_pre; [solve [cls]|intro]). apply capj_eval_body.
Qed.

Lemma capj_OP_TAPROOT : capT OP_TAPROOT.
Proof.
  unfold OP_TAPROOT. do 4 (apply capj_pre; [solve [cls]|intro]).
  destruct (_ =? _)%Z.
  - do 7 (apply capj_pre; [solve [cls]|intro]). destruct (bytes_eqb _ _).
    + apply capj_pre; [solve [cls]|intro]. apply capj_eval_body.
    + intro k. apply loose_capj. cls.
  - intro k. apply loose_capj. cls.
Qed.

Theorem op_prog_capj (o : opcode) : capT (op_prog o).
Proof.
  destruct (ctrl_op o) eqn:E;
    [|intro k; apply loose_capj, op_prog_within, E; [exact loose_basic_act|reflexivity]].
  (* of the nine control instructions (in the order of [opcode]) only CALL and EVAL, the latter
     also inside MERKLEVAL and TAPROOT, have an action that the judgement constrains *)
  destruct o; try discriminate E; cbn [op_prog];
    [> apply capj_OP_CALL | | | apply capj_eval_body | | apply capj_OP_MERKLEVAL | | |
       apply capj_OP_TAPROOT ]; intro k; apply loose_capj; cls.
Qed.

Theorem dispatch_capj (code : nat) : capT (dispatch code).
Proof.
  unfold dispatch. destruct (opcode_of_nat code) as [o|].
  - apply op_prog_capj.
  - intro k. apply loose_capj, basic_within_loose, basic_NOP.
Qed.

End Cap.

Section CapSound.
Variable orc : oracle.
Variable cfg : config.

Notation capv := (cap cfg).

(* every counter of the heap (and the default tape outside it) is within the cap *)
Definition capped (st : state) : Prop := forall t, (count_of st t <= capv)%Z.

Lemma cap_nonneg : (0 <= capv)%Z.
Proof. unfold cap. lia. Qed.
Lemma cap_limit : (c_limit cfg <= capv)%Z.
Proof. unfold cap. lia. Qed.

Lemma capped_tapes_eq st st' : st_tapes st' = st_tapes st -> capped st -> capped st'.
Proof. intros E H t. unfold count_of, nth_tape in *. rewrite E. apply H. Qed.

Lemma capped_app st st' x :
  st_tapes st' = st_tapes st ++ [x] -> (to_count x <= capv)%Z -> capped st -> capped st'.
Proof.
  intros E Hx H t. unfold count_of, nth_tape. rewrite E.
  destruct (Nat.lt_ge_cases t (List.length (st_tapes st))) as [Hlt|Hge].
  - rewrite app_nth1 by exact Hlt. apply H.
  - rewrite app_nth2 by exact Hge. destruct (t - List.length (st_tapes st)) as [|[|j]]; simpl;
      try exact Hx; apply cap_nonneg.
Qed.

Lemma capped_set_count st t v : (v <= capv)%Z -> capped st -> capped (set_count st t v).
Proof.
  intros Hv H t'. unfold count_of. destruct (Nat.eq_dec t t') as [->|Hne].
  - destruct (Nat.lt_ge_cases t' (List.length (st_tapes st))) as [Hlt|Hge].
    + rewrite count_set_count_same by exact Hlt. exact Hv.
    + unfold nth_tape. rewrite nth_overflow by (rewrite set_count_length; exact Hge). simpl. apply cap_nonneg.
  - rewrite nth_tape_set_count_other by exact Hne. apply H.
Qed.

Definition grows (s s' : state) : Prop := List.length (st_tapes s) <= List.length (st_tapes s').
Definition cap_res (s s' : state) : Prop := capped s' /\ grows s s'.
Definition cap_out {A} (s : state) (o : outcome A) : Prop :=
  match o with Done _ _ s' | Raised _ _ s' => cap_res s s' | _ => True end.
Definition cap_run_ok (run : nat -> state -> outcome unit) : Prop :=
  forall t s, capped s -> cap_out s (run t s).

Definition ksem (k : option Z) (fr : frame) (st : state) : Prop :=
  capped st /\ fr_tid fr < List.length (st_tapes st) /\
  forall x, k = Some x -> count_of st (fr_tid fr) = x.

Section Step.
Variable run : nat -> state -> outcome unit.
Hypothesis Hrun : cap_run_ok run.

Definition cap_sres {X} (Q : X -> option Z -> Prop) (st : state) (r : sres X) : Prop :=
  match r with
  | SOk x fr' st' => grows st st' /\ exists k', Q x k' /\ ksem k' fr' st'
  | SRaise _ _ st' => cap_res st st'
  | _ => True
  end.

Lemma cap_res_refl st : capped st -> cap_res st st.
Proof. intro H. split; [exact H|unfold grows; lia]. Qed.

Lemma kkeep X (Q : X -> option Z -> Prop) x k fr fr' st st' :
  st_tapes st' = st_tapes st -> fr_tid fr' = fr_tid fr -> Q x k -> ksem k fr st ->
  grows st st' /\ exists k', Q x k' /\ ksem k' fr' st'.
Proof.
  intros E Ef HQ (H1 & H2 & H3). split; [unfold grows; rewrite E; lia|]. exists k. split; [exact HQ|].
  split; [eapply capped_tapes_eq; eauto|]. split; [rewrite E, Ef; exact H2|].
  intros y Ey. unfold count_of, nth_tape. rewrite E, Ef. apply H3. exact Ey.
Qed.

Lemma ksem_none fr st st' :
  capped st' -> fr_tid fr < List.length (st_tapes st) ->
  List.length (st_tapes st) <= List.length (st_tapes st') -> ksem None fr st'.
Proof. intros H1 H2 H3. split; [exact H1|]. split; [lia|]. intros x E. discriminate. Qed.

Lemma ksem_app k fr st st' x :
  st_tapes st' = st_tapes st ++ [x] -> (to_count x <= capv)%Z -> ksem k fr st -> ksem k fr st'.
Proof.
  intros E Hx (H1 & H2 & H3). split; [eapply capped_app; eauto|].
  split; [rewrite E, app_length; simpl; lia|].
  intros y Ey. unfold count_of. rewrite (nth_tape_old st st' [x] _ E H2). apply H3. exact Ey.
Qed.

(* a sub-tape run from a capped state [s1] that has at least the tapes of [st] *)
Lemma sub_capped fr st t s1 :
  fr_tid fr < List.length (st_tapes st) -> capped s1 -> grows st s1 ->
  match run t s1 with
  | Done _ _ st' | Raised _ _ st' => cap_res st st' /\ ksem None fr st'
  | _ => True
  end.
Proof.
  intros Hfr Hc Hg. pose proof (Hrun t s1 Hc) as Hr.
  destruct (run t s1) as [u fr' st'|e fr' st'| |w]; simpl in Hr; try exact I;
    (destruct Hr as [Hr1 Hr2]; unfold cap_res, grows in *;
     split; [split; [exact Hr1|lia]|eapply ksem_none; eauto; lia]).
Qed.

Lemma after_run_capped (Q : unit -> option Z -> Prop) fr st t s1 :
  fr_tid fr < List.length (st_tapes st) -> capped s1 -> grows st s1 -> Q tt None ->
  cap_sres Q st (after_run fr (run t s1)).
Proof.
  intros Hfr Hc Hg HQ. pose proof (sub_capped fr st t s1 Hfr Hc Hg) as Hr.
  destruct (run t s1); try exact I; [|apply Hr].
  split; [apply Hr|]. exists None. split; [exact HQ|apply Hr].
Qed.

Lemma cap_step_sound X (a : action X) k (Q : X -> option Z -> Prop) fr st :
  k_ok cfg a k Q -> ksem k fr st -> cap_sres Q st (step orc cfg run a fr st).
Proof.
  intros H Hs. pose proof Hs as (C1 & C2 & C3).
  destruct a; cbn [k_ok] in H; simpl; try solve [apply kkeep with (k := k) (fr := fr); auto].
  - (* AGet *) destruct (st_stack st); simpl; [apply cap_res_refl; exact C1|].
    apply kkeep with (k := k) (fr := fr); auto.
  - (* APut *)
    destruct (_ <? _); simpl; [apply cap_res_refl; exact C1|].
    destruct (_ <=? _); simpl; [apply cap_res_refl; exact C1|].
    apply kkeep with (k := k) (fr := fr); auto.
  - (* APeek *) destruct (st_stack st); simpl; [apply cap_res_refl; exact C1|].
    apply kkeep with (k := k) (fr := fr); auto.
  - (* ASwapIdx *) destruct (_ && _); simpl; [|exact I]. apply kkeep with (k := k) (fr := fr); auto.
  - (* ARead *)
    destruct (_ <? _); simpl; [apply cap_res_refl; exact C1|].
    apply kkeep with (k := k) (fr := fr); auto.
  - (* ACount *)
    split; [unfold grows; lia|]. eexists. split; [apply H|]. split; [exact C1|]. split; [exact C2|].
    intros x E. injection E as <-. reflexivity.
  - (* ACountIncr *)
    destruct k as [x|]; [|contradiction]. destruct H as (Hx & HQ).
    pose proof (C3 x eq_refl) as Ec. unfold cur. fold (count_of st (fr_tid fr)). rewrite Ec.
    split; [unfold grows; rewrite set_count_length; lia|]. eexists. split; [exact HQ|].
    split; [apply capped_set_count; [pose proof cap_limit; lia|exact C1]|].
    split; [rewrite set_count_length; exact C2|].
    intros y Ey. injection Ey as <-. unfold count_of. apply count_set_count_same. exact C2.
  - (* ADefSet *)
    split; [unfold grows; simpl; rewrite app_length; simpl; lia|]. exists k. split; [apply H|].
    eapply ksem_app; [| |exact Hs]; [simpl; reflexivity|simpl; apply cap_nonneg].
  - (* ACallDef *)
    apply after_run_capped; [exact C2|apply capped_set_count; [apply C1|exact C1]| |exact H].
    unfold grows. rewrite set_count_length. lia.
  - (* ARunSub *)
    destruct H as (Hk & HQ).
    apply after_run_capped; [exact C2| |unfold grows; simpl; rewrite app_length; lia|exact HQ].
    eapply (capped_app st); [reflexivity| |exact C1]. simpl. unfold cur. fold (count_of st (fr_tid fr)).
    destruct k0; [apply C1|]. destruct Hk as (x & -> & Hx). rewrite (C3 x eq_refl).
    pose proof cap_limit. lia.
  - (* ATrySub *)
    match goal with |- context [run ?t ?s] => pose proof (sub_capped fr st t s C2) as Hr end.
    destruct (run _ _); try exact I;
      (destruct Hr as [Hr Hk];
       [eapply (capped_app st); [reflexivity| |exact C1]; simpl; unfold cur; apply C1
       |unfold grows; simpl; rewrite app_length; lia
       |split; [apply Hr|]; exists None; split; [apply H|exact Hk]]).
  - (* ALoopNew *)
    split; [unfold grows; simpl; rewrite app_length; simpl; lia|]. exists k. split; [apply H|].
    eapply ksem_app; [| |exact Hs]; [simpl; reflexivity|simpl; unfold cur; apply C1].
  - (* ARunLoop *)
    apply after_run_capped; [exact C2|exact C1|unfold grows; lia|exact H].
Qed.

Theorem capj_sound A (p : prog A) : forall k (post : A -> option Z -> Prop) fr st,
  capj cfg p k post -> ksem k fr st ->
  match interp orc cfg run p fr st with
  | Done a fr' st' => cap_res st st' /\ fr_tid fr' = fr_tid fr
  | Raised _ _ st' => cap_res st st'
  | _ => True
  end.
Proof.
  induction p as [a|e|w|X a g IH]; intros k post fr st Hd Hs; cbn [capj interp] in *.
  - split; [apply cap_res_refl; apply Hs|reflexivity].
  - apply cap_res_refl; apply Hs.
  - exact I.
  - pose proof (cap_step_sound X a k _ fr st Hd Hs) as Hstep.
    destruct (step orc cfg run a fr st) as [x fr' st'|e fr' st'| |w] eqn:Es; simpl in Hstep;
      try exact I; [|exact Hstep].
    destruct Hstep as (Hlen & k' & Hd' & Hs').
    specialize (IH x k' post fr' st' Hd' Hs').
    pose proof (step_tid orc cfg run X a fr st) as Hfr. rewrite Es in Hfr.
    destruct (interp orc cfg run (g x) fr' st') as [a' fr'' st''|e fr'' st''| |w]; try exact I.
    + destruct IH as ((I1 & I2) & I3). unfold cap_res, grows in *. split; [split; [exact I1|lia]|congruence].
    + destruct IH as (I1 & I2). unfold cap_res, grows in *. split; [exact I1|lia].
Qed.

End Step.

Theorem run_tape_capped : forall fuel tid ptr st,
  capped st -> cap_out st (run_tape orc cfg fuel tid ptr st).
Proof.
  induction fuel as [|f IH]; intros tid ptr st Hc; [exact I|].
  rewrite run_tape_eq.
  destruct (List.length (to_data (nth_tape st tid)) <=? ptr) eqn:E; [apply cap_res_refl; exact Hc|].
  apply Nat.leb_gt in E.
  pose proof (fetch_in_heap st tid ptr E) as Hin.
  assert (Hrun : cap_run_ok (rt orc cfg f)) by (intros t s Hs; apply IH; exact Hs).
  assert (Hs0 : ksem None {| fr_tid := tid; fr_ptr := S ptr |} st).
  { split; [exact Hc|]. split; [exact Hin|]. intros x Ex. discriminate. }
  pose proof (capj_sound (rt orc cfg f) Hrun unit (dispatch (code_at st tid ptr)) None _
                {| fr_tid := tid; fr_ptr := S ptr |} st (dispatch_capj cfg _ None) Hs0) as Hi.
  destruct (interp orc cfg (rt orc cfg f) _ _ st) as [u fr' st'|e fr' st'| |w]; try exact I; [|exact Hi].
  destruct Hi as ((H1 & H2) & _).
  pose proof (IH tid (fr_ptr fr') st' H1) as H3.
  destruct (run_tape orc cfg f tid (fr_ptr fr') st') as [u' fr'' st''|e fr'' st''| |w]; simpl in *;
    try exact I; (destruct H3 as [H3 H4]; unfold cap_res, grows in *; split; [exact H3|lia]).
Qed.

Lemma init_capped script vals : capped (init_state cfg script vals).
Proof.
  intro t. unfold count_of, nth_tape. simpl. destruct t as [|[|t]]; simpl; apply cap_nonneg.
Qed.

(* global form: in every final or raising state of a script every counter is
   <= max 0 callstack_limit *)
Theorem run_script_capped fuel script vals :
  match run_script orc cfg fuel script vals with
  | Done _ _ st' | Raised _ _ st' => forall t, (count_of st' t <= Z.max 0 (c_limit cfg))%Z
  | _ => True
  end.
Proof.
  pose proof (run_tape_capped fuel 0 0 (init_state cfg script vals) (init_capped script vals)) as H.
  unfold run_script. destruct (run_tape orc cfg fuel 0 0 _); simpl in H; try exact I; apply H.
Qed.

Theorem run_auth_scripts_capped fuel scripts vals :
  match run_auth_scripts orc cfg fuel scripts vals with
  | AuthVerdict _ st' => forall t, (count_of st' t <= Z.max 0 (c_limit cfg))%Z
  | _ => True
  end.
Proof.
  apply (run_auth_scripts_inv orc cfg capped).
  - intros fuel' tid ptr st H. pose proof (run_tape_capped fuel' tid ptr st H) as Hr.
    destruct (run_tape orc cfg fuel' tid ptr st); simpl in *; try exact I; apply Hr.
  - intros st prev s H. eapply capped_app; [reflexivity| |exact H]. apply H.
  - intros st. apply capped_tapes_eq. reflexivity.
  - intros st. apply capped_tapes_eq. reflexivity.
  - intro s. apply init_capped.
Qed.

End CapSound.

Print Assumptions run_tape_fuel_mono.
Print Assumptions interp_fuel_le.
Print Assumptions run_auth_scripts_fuel_le.
Print Assumptions bud_sound.
Print Assumptions dispatch_bud.
Print Assumptions run_tape_floor.
Print Assumptions run_tape_own_count.
Print Assumptions count_not_monotone.
Print Assumptions OP_CALL_bounded.
Print Assumptions eval_body_bounded.
Print Assumptions loop_go_bounded.
Print Assumptions loop_go_bound_suffices.
Print Assumptions loop_bounded.
Print Assumptions dispatch_capj.
Print Assumptions run_tape_capped.
Print Assumptions run_script_capped.
Print Assumptions run_auth_scripts_capped.
