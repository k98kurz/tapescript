(* Correctness of the integer codec (model/Codec.v): round trip and totality. *)
From Coq Require Import ZArith List Bool Lia NArith.
From Coq.Strings Require Import Byte.
From TS Require Import Bytes Codec BytesLemmas.
Import ListNotations.
Open Scope Z_scope.

Lemma blen_pos : forall b : bytes, b <> [] -> 1 <= blen b.
Proof.
  intros [|x t] H; [congruence|]. rewrite blen_cons. pose proof (blen_nonneg t). lia.
Qed.

Lemma pow2_pos : forall k, 0 <= k -> 0 < 2 ^ k.
Proof. intros. apply Z.pow_pos_nonneg; lia. Qed.

Lemma pow2_double : forall k, 1 <= k -> 2 ^ k = 2 * 2 ^ (k - 1).
Proof.
  intros k Hk. replace k with (Z.succ (k - 1)) at 1 by lia.
  rewrite Z.pow_succ_r by lia. reflexivity.
Qed.

Lemma be_to_Z_range2 : forall b, 0 <= be_to_Z b < 2 ^ (8 * blen b).
Proof.
  intros b. rewrite <- pow256_2 by apply blen_nonneg. apply be_to_Z_range.
Qed.

(* closed form of the decoder *)
Lemma bytes_to_int_spec : forall b, b <> [] ->
  bytes_to_int b =
  Some (if be_to_Z b <? 2 ^ (8 * blen b - 1) then be_to_Z b else be_to_Z b - 2 ^ (8 * blen b)).
Proof.
  intros b Hb. pose proof (blen_pos b Hb) as Hl.
  destruct b as [|x t]; [congruence|].
  unfold bytes_to_int. f_equal.
  rewrite Z.shiftr_div_pow2 by lia.
  pose proof (be_to_Z_range2 (x :: t)) as [Hr _].
  pose proof (pow2_pos (8 * blen (x :: t) - 1) ltac:(lia)) as HP.
  set (n := be_to_Z (x :: t)) in *.
  set (P := 2 ^ (8 * blen (x :: t) - 1)) in *.
  destruct (n <? P) eqn:E.
  - apply Z.ltb_lt in E. rewrite Z.div_small by lia. reflexivity.
  - apply Z.ltb_ge in E.
    destruct (n / P =? 0) eqn:E2; [|reflexivity].
    apply Z.eqb_eq in E2. apply Z.div_small_iff in E2; lia.
Qed.

Definition fl2_ok (fl2 : Z -> Z) : Prop := forall a, 0 < a -> Z.log2 a <= fl2 a <= Z.log2 a + 1.

(* top bit of the first byte *)
Definition top_bit (b : bytes) : bool := match b with [] => false | x :: _ => 128 <=? b2z x end.

Lemma top_bit_spec : forall b, b <> [] ->
  (top_bit b = true <-> 2 ^ (8 * blen b - 1) <= be_to_Z b).
Proof.
  intros [|x t] Hb; [congruence|]. clear Hb.
  unfold top_bit. rewrite Z.leb_le.
  rewrite be_to_Z_cons, blen_cons.
  pose proof (blen_nonneg t) as Hl.
  replace (8 * (blen t + 1) - 1) with (7 + 8 * blen t) by lia.
  rewrite Z.pow_add_r by lia.
  rewrite <- pow256_2 by lia.
  pose proof (be_to_Z_range t) as Hr.
  pose proof (b2z_range x) as Hx.
  pose proof (pow256_pos (blen t) Hl) as HP.
  set (P := 256 ^ blen t) in *.
  change (2 ^ 7) with 128.
  split; intros H; nia.
Qed.

Lemma to_bytes_ok : forall nb v, 1 <= nb -> 0 <= v < 2 ^ (8 * nb) ->
  exists b, to_bytes nb v = Some b /\ b <> [] /\ blen b = nb /\ be_to_Z b = v.
Proof.
  intros nb v Hnb Hv. unfold to_bytes.
  replace (v <? 0) with false by (symmetry; apply Z.ltb_ge; lia).
  replace (2 ^ (8 * nb) <=? v) with false by (symmetry; apply Z.leb_gt; lia).
  replace (nb <? 0) with false by (symmetry; apply Z.ltb_ge; lia).
  cbn [orb].
  exists (Z_to_be (Z.to_nat nb) v).
  assert (Hlen : blen (Z_to_be (Z.to_nat nb) v) = nb)
    by (rewrite blen_Z_to_be; lia).
  split; [reflexivity|]. split; [|split].
  - intros E. rewrite E in Hlen. rewrite blen_nil in Hlen. lia.
  - exact Hlen.
  - rewrite be_to_Z_Z_to_be. rewrite Z2Nat.id by lia.
    rewrite pow256_2 by lia. apply Z.mod_small. exact Hv.
Qed.

Lemma enc_nonneg : forall nb a, 1 <= nb -> 0 <= a < 2 ^ (8 * nb - 1) ->
  exists b, to_bytes nb a = Some b /\ bytes_to_int b = Some a /\ b <> [] /\ (top_bit b = true <-> a < 0).
Proof.
  intros nb a Hnb Ha.
  pose proof (pow2_double (8 * nb) ltac:(lia)) as HD.
  pose proof (pow2_pos (8 * nb - 1) ltac:(lia)) as HP.
  destruct (to_bytes_ok nb a Hnb ltac:(lia)) as (b & Hb & Hne & Hlen & Hval).
  exists b. split; [exact Hb|]. split; [|split; [exact Hne|]].
  - rewrite bytes_to_int_spec by exact Hne. rewrite Hlen, Hval.
    replace (a <? 2 ^ (8 * nb - 1)) with true by (symmetry; apply Z.ltb_lt; lia).
    reflexivity.
  - rewrite top_bit_spec, Hlen, Hval by exact Hne. lia.
Qed.

Lemma enc_neg : forall nb a, 1 <= nb -> 0 < a <= 2 ^ (nb * 8 - 1) ->
  exists b, to_bytes nb (2 ^ (nb * 8 - 1) + (2 ^ (nb * 8 - 1) - a)) = Some b /\
            bytes_to_int b = Some (- a) /\ b <> [] /\ (top_bit b = true <-> - a < 0).
Proof.
  intros nb a Hnb Ha.
  replace (nb * 8 - 1) with (8 * nb - 1) in * by lia.
  pose proof (pow2_double (8 * nb) ltac:(lia)) as HD.
  pose proof (pow2_pos (8 * nb - 1) ltac:(lia)) as HP.
  set (P := 2 ^ (8 * nb - 1)) in *.
  destruct (to_bytes_ok nb (P + (P - a)) Hnb ltac:(lia)) as (b & Hb & Hne & Hlen & Hval).
  exists b. split; [exact Hb|]. split; [|split; [exact Hne|]].
  - rewrite bytes_to_int_spec by exact Hne. rewrite Hlen, Hval. fold P.
    replace (P + (P - a) <? P) with false by (symmetry; apply Z.ltb_ge; lia).
    f_equal. lia.
  - rewrite top_bit_spec, Hlen, Hval by exact Hne. fold P. lia.
Qed.

(* the byte count: one more byte when the bit count fills whole bytes, so that the sign bit is free *)
Lemma nbytes_bound : forall m, 1 <= m ->
  1 <= (m + 7) / 8 /\ m <= 8 * (if m mod 8 =? 0 then (m + 7) / 8 + 1 else (m + 7) / 8) - 1.
Proof.
  intros m Hm. destruct (Z.eqb_spec (m mod 8) 0); Z.div_mod_to_equations; lia.
Qed.

Lemma lt_pow2_mono : forall a m k, 0 <= a < 2 ^ m -> m <= k -> 0 <= a < 2 ^ k.
Proof.
  intros a m k Ha Hk. pose proof (Z.pow_le_mono_r 2 m k ltac:(lia) Hk). lia.
Qed.

(* the bit-length estimate bounds the magnitude *)
Lemma n_bits_bound : forall fl2, fl2_ok fl2 -> forall a, 0 <= a ->
  let m := if a =? 0 then 1 else fl2 a + 1 in
  1 <= m /\ 0 <= a < 2 ^ m.
Proof.
  intros fl2 Hf a Ha m. subst m.
  destruct (a =? 0) eqn:E.
  - apply Z.eqb_eq in E. subst a. split; [lia|]. change (2 ^ 1) with 2. lia.
  - apply Z.eqb_neq in E.
    assert (Hpos : 0 < a) by lia.
    pose proof (Hf a Hpos) as Hfl.
    pose proof (Z.log2_spec a Hpos) as Hlog.
    pose proof (Z.log2_nonneg a) as Hnn.
    split; [lia|].
    apply (lt_pow2_mono a (Z.succ (Z.log2 a))); lia.
Qed.

Theorem int_roundtrip :
  forall fl2, fl2_ok fl2 -> forall n : Z,
    exists b, int_to_bytes fl2 n = Some b /\ bytes_to_int b = Some n /\ b <> [] /\ (top_bit b = true <-> n < 0).
Proof.
  intros fl2 Hf n. unfold int_to_bytes. cbv zeta.
  destruct (n_bits_bound fl2 Hf (Z.abs n) (Z.abs_nonneg n)) as [Hm1 Ham].
  set (m := if Z.abs n =? 0 then 1 else fl2 (Z.abs n) + 1) in *.
  destruct (nbytes_bound m Hm1) as [Hnb Hnb'].
  remember (Z.abs n) as a eqn:Ea.
  destruct (Z.ltb_spec n 0) as [Hneg|Hnn].
  - (* n = - a; the extra byte is taken only if a does not fit below the sign bit without it *)
    assert (Hn : n = - a) by lia. rewrite Hn.
    apply enc_neg; destruct (2 ^ ((m + 7) / 8 * 8 - 1) <? a) eqn:Ecmp;
      rewrite ?andb_true_r, ?andb_false_r.
    + destruct (m mod 8 =? 0); lia.
    + exact Hnb.
    + split; [lia|]. apply Z.lt_le_incl, (lt_pow2_mono a m); lia.
    + apply Z.ltb_ge in Ecmp. lia.
  - assert (Hn : n = a) by lia. rewrite Hn.
    apply enc_nonneg; [destruct (m mod 8 =? 0); lia|].
    apply (lt_pow2_mono a m); [exact Ham | lia].
Qed.

Theorem bytes_to_int_total :
  forall b, b <> [] ->
    exists z, bytes_to_int b = Some z /\ - 2 ^ (8 * blen b - 1) <= z < 2 ^ (8 * blen b - 1)
              /\ z mod 2 ^ (8 * blen b) = be_to_Z b.
Proof.
  intros b Hb.
  pose proof (blen_pos b Hb) as Hl.
  pose proof (be_to_Z_range2 b) as Hr.
  pose proof (pow2_double (8 * blen b) ltac:(lia)) as HD.
  rewrite bytes_to_int_spec by exact Hb.
  eexists. split; [reflexivity|].
  set (v := be_to_Z b) in *.
  set (P := 2 ^ (8 * blen b - 1)) in *.
  set (Q := 2 ^ (8 * blen b)) in *.
  destruct (v <? P) eqn:E.
  - apply Z.ltb_lt in E. split; [lia|]. apply Z.mod_small. lia.
  - apply Z.ltb_ge in E. split; [lia|].
    replace (v - Q) with (v + (-1) * Q) by ring.
    rewrite Z.mod_add by lia. apply Z.mod_small. lia.
Qed.

Theorem bytes_to_int_empty : bytes_to_int [] = None.
Proof. reflexivity. Qed.

Print Assumptions int_roundtrip.
Print Assumptions bytes_to_int_total.
