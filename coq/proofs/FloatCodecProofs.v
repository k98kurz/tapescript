(* C10, float part: the binary32 codec round-trips bit-exactly in both directions and is total on 4-byte strings. *)
From Coq Require Import ZArith List Bool Lia.
From Coq.Strings Require Import Byte.
From Flocq Require Import IEEE754.Binary IEEE754.Bits.
From TS Require Import Bytes BytesLemmas FloatCodec.
Import ListNotations.
Open Scope Z_scope.

Lemma bits_range (x : binary32) : 0 <= bits_of_b32 x < 2 ^ 32.
Proof. exact (bits_of_binary_float_range 23 8 eq_refl eq_refl x). Qed.

Lemma float_to_bytes_length x : List.length (float_to_bytes x) = 4%nat.
Proof. apply length_Z_to_be. Qed.

Lemma be_float_to_bytes x : be_to_Z (float_to_bytes x) = bits_of_b32 x.
Proof.
  unfold float_to_bytes. rewrite be_to_Z_Z_to_be.
  apply Z.mod_small. pose proof (bits_range x). change (256 ^ Z.of_nat 4) with (2 ^ 32). lia.
Qed.

(* decode (encode x) = x for EVERY binary32 value: zeros of both signs, subnormals, normals, infinities, NaNs with
   their sign and payload *)
Theorem float_roundtrip (x : binary32) : bytes_to_float (float_to_bytes x) = Some x.
Proof.
  unfold bytes_to_float. rewrite float_to_bytes_length. cbn [Nat.eqb].
  rewrite be_float_to_bytes. f_equal.
  exact (binary_float_of_bits_of_binary_float 23 8 eq_refl eq_refl eq_refl x).
Qed.

(* encode (decode b) = b for EVERY 4-byte string; decoding is total on them *)
Theorem bytes_roundtrip (b : bytes) :
  List.length b = 4%nat -> exists x, bytes_to_float b = Some x /\ float_to_bytes x = b.
Proof.
  intro Hl. unfold bytes_to_float. rewrite Hl. cbn [Nat.eqb]. eexists. split; [reflexivity|].
  apply be_to_Z_inj; [rewrite float_to_bytes_length; symmetry; exact Hl|].
  rewrite be_float_to_bytes. unfold b32_of_bits, bits_of_b32.
  apply (bits_of_binary_float_of_bits 23 8 eq_refl eq_refl eq_refl).
  pose proof (be_to_Z_range b) as H. unfold blen in H. rewrite Hl in H.
  change (256 ^ Z.of_nat 4) with (2 ^ 32) in H. exact H.
Qed.

(* concrete patterns: +0, -0, 1.0, the smallest subnormal, +inf, a NaN with payload *)
Example float_examples :
  classify_bytes [x00;x00;x00;x00] = Some (FZero false) /\
  classify_bytes [x80;x00;x00;x00] = Some (FZero true) /\
  classify_bytes [x3f;x80;x00;x00] = Some (FFin false 8388608 (-23)) /\
  classify_bytes [x00;x00;x00;x01] = Some (FFin false 1 (-149)) /\
  classify_bytes [x7f;x80;x00;x00] = Some (FInf false) /\
  classify_bytes [xff;xc0;x00;x01] = Some (FNan true 4194305) /\
  roundtrip_bytes [xff;xc0;x00;x01] = Some [xff;xc0;x00;x01] /\
  classify_bytes [x00] = None.
Proof. vm_compute. repeat split; reflexivity. Qed.

Print Assumptions float_roundtrip.
Print Assumptions bytes_roundtrip.
