(* The registries of model/Registry.v behave as sets / partial maps. *)
From Coq Require Import List Bool Arith Lia.
From TS Require Import Registry.
Import ListNotations.

Lemma mem_In : forall n l, mem n l = true <-> In n l.
Proof.
  intros n l. unfold mem. rewrite existsb_exists. split.
  - intros [x [H1 H2]]. apply Nat.eqb_eq in H2. subst. exact H1.
  - intros H. exists n. split; [exact H | apply Nat.eqb_refl].
Qed.

Lemma mem_not_In : forall n l, mem n l = false <-> ~ In n l.
Proof.
  intros n l. rewrite <- mem_In. destruct (mem n l); split; intros; congruence.
Qed.

Lemma mem_app : forall n l1 l2, mem n (l1 ++ l2) = mem n l1 || mem n l2.
Proof. intros. apply existsb_app. Qed.

Lemma mem_single : forall n x, mem n [x] = Nat.eqb n x.
Proof. intros. unfold mem. simpl. apply orb_false_r. Qed.

Lemma remove_first_In : forall x n l, In x (remove_first n l) -> In x l.
Proof.
  intros x n l. induction l as [|a t IH]; simpl; auto.
  destruct (Nat.eqb n a); simpl; intuition.
Qed.

Lemma remove_first_NoDup : forall n l, NoDup l -> NoDup (remove_first n l).
Proof.
  intros n l H. induction H as [|x t Hx Ht IH]; simpl.
  - constructor.
  - destruct (Nat.eqb n x); auto. constructor; auto.
    intro Hin. apply Hx. eapply remove_first_In; eauto.
Qed.

Lemma remove_first_notin : forall n l, ~ In n l -> remove_first n l = l.
Proof.
  intros n l. induction l as [|a t IH]; simpl; auto. intros H.
  destruct (Nat.eqb_spec n a).
  - exfalso. apply H. left. congruence.
  - f_equal. apply IH. intro. apply H. right. assumption.
Qed.

Lemma remove_first_remove : forall n l, NoDup l -> remove_first n l = remove Nat.eq_dec n l.
Proof.
  intros n l H. induction H as [|x t Hx Ht IH]; simpl; auto.
  destruct (Nat.eqb_spec n x); destruct (Nat.eq_dec n x); try congruence.
  subst. symmetry. apply notin_remove. exact Hx.
Qed.

Lemma mem_remove_first : forall x n l, NoDup l ->
  mem x (remove_first n l) = if Nat.eqb n x then false else mem x l.
Proof.
  intros x n l H. apply eq_true_iff_eq.
  rewrite mem_In, remove_first_remove by exact H. destruct (Nat.eqb_spec n x) as [->|Hn].
  - split; [intros Hin; destruct (remove_In _ _ _ Hin) | discriminate].
  - rewrite mem_In. split; [apply in_remove | intros Hin; apply in_in_remove; congruence].
Qed.

Lemma NoDup_snoc : forall (x : nat) l, NoDup l -> ~ In x l -> NoDup (l ++ [x]).
Proof.
  intros x l H Hx. induction H as [|y t Hy Ht IH]; simpl.
  - constructor; [intros [] | constructor].
  - constructor.
    + rewrite in_app_iff. intros [H | [H | []]]; [auto | subst; apply Hx; left; reflexivity].
    + apply IH. intro. apply Hx. right. assumption.
Qed.

Lemma mem_add : forall x y l,
  mem x (if mem y l then l else l ++ [y]) = if Nat.eqb y x then true else mem x l.
Proof.
  intros x y l. destruct (Nat.eqb_spec y x) as [->|Hn].
  - destruct (mem x l) eqn:E; [exact E|]. rewrite mem_app, mem_single, Nat.eqb_refl. apply orb_true_r.
  - destruct (mem y l); [reflexivity|]. rewrite mem_app, mem_single.
    destruct (Nat.eqb_spec x y); [congruence | apply orb_false_r].
Qed.

Lemma NoDup_add : forall (x : nat) l, NoDup l -> NoDup (if mem x l then l else l ++ [x]).
Proof.
  intros x l H. destruct (mem x l) eqn:E; [exact H|].
  apply NoDup_snoc; [exact H | apply mem_not_In; exact E].
Qed.

Section AssocLemmas.
  Context {A : Type}.
  Implicit Types (l : list (nat * A)) (k : nat) (v : A).

  Lemma alookup_aset : forall k k' v l,
    alookup k' (aset k v l) = if Nat.eqb k k' then Some v else alookup k' l.
  Proof.
    intros k k' v l. induction l as [|[k1 v1] t IH]; simpl.
    - rewrite (Nat.eqb_sym k' k). reflexivity.
    - destruct (Nat.eqb_spec k k1) as [->|Hn]; simpl.
      + rewrite (Nat.eqb_sym k' k1). destruct (Nat.eqb k1 k'); reflexivity.
      + rewrite IH. destruct (Nat.eqb_spec k' k1) as [->|]; [|reflexivity].
        rewrite (proj2 (Nat.eqb_neq k k1) Hn). reflexivity.
  Qed.

  (* the guarded assignments of [rstep] *)
  Lemma alookup_aset_if : forall (c : bool) k k' v l,
    alookup k' (if c then aset k v l else l) = if c && Nat.eqb k k' then Some v else alookup k' l.
  Proof. intros [] k k' v l; [apply alookup_aset | reflexivity]. Qed.

  Lemma alookup_aset_neq : forall k k' v l, k' <> k -> alookup k' (aset k v l) = alookup k' l.
  Proof.
    intros k k' v l H. rewrite alookup_aset, (proj2 (Nat.eqb_neq k k')) by congruence. reflexivity.
  Qed.

  Lemma alookup_None_iff : forall k l, alookup k l = None <-> ~ In k (map fst l).
  Proof.
    intros k l. induction l as [|[k1 v1] t IH]; simpl.
    - intuition.
    - destruct (Nat.eqb_spec k k1).
      + split; [discriminate | intros H; exfalso; apply H; left; congruence].
      + rewrite IH. intuition.
  Qed.

  Lemma alookup_In : forall k v l, alookup k l = Some v -> In (k, v) l.
  Proof.
    intros k v l. induction l as [|[k1 v1] t IH]; simpl; [discriminate|].
    destruct (Nat.eqb_spec k k1).
    - intros H. inversion H. subst. left. reflexivity.
    - intros H. right. apply IH. exact H.
  Qed.

  Lemma keys_aset : forall k v l,
    map fst (aset k v l) = if amem k l then map fst l else map fst l ++ [k].
  Proof.
    intros k v l. unfold amem. induction l as [|[k1 v1] t IH]; simpl; [reflexivity|].
    destruct (Nat.eqb k k1); simpl; [reflexivity|].
    rewrite IH. destruct (alookup k t); reflexivity.
  Qed.

  Lemma aset_absent : forall k v l, alookup k l = None -> aset k v l = l ++ [(k, v)].
  Proof.
    intros k v l. induction l as [|[k1 v1] t IH]; simpl; [reflexivity|].
    destruct (Nat.eqb_spec k k1); simpl; intros H; [discriminate|]. f_equal. apply IH. exact H.
  Qed.

  Lemma NoDup_keys_aset : forall k v l, NoDup (map fst l) -> NoDup (map fst (aset k v l)).
  Proof.
    intros k v l H. rewrite keys_aset. unfold amem. destruct (alookup k l) eqn:E; [exact H|].
    apply NoDup_snoc; [exact H | apply alookup_None_iff; exact E].
  Qed.

  Lemma Forall_aset : forall (P : nat * A -> Prop) k v l, P (k, v) -> Forall P l -> Forall P (aset k v l).
  Proof.
    intros P k v l Hp H. induction H as [|[k1 v1] t H1 Ht IH]; simpl.
    - constructor; [exact Hp | constructor].
    - destruct (Nat.eqb_spec k k1).
      + subst. constructor; assumption.
      + constructor; assumption.
  Qed.

  Lemma keys_adel : forall x k l, In x (map fst (adel k l)) -> In x (map fst l).
  Proof.
    intros x k l. induction l as [|[k1 v1] t IH]; simpl; auto.
    destruct (Nat.eqb k k1); simpl; intuition.
  Qed.

  Lemma NoDup_keys_adel : forall k l, NoDup (map fst l) -> NoDup (map fst (adel k l)).
  Proof.
    intros k l. induction l as [|[k1 v1] t IH]; simpl; intros H; [constructor|].
    inversion H as [|? ? Hk Ht]; subst.
    destruct (Nat.eqb k k1); simpl; auto.
    constructor; auto. intro Hin. apply Hk. eapply keys_adel; eauto.
  Qed.

  Lemma alookup_adel_eq : forall k l, NoDup (map fst l) -> alookup k (adel k l) = None.
  Proof.
    intros k l. induction l as [|[k1 v1] t IH]; simpl; intros H; [reflexivity|].
    inversion H as [|? ? Hk Ht]; subst.
    destruct (Nat.eqb_spec k k1); simpl.
    - subst. apply alookup_None_iff. exact Hk.
    - destruct (Nat.eqb_spec k k1); [congruence | auto].
  Qed.

  Lemma alookup_adel_neq : forall k k' l, k' <> k -> alookup k' (adel k l) = alookup k' l.
  Proof.
    intros k k' l Hn. induction l as [|[k1 v1] t IH]; simpl; [reflexivity|].
    destruct (Nat.eqb_spec k k1); simpl.
    - subst. destruct (Nat.eqb_spec k' k1); congruence.
    - rewrite IH. reflexivity.
  Qed.

  Lemma alookup_adel : forall k k' l, NoDup (map fst l) ->
    alookup k' (adel k l) = if Nat.eqb k k' then None else alookup k' l.
  Proof.
    intros k k' l H. destruct (Nat.eqb_spec k k') as [->|Hn].
    - apply alookup_adel_eq. exact H.
    - apply alookup_adel_neq. congruence.
  Qed.
End AssocLemmas.

Definition reg_inv (r : reg) : Prop :=
  NoDup (map fst (r_plugins r)) /\
  Forall (fun e => NoDup (snd e)) (r_plugins r) /\
  NoDup (map fst (r_contracts r)) /\
  NoDup (r_ifaces r) /\
  NoDup (map fst (r_aliases r)).

Lemma reg_inv_lookup : forall r s l, reg_inv r -> alookup s (r_plugins r) = Some l -> NoDup l.
Proof.
  intros r s l (_ & H & _) E. apply alookup_In in E. rewrite Forall_forall in H. exact (H _ E).
Qed.

Lemma reg_inv_plugins_of : forall r s, reg_inv r -> NoDup (plugins_of r s).
Proof.
  intros r s H. unfold plugins_of.
  destruct (alookup s (r_plugins r)) eqn:E; [exact (reg_inv_lookup r s l H E) | constructor].
Qed.

Lemma reg_inv_set_plugin : forall r s l, reg_inv r -> NoDup l ->
  reg_inv (set_plugins r (aset s l (r_plugins r))).
Proof.
  intros r s l (H1 & H2 & H345) Hl. split; [apply NoDup_keys_aset; exact H1|].
  split; [apply Forall_aset; assumption | exact H345].
Qed.

Lemma reg_inv_set_contracts : forall r x, reg_inv r -> NoDup (map fst x) -> reg_inv (set_contracts r x).
Proof. intros r x (H1 & H2 & _ & H45) Hx. repeat split; solve [assumption | apply H45]. Qed.

Lemma reg_inv_set_ifaces : forall r x, reg_inv r -> NoDup x -> reg_inv (set_ifaces r x).
Proof. intros r x (H1 & H2 & H3 & _ & H5) Hx. repeat split; assumption. Qed.

Lemma reg_inv_set_aliases : forall r x, reg_inv r -> NoDup (map fst x) -> reg_inv (set_aliases r x).
Proof. intros r x (H1 & H2 & H3 & H4 & _) Hx. repeat split; assumption. Qed.

Lemma plugins_of_set : forall r s s' l,
  plugins_of (set_plugins r (aset s l (r_plugins r))) s' = if Nat.eqb s s' then l else plugins_of r s'.
Proof.
  intros. unfold plugins_of. simpl. rewrite alookup_aset. destruct (Nat.eqb s s'); reflexivity.
Qed.

Lemma reg_init_inv : forall ifaces aliases,
  NoDup ifaces -> NoDup (map fst aliases) -> reg_inv (reg_init ifaces aliases).
Proof.
  intros ifaces aliases Hi Ha. unfold reg_inv, reg_init; simpl. repeat split; auto.
  - constructor; [simpl; intros [H | []]; discriminate|]. constructor; [intros []|constructor].
  - repeat constructor.
  - constructor.
Qed.

Section Step.
  Variable implements : nat -> nat -> bool.
  Variable known_op : nat -> bool.
  Notation step r o := (fst (rstep implements known_op r o)).
  Notation out r o := (snd (rstep implements known_op r o)).

  (* by cases on the call and, for the four calls that may leave the registry alone, on their guard
     (kept as G); the arguments of the call get the names of [rop]'s declaration *)
  Ltac op_cases r o :=
    destruct o as [s p|s p|s|id k|id|i|i|a o']; simpl;
    [ | destruct (alookup s (r_plugins r)) eqn:G | destruct (alookup s (r_plugins r)) eqn:G
      | destruct (existsb (implements k) (r_ifaces r)) eqn:G | | | |
      destruct (known_op o' && negb (amem a (r_aliases r))) eqn:G ]; simpl.

  Lemma out_step : forall r o,
    out r o = match o with
              | AddContract _ k => if existsb (implements k) (r_ifaces r) then ROk else RErr
              | AddAlias a o' => if known_op o' && negb (amem a (r_aliases r)) then ROk else RErr
              | _ => ROk
              end.
  Proof. intros r o. op_cases r o; reflexivity. Qed.

  Lemma contracts_step : forall r o,
    r_contracts (step r o) =
    match o with
    | AddContract id k =>
        if existsb (implements k) (r_ifaces r) then aset id k (r_contracts r) else r_contracts r
    | RemoveContract id => adel id (r_contracts r)
    | _ => r_contracts r
    end.
  Proof. intros r o. op_cases r o; reflexivity. Qed.

  Lemma ifaces_step : forall r o,
    r_ifaces (step r o) =
    match o with
    | AddIface i => if mem i (r_ifaces r) then r_ifaces r else r_ifaces r ++ [i]
    | RemoveIface i => remove_first i (r_ifaces r)
    | _ => r_ifaces r
    end.
  Proof. intros r o. op_cases r o; reflexivity. Qed.

  Lemma aliases_step : forall r o,
    r_aliases (step r o) =
    match o with
    | AddAlias a o' =>
        if known_op o' && negb (amem a (r_aliases r)) then aset a o' (r_aliases r) else r_aliases r
    | _ => r_aliases r
    end.
  Proof. intros r o. op_cases r o; reflexivity. Qed.

  Lemma plugins_of_step : forall r o s',
    plugins_of (step r o) s' =
    match o with
    | AddPlugin s p =>
        if Nat.eqb s s' then (if mem p (plugins_of r s) then plugins_of r s else plugins_of r s ++ [p])
        else plugins_of r s'
    | RemovePlugin s p => if Nat.eqb s s' then remove_first p (plugins_of r s) else plugins_of r s'
    | ResetPlugins s => if Nat.eqb s s' then [] else plugins_of r s'
    | _ => plugins_of r s'
    end.
  Proof.
    intros r o s'. op_cases r o; try reflexivity.
    - apply plugins_of_set.
    - rewrite plugins_of_set. unfold plugins_of. rewrite G. reflexivity.
    - destruct (Nat.eqb_spec s s') as [<-|]; [unfold plugins_of; rewrite G|]; reflexivity.
    - apply plugins_of_set.
    - destruct (Nat.eqb_spec s s') as [<-|]; [unfold plugins_of; rewrite G|]; reflexivity.
  Qed.

  Lemma errors_change_nothing : forall r o, out r o = RErr -> step r o = r.
  Proof. intros r o. op_cases r o; intros; congruence. Qed.

  Lemma rstep_err_iff : forall r o,
    out r o = RErr <->
    match o with
    | AddContract _ k => forall i, In i (r_ifaces r) -> implements k i = false
    | AddAlias a o' => known_op o' = false \/ alookup a (r_aliases r) <> None
    | _ => False
    end.
  Proof.
    intros r o. rewrite out_step.
    destruct o as [s p|s p|s|id k|id|i|i|a o]; try (split; [discriminate | intros []]).
    - destruct (existsb (implements k) (r_ifaces r)) eqn:E; simpl.
      + split; [discriminate|]. intros H. apply existsb_exists in E. destruct E as [i [H1 H2]].
        rewrite (H i H1) in H2. discriminate.
      + split; [|reflexivity]. intros _ i Hi.
        destruct (implements k i) eqn:E2; [|reflexivity].
        assert (existsb (implements k) (r_ifaces r) = true) by (apply existsb_exists; eauto).
        congruence.
    - unfold amem. destruct (known_op o); destruct (alookup a (r_aliases r)); simpl;
        split; intros H; try reflexivity; try (left; reflexivity); try (right; discriminate);
        try congruence; destruct H; congruence.
  Qed.

  Lemma add_plugin_same : forall r s p,
    plugins_of (step r (AddPlugin s p)) s =
    if mem p (plugins_of r s) then plugins_of r s else plugins_of r s ++ [p].
  Proof. intros. rewrite plugins_of_step, Nat.eqb_refl. reflexivity. Qed.

  Lemma add_plugin_new : forall r s p, ~ In p (plugins_of r s) ->
    plugins_of (step r (AddPlugin s p)) s = plugins_of r s ++ [p].
  Proof. intros r s p H. rewrite add_plugin_same. apply mem_not_In in H. rewrite H. reflexivity. Qed.

  Lemma add_plugin_old : forall r s p, In p (plugins_of r s) ->
    plugins_of (step r (AddPlugin s p)) s = plugins_of r s.
  Proof. intros r s p H. rewrite add_plugin_same. apply mem_In in H. rewrite H. reflexivity. Qed.

  Lemma remove_plugin_first : forall r s p,
    plugins_of (step r (RemovePlugin s p)) s = remove_first p (plugins_of r s).
  Proof. intros. rewrite plugins_of_step, Nat.eqb_refl. reflexivity. Qed.

  Lemma remove_plugin_same : forall r s p, reg_inv r ->
    plugins_of (step r (RemovePlugin s p)) s = remove Nat.eq_dec p (plugins_of r s).
  Proof.
    intros r s p H. rewrite remove_plugin_first. apply remove_first_remove.
    apply reg_inv_plugins_of. exact H.
  Qed.

  Definition same_but_plugins (r r' : reg) : Prop :=
    r_contracts r' = r_contracts r /\ r_ifaces r' = r_ifaces r /\ r_aliases r' = r_aliases r.

  Lemma frame_AddPlugin : forall r s p,
    same_but_plugins r (step r (AddPlugin s p)) /\
    forall s', s' <> s -> alookup s' (r_plugins (step r (AddPlugin s p))) = alookup s' (r_plugins r).
  Proof.
    intros. split; [repeat split|]. intros s' H. simpl. apply alookup_aset_neq. exact H.
  Qed.

  Lemma frame_RemovePlugin : forall r s p,
    same_but_plugins r (step r (RemovePlugin s p)) /\
    forall s', s' <> s -> alookup s' (r_plugins (step r (RemovePlugin s p))) = alookup s' (r_plugins r).
  Proof.
    intros. simpl. destruct (alookup s (r_plugins r)); simpl; (split; [repeat split|]); auto.
    intros s' H. apply alookup_aset_neq. exact H.
  Qed.

  (* dict key order of _plugins: a new scope is appended, nothing else moves *)
  Lemma plugin_scope_order : forall r o,
    map fst (r_plugins (step r o)) =
    match o with
    | AddPlugin s _ => if amem s (r_plugins r) then map fst (r_plugins r) else map fst (r_plugins r) ++ [s]
    | _ => map fst (r_plugins r)
    end.
  Proof.
    intros r o. unfold amem. op_cases r o; try reflexivity.
    - apply keys_aset.
    - rewrite keys_aset. unfold amem. rewrite G. reflexivity.
    - rewrite keys_aset. unfold amem. rewrite G. reflexivity.
  Qed.

  Lemma rstep_inv : forall r o, reg_inv r -> reg_inv (step r o).
  Proof.
    intros r o Hinv. op_cases r o; try exact Hinv.
    - apply reg_inv_set_plugin, NoDup_add, reg_inv_plugins_of; exact Hinv.
    - apply reg_inv_set_plugin; [exact Hinv | eapply remove_first_NoDup, reg_inv_lookup; eassumption].
    - apply reg_inv_set_plugin; [exact Hinv | constructor].
    - apply reg_inv_set_contracts, NoDup_keys_aset; apply Hinv.
    - apply reg_inv_set_contracts, NoDup_keys_adel; apply Hinv.
    - apply reg_inv_set_ifaces, NoDup_add; apply Hinv.
    - apply reg_inv_set_ifaces, remove_first_NoDup; apply Hinv.
    - apply reg_inv_set_aliases, NoDup_keys_aset; apply Hinv.
  Qed.

  Lemma run_reg_snoc : forall r0 ops o,
    run_reg implements known_op r0 (ops ++ [o]) = step (run_reg implements known_op r0 ops) o.
  Proof. intros. unfold run_reg. rewrite fold_left_app. reflexivity. Qed.

  Lemma run_reg_inv : forall r0 ops, reg_inv r0 -> reg_inv (run_reg implements known_op r0 ops).
  Proof.
    intros r0 ops H. induction ops as [|o ops IH] using rev_ind.
    - exact H.
    - rewrite run_reg_snoc. apply rstep_inv. exact IH.
  Qed.

  Lemma run_trace_fst : forall ops r,
    fst (run_trace implements known_op r ops) = run_reg implements known_op r ops.
  Proof.
    induction ops as [|o t IH]; intros r; simpl; [reflexivity|].
    specialize (IH (step r o)).
    destruct (rstep implements known_op r o) as [r' x]; simpl in *.
    destruct (run_trace implements known_op r' t) as [r'' xs]; simpl in *. exact IH.
  Qed.

  Lemma run_trace_snd_length : forall ops r,
    length (snd (run_trace implements known_op r ops)) = length ops.
  Proof.
    induction ops as [|o t IH]; intros r; simpl; [reflexivity|].
    specialize (IH (step r o)).
    destruct (rstep implements known_op r o) as [r' x]; simpl in *.
    destruct (run_trace implements known_op r' t) as [r'' xs]; simpl in *. congruence.
  Qed.

  Variable r0 : reg.
  Notation aplugin := (active_plugin r0).
  Notation aiface := (active_iface r0).
  Notation acontract := (active_contract implements r0).
  Notation aalias := (active_alias known_op r0).

  Lemma active_iface_candidate : forall h i, aiface h i = true -> In i (iface_candidates r0 h).
  Proof.
    induction h as [|o h IH]; intros i; simpl.
    - apply mem_In.
    - destruct o as [s p|s p|s|id k|id|i0|i0|a o]; simpl; auto.
      + destruct (Nat.eqb_spec i0 i); [intros; left; assumption | intros; right; auto].
      + destruct (Nat.eqb_spec i0 i); [discriminate | auto].
  Qed.

  Lemma contract_accepted_spec : forall h k,
    contract_accepted implements r0 h k = true <->
    exists i, aiface h i = true /\ implements k i = true.
  Proof.
    intros h k. unfold contract_accepted. rewrite existsb_exists. split.
    - intros [i [_ H]]. apply andb_true_iff in H. exists i. exact H.
    - intros [i [H1 H2]]. exists i. split; [apply active_iface_candidate; exact H1|].
      rewrite H1, H2. reflexivity.
  Qed.

  Definition agrees (r : reg) (h : list rop) : Prop :=
    (forall s p, mem p (plugins_of r s) = aplugin h s p) /\
    (forall id, alookup id (r_contracts r) = acontract h id) /\
    (forall i, mem i (r_ifaces r) = aiface h i) /\
    (forall a, alookup a (r_aliases r) = aalias h a).

  Lemma agrees_init : agrees r0 [].
  Proof. repeat split. Qed.

  Lemma agrees_accepted : forall r h k, agrees r h ->
    existsb (implements k) (r_ifaces r) = contract_accepted implements r0 h k.
  Proof.
    intros r h k (_ & _ & Hi & _). apply eq_true_iff_eq.
    rewrite contract_accepted_spec, existsb_exists. split.
    - intros [i [H1 H2]]. exists i. split; [|exact H2]. rewrite <- Hi. apply mem_In. exact H1.
    - intros [i [H1 H2]]. exists i. split; [|exact H2]. apply mem_In. rewrite Hi. exact H1.
  Qed.

  Lemma step_agrees_plugins : forall r h o, reg_inv r ->
    (forall s p, mem p (plugins_of r s) = aplugin h s p) ->
    forall s p, mem p (plugins_of (step r o) s) = aplugin (o :: h) s p.
  Proof.
    intros r h o Hinv H s p. rewrite plugins_of_step.
    destruct o as [s' p'|s' p'|s'| | | | | ]; simpl; try apply H; destruct (Nat.eqb_spec s' s) as [->|Hs];
      simpl; try apply H.
    - rewrite mem_add, H. reflexivity.
    - rewrite mem_remove_first, H by (apply reg_inv_plugins_of; exact Hinv). reflexivity.
    - reflexivity.
  Qed.

  Lemma step_agrees_ifaces : forall r h o, reg_inv r ->
    (forall i, mem i (r_ifaces r) = aiface h i) ->
    forall i, mem i (r_ifaces (step r o)) = aiface (o :: h) i.
  Proof.
    intros r h o Hinv H i. rewrite ifaces_step. destruct o; simpl; try apply H.
    - rewrite mem_add, H. reflexivity.
    - rewrite mem_remove_first, H by apply Hinv. reflexivity.
  Qed.

  Lemma step_agrees_contracts : forall r h o, reg_inv r -> agrees r h ->
    forall id, alookup id (r_contracts (step r o)) = acontract (o :: h) id.
  Proof.
    intros r h o Hinv Hag id. pose proof Hag as (_ & H & _ & _).
    rewrite contracts_step. destruct o as [ | | |id' k|id'| | | ]; simpl; try apply H.
    - rewrite alookup_aset_if, (agrees_accepted r h k Hag), H, andb_comm. reflexivity.
    - rewrite alookup_adel, H by apply Hinv. reflexivity.
  Qed.

  Lemma step_agrees_aliases : forall r h o,
    (forall a, alookup a (r_aliases r) = aalias h a) ->
    forall a, alookup a (r_aliases (step r o)) = aalias (o :: h) a.
  Proof.
    intros r h o H a. rewrite aliases_step. destruct o as [ | | | | | | |a' o']; simpl; try apply H.
    (* the guard looks a' up, the specification a: they matter only when a' = a *)
    rewrite alookup_aset_if, <- H. unfold amem. destruct (Nat.eqb_spec a' a) as [->|Hn].
    - destruct (alookup a (r_aliases r)); destruct (known_op o'); reflexivity.
    - rewrite andb_false_r. destruct (alookup a (r_aliases r)); reflexivity.
  Qed.

  Lemma step_agrees : forall r h o, reg_inv r -> agrees r h -> agrees (step r o) (o :: h).
  Proof.
    intros r h o Hinv Hag. pose proof Hag as (Hp & Hc & Hi & Ha). repeat split.
    - apply step_agrees_plugins; assumption.
    - apply step_agrees_contracts; assumption.
    - apply step_agrees_ifaces; assumption.
    - apply step_agrees_aliases; assumption.
  Qed.

  Lemma run_agrees : forall ops, reg_inv r0 -> agrees (run_reg implements known_op r0 ops) (rev ops).
  Proof.
    intros ops H. induction ops as [|o ops IH] using rev_ind.
    - exact agrees_init.
    - rewrite run_reg_snoc, rev_unit. apply step_agrees; [apply run_reg_inv; exact H | exact IH].
  Qed.

  Lemma out_agrees : forall r h o, agrees r h ->
    out r o = if op_ok implements known_op r0 h o then ROk else RErr.
  Proof.
    intros r h o Hag. pose proof Hag as (_ & _ & _ & Ha). rewrite out_step.
    destruct o as [ | | |id k| | | |a o]; simpl; try reflexivity.
    - rewrite (agrees_accepted r h k Hag). reflexivity.
    - unfold amem. rewrite (Ha a). destruct (aalias h a); reflexivity.
  Qed.
End Step.

Theorem registry_refines_sets :
  forall implements known_op r0 ops, reg_inv r0 ->
    let r := run_reg implements known_op r0 ops in
    (forall s p, In p (plugins_of r s) <-> active_plugin r0 (rev ops) s p = true) /\
    (forall id, alookup id (r_contracts r) = active_contract implements r0 (rev ops) id) /\
    (forall i, In i (r_ifaces r) <-> active_iface r0 (rev ops) i = true) /\
    (forall a, alookup a (r_aliases r) = active_alias known_op r0 (rev ops) a).
Proof.
  intros implements known_op r0 ops H r.
  destruct (run_agrees implements known_op r0 ops H) as (Hp & Hc & Hi & Ha).
  repeat split.
  - rewrite <- Hp. apply mem_In.
  - rewrite <- Hp. apply mem_In.
  - apply Hc.
  - rewrite <- Hi. apply mem_In.
  - rewrite <- Hi. apply mem_In.
  - apply Ha.
Qed.
