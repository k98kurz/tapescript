(* C16: OP_CHECK_TIMESTAMP / OP_CHECK_EPOCH compute exactly the documented comparison;
   the _VERIFY forms raise instead of yielding false; malformed inputs are errors. *)
From Coq Require Import ZArith List Bool Lia.
From Coq.Strings Require Import Byte String.
From TS Require Import Bytes State Prog Ops Interp StackLemmas.
Import ListNotations.
Open Scope Z_scope.

Section TS.
Variable orc : oracle.
Variable cfg : config.
Variable run : nat -> state -> outcome unit.

Definition ts_key : ckey := KStr (str "timestamp").
Definition thr_key : fkey := FKStr (str "ts_threshold").
Definition ethr_key : fkey := FKStr (str "epoch_threshold").

(* room for one 1-byte item on top of [rest] *)
Definition room (rest : list bytes) : Prop :=
  (List.length rest < c_max_items cfg)%nat /\ (1 <= c_max_item_size cfg)%nat.

Definition ts_verdict (c ts thr : Z) : bool := (c <=? ts) && ((thr <=? 0) || (ts - c_now cfg <? thr)).
Definition epoch_verdict (c thr : Z) : bool := c - c_now cfg <? thr.
Definition boolb (b : bool) : bytes := if b then [xff] else [x00].

Lemma put1 fr st rest b A (k : unit -> prog A) :
  st_stack st = rest -> room rest ->
  interp orc cfg run (Act (APut [b]) k) fr st = interp orc cfg run (k tt) fr (with_stack st ([b] :: rest)).
Proof. intros Hs [H1 H2]. exact (put_step orc cfg run A k fr st [b] rest Hs H2 H1). Qed.

Lemma nonempty_blen c : c <> [] -> (0 <? blen c) = true.
Proof. destruct c; [congruence|]. intros _. unfold blen. simpl List.length. apply Z.ltb_lt. lia. Qed.

Lemma ts_verdict_code c ts thr :
  (if ts <? c then false else if (thr <=? ts - c_now cfg) && (0 <? thr) then false else true)
  = ts_verdict c ts thr.
Proof.
  unfold ts_verdict.
  destruct (ts <? c) eqn:E1.
  - apply Z.ltb_lt in E1. replace (c <=? ts) with false by (symmetry; apply Z.leb_gt; lia). reflexivity.
  - apply Z.ltb_ge in E1. replace (c <=? ts) with true by (symmetry; apply Z.leb_le; lia). simpl.
    destruct (thr <=? ts - c_now cfg) eqn:E2, (0 <? thr) eqn:E3, (thr <=? 0) eqn:E4,
             (ts - c_now cfg <? thr) eqn:E5; simpl; try reflexivity; lia.
Qed.

Theorem check_timestamp_spec fr st c rest ts thr :
  st_stack st = c :: rest -> c <> [] ->
  cache_get (st_cache st) ts_key = Some (VOne (AInt ts)) ->
  flag_get (c_flags cfg) thr_key = Some (FVInt thr) ->
  room rest ->
  interp orc cfg run OP_CHECK_TIMESTAMP fr st =
    Done tt fr (with_stack st (boolb (ts_verdict (be_to_Z c) ts thr) :: rest)).
Proof.
  intros Hs Hc Ht Hf Hr.
  unfold OP_CHECK_TIMESTAMP, get, put, config_, act, sert.
  cbn [bind interp step]. rewrite Hs. rewrite (nonempty_blen c Hc).
  cbn [bind interp step st_cache with_stack].
  unfold ts_key in Ht. rewrite Ht. cbn [bind interp step].
  unfold thr_key in Hf. rewrite Hf.
  rewrite <- ts_verdict_code.
  destruct (ts <? be_to_Z c); [|destruct ((thr <=? ts - c_now cfg) && (0 <? thr))];
    (rewrite put1 with (rest := rest); [reflexivity|reflexivity|exact Hr]).
Qed.

Theorem check_timestamp_verify_spec fr st c rest ts thr :
  st_stack st = c :: rest -> c <> [] ->
  cache_get (st_cache st) ts_key = Some (VOne (AInt ts)) ->
  flag_get (c_flags cfg) thr_key = Some (FVInt thr) ->
  room rest ->
  interp orc cfg run OP_CHECK_TIMESTAMP_VERIFY fr st =
    if ts_verdict (be_to_Z c) ts thr then Done tt fr (with_stack st rest)
    else Raised ScriptExecutionError fr (with_stack st rest).
Proof.
  intros Hs Hc Ht Hf Hr.
  unfold OP_CHECK_TIMESTAMP_VERIFY, OP_CHECK_TIMESTAMP, OP_VERIFY, get, put, config_, act, sert.
  cbn [bind interp step]. rewrite Hs. rewrite (nonempty_blen c Hc).
  cbn [bind interp step st_cache with_stack].
  unfold ts_key in Ht. rewrite Ht. cbn [bind interp step].
  unfold thr_key in Hf. rewrite Hf.
  rewrite <- ts_verdict_code.
  destruct (ts <? be_to_Z c); [|destruct ((thr <=? ts - c_now cfg) && (0 <? thr))];
    cbn [bind]; (rewrite put1 with (rest := rest); [|reflexivity|exact Hr]); cbn; reflexivity.
Qed.

Theorem check_epoch_spec fr st c rest thr :
  st_stack st = c :: rest -> c <> [] ->
  flag_get (c_flags cfg) ethr_key = Some (FVInt thr) -> 0 <= thr ->
  room rest ->
  interp orc cfg run OP_CHECK_EPOCH fr st =
    Done tt fr (with_stack st (boolb (epoch_verdict (be_to_Z c) thr) :: rest)).
Proof.
  intros Hs Hc Hf Hthr Hr.
  unfold OP_CHECK_EPOCH, get, put, config_, act, sert.
  cbn [bind interp step]. rewrite Hs. rewrite (nonempty_blen c Hc).
  cbn [bind interp step with_stack].
  unfold ethr_key in Hf. rewrite Hf.
  replace (0 <=? thr) with true by (symmetry; apply Z.leb_le; exact Hthr).
  cbn [bind interp step]. unfold epoch_verdict.
  destruct (thr <=? be_to_Z c - c_now cfg) eqn:E.
  - apply Z.leb_le in E. replace (be_to_Z c - c_now cfg <? thr) with false by (symmetry; apply Z.ltb_ge; lia).
    rewrite put1 with (rest := rest); [reflexivity|reflexivity|exact Hr].
  - apply Z.leb_gt in E. replace (be_to_Z c - c_now cfg <? thr) with true by (symmetry; apply Z.ltb_lt; lia).
    rewrite put1 with (rest := rest); [reflexivity|reflexivity|exact Hr].
Qed.

Theorem check_epoch_verify_spec fr st c rest thr :
  st_stack st = c :: rest -> c <> [] ->
  flag_get (c_flags cfg) ethr_key = Some (FVInt thr) -> 0 <= thr ->
  room rest ->
  interp orc cfg run OP_CHECK_EPOCH_VERIFY fr st =
    if epoch_verdict (be_to_Z c) thr then Done tt fr (with_stack st rest)
    else Raised ScriptExecutionError fr (with_stack st rest).
Proof.
  intros Hs Hc Hf Hthr Hr.
  unfold OP_CHECK_EPOCH_VERIFY, OP_CHECK_EPOCH, OP_VERIFY, get, put, config_, act, sert.
  cbn [bind interp step]. rewrite Hs. rewrite (nonempty_blen c Hc).
  cbn [bind interp step with_stack].
  unfold ethr_key in Hf. rewrite Hf.
  replace (0 <=? thr) with true by (symmetry; apply Z.leb_le; exact Hthr).
  cbn [bind interp step]. unfold epoch_verdict.
  destruct (thr <=? be_to_Z c - c_now cfg) eqn:E.
  - apply Z.leb_le in E. replace (be_to_Z c - c_now cfg <? thr) with false by (symmetry; apply Z.ltb_ge; lia).
    cbn [bind]. rewrite put1 with (rest := rest); [|reflexivity|exact Hr]. cbn. reflexivity.
  - apply Z.leb_gt in E. replace (be_to_Z c - c_now cfg <? thr) with true by (symmetry; apply Z.ltb_lt; lia).
    cbn [bind]. rewrite put1 with (rest := rest); [|reflexivity|exact Hr]. cbn. reflexivity.
Qed.

Theorem check_epoch_negative_threshold fr st c rest thr :
  st_stack st = c :: rest -> c <> [] ->
  flag_get (c_flags cfg) ethr_key = Some (FVInt thr) -> thr < 0 ->
  interp orc cfg run OP_CHECK_EPOCH fr st = Raised ScriptExecutionError fr (with_stack st rest).
Proof.
  intros Hs Hc Hf Hthr.
  unfold OP_CHECK_EPOCH, get, put, config_, act, sert.
  cbn [bind interp step]. rewrite Hs. rewrite (nonempty_blen c Hc).
  cbn [bind interp step with_stack].
  unfold ethr_key in Hf. rewrite Hf.
  replace (0 <=? thr) with false by (symmetry; apply Z.leb_gt; exact Hthr). reflexivity.
Qed.

(* "timestamp-before" as built by tools.make_timestamp_before_lock: CHECK_TIMESTAMP followed by NOT.
   The negation also negates the slack clause (known finding D11). *)
Definition before_verdict (c ts thr : Z) : bool := negb (ts_verdict c ts thr).
Lemma before_verdict_is_not_window :
  exists c ts thr now', 0 < thr /\
    (if (c <=? ts) && ((thr <=? 0) || (ts - now' <? thr)) then false else true) = true /\ c <= ts.
Proof. exists 30, 60, 60, 0. vm_compute. repeat split; discriminate. Qed.

End TS.
