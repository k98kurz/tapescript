(* C14 (continued): make_delegate_key_chain_lock / make_delegate_key_chain_witness - the delegate-key CHAIN
   lock on its real bytes, by induction on the length of the certificate chain.  One activation of definition 0
   is a straight segment of 28 instructions (body_straight) and an OP_IF_ELSE whose arm either calls the
   definition again or closes with OP_CHECK_SIG (body_run); chain_runs is the induction over the certificates,
   the call budget being part of what the run decides; chain_lock_verdict is the pair of scripts. *)
From Coq Require Import ZArith List Bool Lia.
From Coq.Strings Require Import Byte String.
From TS Require Import Bytes State Prog Ops Interp StateLemmas InterpLemmas NopSpec StackLemmas
  BytesLemmas TapeLemmas SigSpec ConfigSpec AuthSpec TimeSpec Asm Builders BuilderSpec
  Closure Pointer BuilderSpecC15 TaprootNonNative BuilderSpecC13b BuilderSpecC14.
Import ListNotations.
Local Open Scope nat_scope.

(* def 0 { ... } of tools.make_delegate_key_chain_lock:  "@= k n" = OP_WRITE_CACHE k n, "@k" = OP_READ_CACHE k,
   "if ( cond ) { a } else { b }" = cond ; OP_IF_ELSE a b *)
(* chain_call_arm, chain_sig_arm, chain_body, delegate_key_chain_lock, delegate_key_chain_witness: model/Builders.v
   (extracted; compared with the real builders on every run by the BLD correspondence) *)

(* python: make_delegate_key_chain_lock(bytes(SigningKey(bytes(range(32))).verify_key), '05').bytes.hex() *)
Example chain_lock_bytes_real :
  delegate_key_chain_lock (of_hex "03a107bff3ce10be1d70dd18e74bc09967e4d6309ba50d5f1ddc8664125531b8") x05 =
  of_hex "2900004b09017201022938090173011d022838090163010224380901650102203809016201090164010a0162260a0165252e200a0173350a01724a200a0163582c00050a01642a0000050a01642305032003a107bff3ce10be1d70dd18e74bc09967e4d6309ba50d5f1ddc8664125531b82a00".
Proof. vm_compute. reflexivity. Qed.

(* the 28 instructions before the OP_IF_ELSE of the definition *)
Definition body_pre : bytes :=
  [x09;x01;x72;x01; x02;x29; x38; x09;x01;x73;x01; x1d; x02;x28; x38; x09;x01;x63;x01;
   x02;x24; x38; x09;x01;x65;x01; x02;x20; x38; x09;x01;x62;x01; x09;x01;x64;x01;
   x0a;x01;x62; x26; x0a;x01;x65; x25; x2e; x20; x0a;x01;x73; x35; x0a;x01;x72; x4a; x20;
   x0a;x01;x63; x58].
Definition call_arm : bytes := [x0a;x01;x64; x2a;x00].               (* @d call d0 *)
Definition sig_arm (fl : byte) : bytes := [x0a;x01;x64; x23;fl].     (* @d check_sig fl *)
Definition body_bytes (fl : byte) : bytes := body_pre ++ x2c :: ifelse_ops call_arm (sig_arm fl).

Lemma chain_body_bytes fl : encode (chain_body fl) = body_bytes fl.
Proof. reflexivity. Qed.
Lemma body_bytes_length fl : List.length (body_bytes fl) = 75.
Proof. reflexivity. Qed.

Definition lock_hdr : bytes := [x29; x00; x00; x4b].
Lemma chain_lock_bytes root fl :
  delegate_key_chain_lock root fl = lock_hdr ++ body_bytes fl ++ push1_bytes root ++ [x2a; x00].
Proof. reflexivity. Qed.

(* tape object T holds the body of definition 0 with call count c, and handle 0 of its definition table is T
   itself: what every activation of the definition starts from *)
Definition def_ready (fl : byte) (st : state) (T : nat) (c : Z) : Prop :=
  tdata st T = body_bytes fl /\ T < List.length (st_tapes st) /\
  to_count (nth_tape st T) = c /\
  to_defs (nth_tape st T) < List.length (st_defs st) /\
  defs_get (nth_defs st (to_defs (nth_tape st T))) x00 = Some T.

Lemma chain_witness_bytes sig c0 cs :
  delegate_key_chain_witness sig c0 cs =
    push1_bytes sig ++ [x00] ++ push1_bytes c0 ++ flat_map (fun c => x01 :: push1_bytes c) cs.
Proof.
  unfold delegate_key_chain_witness, encode. cbn [flat_map encode1 P1 app].
  unfold push1_bytes, len1. cbn [app].
  change (opcode_byte O_FALSE) with x00. change (opcode_byte O_PUSH1) with x03.
  do 3 f_equal. do 4 f_equal.
  induction cs as [|c cs IH]; [reflexivity|].
  cbn [flat_map app encode1 P1]. rewrite IH. reflexivity.
Qed.

Lemma pad_to_length n a : List.length a <= n -> List.length (pad_to n a) = n.
Proof. intro H. unfold pad_to. rewrite app_length, repeat_length. lia. Qed.

Lemma zip_pad_length f a b : List.length (zip_pad f a b) = Nat.max (List.length a) (List.length b).
Proof. unfold zip_pad. rewrite map2_length, !pad_to_length by lia. lia. Qed.

Lemma and_exec orc cfg run fr st a b s :
  st_stack st = a :: b :: s -> fits cfg a -> fits cfg b -> space cfg s ->
  interp orc cfg run OP_AND fr st = Done tt fr (with_stack st (zip_pad byte_and a b :: s)).
Proof.
  intros Hs Fa Fb Hsp. unfold OP_AND, get, put, act. cbn [bind].
  erewrite get_step by exact Hs. cbn [bind].
  erewrite get_step by reflexivity. cbn [bind].
  erewrite put_step; [reflexivity|reflexivity| |exact Hsp].
  unfold fits in *. rewrite zip_pad_length. lia.
Qed.

Lemma and_runs orc cfg tid st a b s :
  st_stack st = a :: b :: s -> fits cfg a -> fits cfg b -> space cfg s ->
  runs orc cfg 1 tid [x58] st (with_stack st (zip_pad byte_and a b :: s)).
Proof.
  intros Hs Fa Fb Hsp. apply runs_op0; [reflexivity|]. intros run fr.
  change (dispatch _) with OP_AND. exact (and_exec orc cfg run fr st a b s Hs Fa Fb Hsp).
Qed.

(* the can-delegate byte ANDed with the flag the witness pushed beneath the certificate *)
Lemma and_true (can : byte) : zip_pad byte_and [can] [xff] = [can].
Proof. destruct can; reflexivity. Qed.
Lemma and_false (can : byte) : zip_pad byte_and [can] [x00] = [x00].
Proof. destruct can; reflexivity. Qed.
Lemma bool_of_byte (can : byte) : bytes_to_bool [can] = negb (Byte.eqb can x00).
Proof. destruct can; reflexivity. Qed.

Definition kR : ckey := KBytes [x72].
Definition kS : ckey := KBytes [x73].
Definition kC : ckey := KBytes [x63].
Definition kE : ckey := KBytes [x65].
Definition kB : ckey := KBytes [x62].
Definition kD : ckey := KBytes [x64].
Definition one (x : bytes) : cval := VMany [ABytes x].

(* the 41 signed bytes of a certificate *)
Definition cpre (D b e : bytes) (can : byte) : bytes := D ++ b ++ e ++ [can].

(* the cache after the six WRITE_CACHE of one activation *)
Definition act_cache (c : cache) (K D b e : bytes) (can : byte) (csig : bytes) : cache :=
  cache_set (cache_set (cache_set (cache_set (cache_set (cache_set c kR (one K)) kS (one csig))
    kC (one [can])) kE (one e)) kB (one b)) kD (one D).

Ltac side := unfold cpre in *; BuilderSpecC14.side.

Section Straight.
Variable orc : oracle.
Variable cfg : config.
Hypothesis Hsize : 105 <= c_max_item_size cfg.
Variable fl : byte.
Variables ts thr : Z.
Hypothesis Hthr : flag_get (c_flags cfg) thr_key = Some (FVInt thr).

(* what one activation checks about the certificate on top of the stack, K being the authorising key *)
Definition cert_good (K D b e : bytes) (can : byte) (csig : bytes) : bool :=
  ts_verdict cfg (be_to_Z b) ts thr && negb (ts_verdict cfg (be_to_Z e) ts thr) &&
  css_verdict orc K (cpre D b e can) csig.

Variables K D b e csig more : bytes.
Variable can : byte.
Variable rest : list bytes.
Hypothesis LK : List.length K = 32.
Hypothesis LD : List.length D = 32.
Hypothesis Lb : List.length b = 4.
Hypothesis Le : List.length e = 4.
Hypothesis Lc : List.length csig = 64.
Hypothesis Fm : fits cfg more.
Hypothesis Hitems : List.length rest + 4 <= c_max_items cfg.

(* the state in which OP_IF_ELSE is fetched *)
Definition st28 (st : state) : state :=
  with_cache (with_stack st (zip_pad byte_and [can] more :: rest))
             (act_cache (st_cache st) K D b e can csig).

Lemma body_pre_segments :
  body_pre = ([x09;x01;x72;x01] ++ cert_split ++ [x09;x01;x63;x01]) ++ cert_window ++
             ([x0a;x01;x72] ++ [x4a]) ++ [x20] ++ [x0a;x01;x63] ++ [x58].
Proof. reflexivity. Qed.

(* WRITE_CACHE r 1 ; cert_split ; WRITE_CACHE c 1 ; cert_window ; READ_CACHE r ; CHECK_SIG_STACK ; VERIFY ;
   READ_CACHE c ; AND *)
Lemma body_straight T st :
  st_stack st = K :: (cpre D b e can ++ csig) :: more :: rest ->
  cache_get (st_cache st) ts_key = Some (VOne (AInt ts)) ->
  if cert_good K D b e can csig then runs orc cfg 28 T body_pre st (st28 st)
  else raises orc cfg 28 T body_pre st.
Proof.
  intros Hst Hts. rewrite body_pre_segments. unfold cert_good.
  set (c2 := cache_set (cache_set (cache_set (st_cache st) kR (one K)) kS (one csig)) kC (one [can])).
  set (stA := with_cache (with_stack st ((D ++ b ++ e) :: cpre D b e can :: more :: rest)) c2).
  assert (HA : runs orc cfg 8 T ([x09;x01;x72;x01] ++ cert_split ++ [x09;x01;x63;x01]) st stA).
  { eapply runs_step; [apply write_cache1_runs; exact Hst|].
    eapply (runs_app (n := 6) (m := 1)).
    - apply (cert_split_runs orc cfg Hsize D b e csig can LD Lb Le Lc T _ (more :: rest)); [reflexivity|].
      cbn [List.length]. blia.
    - eapply runs_eq; [apply write_cache1_runs; reflexivity|reflexivity]. }
  assert (HtsA : cache_get (st_cache stA) ts_key = Some (VOne (AInt ts))).
  { cbn [st_cache stA with_cache]. unfold c2. rewrite !cache_get_set_other by reflexivity. exact Hts. }
  assert (HksA : cache_get (st_cache stA) kS = Some (one csig)).
  { cbn [st_cache stA with_cache]. unfold c2. rewrite cache_get_set_other by reflexivity. apply cache_get_set_same. }
  pose proof (cert_window_runs orc cfg Hsize ts thr Hthr D b e csig LD Lb Le Lc T stA (cpre D b e can) (more :: rest)
                eq_refl ltac:(side) ltac:(cbn [List.length]; blia) HtsA HksA) as HW.
  destruct (ts_verdict cfg (be_to_Z b) ts thr && negb (ts_verdict cfg (be_to_Z e) ts thr)); cbn [andb].
  2:{ apply (raises_le 23); [lia|]. apply (runs_raises HA), raises_app. exact HW. }
  match type of HW with runs _ _ _ _ _ _ ?s => set (stW := s) in * end.
  assert (HC : runs orc cfg 2 T ([x0a;x01;x72] ++ [x4a]) stW
                 (with_stack stW (boolb (css_verdict orc K (cpre D b e can) csig) :: more :: rest))).
  { eapply runs_step.
    - apply (read_cache1_runs orc cfg T _ x72 K (cpre D b e can :: csig :: more :: rest)); [|reflexivity|side|side].
      cbn [st_cache stW stA with_cache with_stack]. unfold c2. rewrite !cache_get_set_other by reflexivity.
      apply cache_get_set_same.
    - eapply runs_eq; [apply check_sig_stack_runs; [reflexivity|exact LK|exact Lc|side]|reflexivity]. }
  destruct (css_verdict orc K (cpre D b e can) csig).
  2:{ apply (raises_le 26); [lia|]. apply (runs_raises HA), (runs_raises HW), (runs_raises HC), raises_app.
      apply (verify_raises orc cfg T _ (boolb false) (more :: rest)); reflexivity. }
  apply (runs_app (n := 8) (m := 20) HA). apply (runs_app (n := 15) (m := 5) HW).
  apply (runs_app (n := 2) (m := 3) HC).
  eapply runs_step; [apply (verify_runs orc cfg T _ (boolb true) (more :: rest)); reflexivity|].
  eapply runs_step.
  - apply (read_cache1_runs orc cfg T _ x63 [can] (more :: rest)); [|reflexivity|side|side].
    cbn [st_cache stW stA with_cache with_stack]. unfold c2. rewrite !cache_get_set_other by reflexivity.
    apply cache_get_set_same.
  - eapply runs_eq; [apply and_runs; [reflexivity|side|exact Fm|side]|reflexivity].
Qed.

End Straight.

(* what `@d call d0` (tape A, call count c) makes of the outcome of the called definition *)
Definition call_wrap (A : nat) (o : outcome unit) : outcome unit :=
  match o with
  | Done _ _ st' =>
      Done tt {| fr_tid := A; fr_ptr := 5 |} (with_cache st' (cache_del (st_cache st') returned_key))
  | Raised e _ st' => Raised e {| fr_tid := A; fr_ptr := 5 |} st'
  | OutOfFuel => OutOfFuel
  | Unmodelled w => Unmodelled w
  end.

(* the state in which the called definition (tape object T) starts: both tape objects carry the count c + 1 *)
Definition call_state (sA : state) (A T : nat) (c : Z) (stk : list bytes) : state :=
  set_count (set_count (with_stack sA stk) A (c + 1)) T (c + 1).

Section Arms.
Variable orc : oracle.
Variable cfg : config.
Notation sub f := (fun t s0 => run_tape orc cfg f t 0 s0).

(* OP_CALL h as the LAST instruction of tape tid (call count c, h bound to tape object T): the budget test, then
   the run of T with both counts at c + 1 *)
Lemma op_call_last f tid p st data h T c :
  tdata st tid = data -> skipn p data = [x2a; h] -> tid < List.length (st_tapes st) ->
  to_count (nth_tape st tid) = c ->
  defs_get (nth_defs st (to_defs (nth_tape st tid))) h = Some T ->
  run_tape orc cfg (S (S f)) tid p st =
    if (c <? c_limit cfg)%Z then
      match run_tape orc cfg (S f) T 0 (set_count (set_count st tid (c + 1)) T (c + 1)) with
      | Done _ _ st' =>
          Done tt {| fr_tid := tid; fr_ptr := p + 2 |} (with_cache st' (cache_del (st_cache st') returned_key))
      | Raised e _ st' => Raised e {| fr_tid := tid; fr_ptr := p + 2 |} st'
      | OutOfFuel => OutOfFuel
      | Unmodelled w => Unmodelled w
      end
    else Raised ScriptExecutionError {| fr_tid := tid; fr_ptr := S p |} st.
Proof.
  intros Hd Hp Htid Hc Hg.
  destruct (c <? c_limit cfg)%Z eqn:Hlim.
  2:{ rewrite (run_tape_fetch_at orc cfg (S f) tid p st data x2a [h] Hd Hp). change (dispatch _) with OP_CALL.
      unfold OP_CALL, config_, read, act, sert. cbn [bind].
      rewrite config_step, count_step. cbn [fr_tid]. rewrite Hc, Hlim. reflexivity. }
  assert (H1 : nth_tape (set_count st tid (c + 1)) tid =
               {| to_data := to_data (nth_tape st tid); to_count := (c + 1)%Z; to_defs := to_defs (nth_tape st tid) |})
    by (apply nth_tape_set_count_same; exact Htid).
  set (s3 := set_count (set_count st tid (c + 1)) T (c + 1)).
  rewrite (call_last orc cfg f tid p st data x2a [h] T s3
             (fun st' => with_cache st' (cache_del (st_cache st') returned_key)) (fun _ => S p + 1) Hd Hp).
  - rewrite (skipn_cons_length p data x2a [h] Hp). cbn [List.length]. replace (S p + 1) with (p + 2) by lia.
    destruct (run_tape orc cfg (S f) T 0 s3) as [[] fr' st'|e fr' st'| |w]; reflexivity.
  - unfold s3. rewrite !set_count_length. exact Htid.
  - unfold s3. rewrite !tdata_set_count. exact Hd.
  - reflexivity.
  - left. reflexivity.
  - change (dispatch _) with OP_CALL.
    rewrite (call_exec orc cfg _ _ st h [] T (data_at_next tid p st data x2a _ Hd Hp)).
    + cbv zeta. unfold adv. cbn [fr_tid fr_ptr]. rewrite Hc, H1. cbn [to_count]. fold s3.
      destruct (run_tape orc cfg (S f) T 0 s3) as [[] fr' st'|e fr' st'| |w]; reflexivity.
    + cbn [fr_tid]. rewrite Hc. exact Hlim.
    + cbv zeta. cbn [fr_tid]. rewrite Hc, H1. exact Hg.
Qed.

(* the arm `@d call d0` on its own tape object A; with the call budget used up OP_CALL raises before the
   definition is looked up *)
Lemma call_arm_runs g A T sA D s c :
  tdata sA A = call_arm -> st_stack sA = s ->
  cache_get (st_cache sA) kD = Some (one D) -> fits cfg D -> space cfg s ->
  A < List.length (st_tapes sA) -> to_count (nth_tape sA A) = c ->
  defs_get (nth_defs sA (to_defs (nth_tape sA A))) x00 = Some T ->
  run_tape orc cfg (S (S (S g))) A 0 sA =
    if (c <? c_limit cfg)%Z then call_wrap A (run_tape orc cfg (S g) T 0 (call_state sA A T c (D :: s)))
    else Raised ScriptExecutionError {| fr_tid := A; fr_ptr := 4 |} (with_stack sA (D :: s)).
Proof.
  intros Hd Hs Hk FD Hsp HA Hc Hg.
  rewrite (runs1_at (p := 0) (rest := [x2a; x00]) (read_cache1_runs orc cfg A sA x64 D s Hk Hs FD Hsp) Hd eq_refl).
  exact (op_call_last g A 3 (with_stack sA (D :: s)) call_arm x00 T c Hd eq_refl HA Hc Hg).
Qed.

(* what `@d check_sig fl` (tape A) makes of the outcome of the signature check *)
Definition sig_wrap (A : nat) (o : outcome unit) : outcome unit :=
  match o with
  | Done _ _ st' => Done tt {| fr_tid := A; fr_ptr := 5 |} st'
  | Raised e fr st' => Raised e fr st'
  | OutOfFuel => OutOfFuel
  | Unmodelled w => Unmodelled w
  end.

Lemma sig_arm_runs g A sA fl D s :
  tdata sA A = sig_arm fl -> st_stack sA = s ->
  cache_get (st_cache sA) kD = Some (one D) -> fits cfg D -> space cfg s ->
  A < List.length (st_tapes sA) ->
  run_tape orc cfg (S (S (S g))) A 0 sA =
    sig_wrap A (interp orc cfg (sub (S g)) (check_sig_body (b2z fl)) {| fr_tid := A; fr_ptr := 5 |}
                       (sigext_log cfg (with_stack sA (D :: s)))).
Proof.
  intros Hd Hs Hk FD Hsp HA.
  rewrite (runs1_at (p := 0) (rest := [x23; fl]) (read_cache1_runs orc cfg A sA x64 D s Hk Hs FD Hsp) Hd eq_refl).
  cbn [List.length Nat.add]. set (s1 := with_stack sA (D :: s)).
  rewrite (run_tape_fetch_at orc cfg (S g) A 3 s1 (sig_arm fl) x23 [fl] Hd eq_refl).
  change (dispatch _) with OP_CHECK_SIG.
  rewrite (check_sig_decomposed orc cfg _ _ s1 fl [] (data_at_next A 3 s1 _ x23 [fl] Hd eq_refl)).
  unfold adv. cbn [fr_tid fr_ptr Nat.add].
  (* the check leaves the pointer where it is: at the end of the arm *)
  assert (Hrun : run_ok R_heap (sub (S g))) by (intros t s0; apply run_tape_heap).
  pose proof (interp_ptr orc cfg _ Hrun unit (check_sig_body (b2z fl)) {| fr_tid := A; fr_ptr := 5 |}
                (sigext_log cfg s1)) as Hp.
  destruct (interp orc cfg (sub (S g)) (check_sig_body (b2z fl)) {| fr_tid := A; fr_ptr := 5 |} (sigext_log cfg s1))
    as [[] fr' st'|e fr' st'| |w]; cbn [sig_wrap]; try reflexivity.
  cbn [ptr_out] in Hp. destruct Hp as (Ht & [_ Hh] & Hb). cbn [fr_tid fr_ptr] in Ht, Hb.
  assert (Hdata : data_of st' A = sig_arm fl).
  { rewrite Hh by exact HA. exact Hd. }
  destruct Hb as [B1 B2]; [exact HA|change (data_of (sigext_log cfg s1) A) with (tdata sA A); rewrite Hd; simpl; lia|].
  rewrite Ht, Hdata in B2. simpl in B2.
  assert (fr_ptr fr' = 5) by lia.
  rewrite H. apply run_tape_end. change (tdata st' A) with (data_of st' A). rewrite Hdata. simpl. lia.
Qed.

End Arms.

(* the state in which the selected arm starts (a new tape object, a new copy of the definition table) *)
Definition arm_start (st : state) (T : nat) (K D b e csig more : bytes) (can : byte) (rest : list bytes)
    (arm : bytes) : state :=
  sub_start (with_stack (st28 K D b e csig more can rest st) rest) T arm.

(* the state in which the recursive activation starts *)
Definition next_state (st : state) (T : nat) (c : Z) (K D b e csig more : bytes) (can : byte) (rest : list bytes)
    : state :=
  call_state (arm_start st T K D b e csig more can rest call_arm) (List.length (st_tapes st)) T c (D :: rest).

Lemma next_state_stack st T c K D b e csig more can rest :
  st_stack (next_state st T c K D b e csig more can rest) = D :: rest.
Proof. reflexivity. Qed.

Lemma next_state_cache st T c K D b e csig more can rest :
  st_cache (next_state st T c K D b e csig more can rest) = act_cache (st_cache st) K D b e can csig.
Proof. reflexivity. Qed.

Section Step.
Variable orc : oracle.
Variable cfg : config.
Hypothesis Hsize : 105 <= c_max_item_size cfg.
Variable fl : byte.
Variables ts thr : Z.
Hypothesis Hthr : flag_get (c_flags cfg) thr_key = Some (FVInt thr).
Notation sub f := (fun t s0 => run_tape orc cfg f t 0 s0).

Variables K D b e csig more : bytes.
Variable can : byte.
Variable rest : list bytes.
Hypothesis LK : List.length K = 32.
Hypothesis LD : List.length D = 32.
Hypothesis Lb : List.length b = 4.
Hypothesis Le : List.length e = 4.
Hypothesis Lc : List.length csig = 64.
Hypothesis Fm : fits cfg more.
Hypothesis Hitems : List.length rest + 4 <= c_max_items cfg.

Variable T : nat.
Variable st : state.
Variable c : Z.
Hypothesis Hd : tdata st T = body_bytes fl.
Hypothesis HT : T < List.length (st_tapes st).
Hypothesis Hc : to_count (nth_tape st T) = c.
Hypothesis Hdid : to_defs (nth_tape st T) < List.length (st_defs st).
Hypothesis Hg : defs_get (nth_defs st (to_defs (nth_tape st T))) x00 = Some T.
Hypothesis Hst : st_stack st = K :: (cpre D b e can ++ csig) :: more :: rest.
Hypothesis Hts : cache_get (st_cache st) ts_key = Some (VOne (AInt ts)).

Notation A := (List.length (st_tapes st)).
Notation good := (cert_good orc cfg ts thr K D b e can csig).
Notation arm0 := (arm_start st T K D b e csig more can rest).

Lemma arm_facts arm :
  tdata (arm0 arm) A = arm /\ A < List.length (st_tapes (arm0 arm)) /\ T < List.length (st_tapes (arm0 arm)) /\
  T <> A /\ to_count (nth_tape (arm0 arm) A) = c /\
  defs_get (nth_defs (arm0 arm) (to_defs (nth_tape (arm0 arm) A))) x00 = Some T /\
  st_stack (arm0 arm) = rest /\
  st_cache (arm0 arm) = act_cache (st_cache st) K D b e can csig.
Proof using HT Hc Hg.
  unfold arm_start.
  set (s := with_stack (st28 K D b e csig more can rest st) rest).
  change A with (List.length (st_tapes s)).
  rewrite tapes_sub, (nth_tape_sub_new s T arm). cbn [to_count to_defs].
  change (List.length (st_defs st)) with (List.length (st_defs s)). rewrite nth_defs_sub_new.
  split; [apply tdata_sub_new|]. split; [apply Nat.lt_succ_diag_r|]. split; [exact (Nat.lt_lt_succ_r _ _ HT)|].
  split; [exact (Nat.lt_neq _ _ HT)|]. split; [exact Hc|]. split; [exact Hg|]. split; reflexivity.
Qed.

Lemma cache_d arm : cache_get (st_cache (arm0 arm)) kD = Some (one D).
Proof using HT Hc Hg. destruct (arm_facts arm) as (_ & _ & _ & _ & _ & _ & _ & ->). apply cache_get_set_same. Qed.

(* one activation, every case: a bad certificate raises; a good one selects an arm by can-delegate AND flag *)
Lemma body_run g :
  if good then
    run_tape orc cfg (32 + g) T 0 st =
      ifelse_last_outcome T 75
        (if bytes_to_bool (zip_pad byte_and [can] more)
         then if (c <? c_limit cfg)%Z
              then call_wrap A (run_tape orc cfg (S g) T 0 (next_state st T c K D b e csig more can rest))
              else Raised ScriptExecutionError {| fr_tid := A; fr_ptr := 4 |} (with_stack (arm0 call_arm) (D :: rest))
         else sig_wrap A (interp orc cfg (sub (S g)) (check_sig_body (b2z fl)) {| fr_tid := A; fr_ptr := 5 |}
                                 (sigext_log cfg (with_stack (arm0 (sig_arm fl)) (D :: rest)))))
  else exists err fr st', run_tape orc cfg (32 + g) T 0 st = Raised err fr st'.
Proof using Hsize Hthr LK LD Lb Le Lc Fm Hitems Hd HT Hc Hdid Hg Hst Hts.
  pose proof (body_straight orc cfg Hsize ts thr Hthr K D b e csig more can rest LK LD Lb Le Lc Fm Hitems T st Hst Hts)
    as HS.
  assert (Hp : skipn 0 (body_bytes fl) = body_pre ++ x2c :: ifelse_ops call_arm (sig_arm fl)) by reflexivity.
  destruct good.
  2:{ apply (raises_at orc cfg _ _ _ _ _ _ _ _ HS Hd Hp). lia. }
  rewrite (runs_at (f := S (S (S (S g)))) HS Hd Hp (32 + g) eq_refl).
  rewrite (if_else_last orc cfg (S (S g)) T (st28 K D b e csig more can rest st) (0 + List.length body_pre) body_pre call_arm (sig_arm fl)
             (zip_pad byte_and [can] more) rest Hd eq_refl HT) by reflexivity.
  change (List.length (body_pre ++ x2c :: ifelse_ops call_arm (sig_arm fl))) with 75.
  f_equal.
  assert (FD : fits cfg D) by (unfold fits; lia).
  assert (Hsp : space cfg rest) by (unfold space; lia).
  destruct (bytes_to_bool (zip_pad byte_and [can] more)).
  - destruct (arm_facts call_arm) as (F1 & F2 & _ & _ & F5 & F6 & F7 & _).
    exact (call_arm_runs orc cfg g A T _ D rest c F1 F7 (cache_d call_arm) FD Hsp F2 F5 F6).
  - destruct (arm_facts (sig_arm fl)) as (F1 & F2 & _ & _ & _ & _ & F7 & _).
    exact (sig_arm_runs orc cfg g A _ fl D rest F1 F7 (cache_d (sig_arm fl)) FD Hsp F2).
Qed.

Theorem body_step g :
  (* a certificate outside its window, or not signed by the authorising key: the activation raises *)
  (good = false -> exists err fr st', run_tape orc cfg (32 + g) T 0 st = Raised err fr st') /\
  (* good certificate, can-delegate AND flag truthy: definition 0 is called again (same tape object T,
         call count + 1) with D as authorising key on the remaining stack *)
  (good = true -> bytes_to_bool (zip_pad byte_and [can] more) = true -> (c <? c_limit cfg)%Z = true ->
     run_tape orc cfg (32 + g) T 0 st =
       ifelse_last_outcome T 75
         (call_wrap A (run_tape orc cfg (S g) T 0 (next_state st T c K D b e csig more can rest)))) /\
  (* good certificate, can-delegate AND flag falsy: CHECK_SIG fl with key D on the remaining stack *)
  (good = true -> bytes_to_bool (zip_pad byte_and [can] more) = false ->
     run_tape orc cfg (32 + g) T 0 st =
       ifelse_last_outcome T 75
         (sig_wrap A (interp orc cfg (sub (S g)) (check_sig_body (b2z fl)) {| fr_tid := A; fr_ptr := 5 |}
                             (sigext_log cfg (with_stack (arm0 (sig_arm fl)) (D :: rest)))))).
Proof using Hsize Hthr LK LD Lb Le Lc Fm Hitems Hd HT Hc Hdid Hg Hst Hts.
  pose proof (body_run g) as H. destruct good.
  - split; [discriminate|]. split.
    + intros _ Hb Hlim. rewrite H, Hb, Hlim. reflexivity.
    + intros _ Hb. rewrite H, Hb. reflexivity.
  - split; [intros _; exact H|]. split; discriminate.
Qed.

(* good certificate, can-delegate AND flag truthy, but the call budget is used up: the activation raises *)
Theorem body_step_over_budget g :
  good = true -> bytes_to_bool (zip_pad byte_and [can] more) = true -> (c <? c_limit cfg)%Z = false ->
  exists err fr st', run_tape orc cfg (32 + g) T 0 st = Raised err fr st'.
Proof.
  intros G Hb Hlim. pose proof (body_run g) as H. rewrite G, Hb, Hlim in H.
  rewrite H. eexists _, _, _. reflexivity.
Qed.

(* the recursive activation starts in a state of the same shape: same tape object, count + 1 *)
Lemma next_state_facts : def_ready fl (next_state st T c K D b e csig more can rest) T (c + 1).
Proof using Hd HT Hc Hdid Hg.
  unfold def_ready, next_state, call_state.
  destruct (arm_facts call_arm) as (_ & _ & F3 & F4 & _).
  set (sA := arm0 call_arm) in *.
  assert (Hold : nth_tape sA T = nth_tape st T) by exact (nth_tape_sub_old _ T call_arm T HT).
  assert (H1 : nth_tape (set_count (set_count (with_stack sA (D :: rest)) A (c + 1)) T (c + 1)) T =
               {| to_data := to_data (nth_tape st T); to_count := (c + 1)%Z; to_defs := to_defs (nth_tape st T) |}).
  { rewrite nth_tape_set_count_same by (rewrite set_count_length; exact F3).
    rewrite nth_tape_set_count_other by (intro E; apply F4; symmetry; exact E).
    change (nth_tape (with_stack sA (D :: rest)) T) with (nth_tape sA T). rewrite Hold. reflexivity. }
  unfold tdata. rewrite H1. cbn [to_data to_count to_defs].
  split; [exact Hd|]. split; [rewrite !set_count_length; exact F3|]. split; [reflexivity|].
  assert (Hdefs : st_defs (set_count (set_count (with_stack sA (D :: rest)) A (c + 1)) T (c + 1)) =
                  st_defs st ++ [nth_defs st (to_defs (nth_tape st T))]) by reflexivity.
  unfold nth_defs. rewrite Hdefs, app_length. cbn [List.length].
  split; [rewrite Nat.add_1_r; exact (Nat.lt_lt_succ_r _ _ Hdid)|]. rewrite app_nth1 by exact Hdid. exact Hg.
Qed.

End Step.

(* a certificate: delegate key, begin, end, can-delegate byte, signature of the authorising key *)
Record cert := { cD : bytes; cb : bytes; ce : bytes; ccan : byte; ccsig : bytes }.
Definition cert_wf (x : cert) : Prop :=
  List.length (cD x) = 32 /\ List.length (cb x) = 4 /\ List.length (ce x) = 4 /\ List.length (ccsig x) = 64.
(* Certificate.pack *)
Definition pack (x : cert) : bytes := cD x ++ cb x ++ ce x ++ [ccan x] ++ ccsig x.

Lemma pack_eq x : pack x = cpre (cD x) (cb x) (ce x) (ccan x) ++ ccsig x.
Proof. unfold pack, cpre. rewrite <- !app_assoc. reflexivity. Qed.
Lemma pack_length x : cert_wf x -> List.length (pack x) = 105.
Proof. intros (H1 & H2 & H3 & H4). unfold pack. rewrite !app_length, H1, H2, H3, H4. reflexivity. Qed.

(* the stack the witness leaves beneath the authorising key: the certificates in the order in which the
   lock consumes them (the first one is signed by the root), `true` beneath every certificate that is
   followed by another one, `false` beneath the last one, then the signature of the last delegate *)
Fixpoint chain_stack (init : list cert) (cn : cert) (sig : bytes) : list bytes :=
  match init with
  | [] => [pack cn; [x00]; sig]
  | ci :: init' => pack ci :: [xff] :: chain_stack init' cn sig
  end.

Lemma chain_stack_length init cn sig : List.length (chain_stack init cn sig) = 2 * List.length init + 3.
Proof. induction init as [|ci init IH]; [reflexivity|]. cbn [chain_stack List.length]. rewrite IH. lia. Qed.

(* the arm that called the definition passes its verdict on *)
Lemma def_outcome_wrap (P U : Prop) T A r :
  outcome_spec P U r -> outcome_spec P U (ifelse_last_outcome T 75 (call_wrap A r)).
Proof.
  intro H. rewrite ifelse_last_outcome_call. apply outcome_spec_call; [exact stack_prop_cache|].
  exact (outcome_spec_call P U (fun s => with_cache s (cache_del (st_cache s) returned_key)) (fun _ => 5) A 5 r
           (fun _ => eq_refl) H).
Qed.

Section Chain.
Variable orc : oracle.
Variable cfg : config.
Hypothesis Hsize : 105 <= c_max_item_size cfg.
Variable fl : byte.
Variables ts thr : Z.
Hypothesis Hthr : flag_get (c_flags cfg) thr_key = Some (FVInt thr).
Notation sub f := (fun t s0 => run_tape orc cfg f t 0 s0).

(* the certificate is inside its window at ts and its signature verifies under the authorising key K *)
Definition cert_ok (K : bytes) (x : cert) : Prop :=
  ts_verdict cfg (be_to_Z (cb x)) ts thr = true /\
  ts_verdict cfg (be_to_Z (ce x)) ts thr = false /\
  exists r, orc PVerify [K; cpre (cD x) (cb x) (ce x) (ccan x); ccsig x] = OOk [r] /\ bytes_to_bool r = true.

Lemma cert_good_ok K x :
  cert_good orc cfg ts thr K (cD x) (cb x) (ce x) (ccan x) (ccsig x) = true <-> cert_ok K x.
Proof.
  unfold cert_good, cert_ok. rewrite !andb_true_iff, negb_true_iff, css_verdict_true. tauto.
Qed.

(* every certificate is good for the key that the previous one delegated to (the root for the first one);
   every certificate that is followed by another one has a non-zero can-delegate byte; Q holds of the key
   the last certificate delegates to *)
Fixpoint chain_pred (Q : bytes -> Prop) (K : bytes) (init : list cert) (cn : cert) : Prop :=
  match init with
  | [] => cert_ok K cn /\ Q (cD cn)
  | ci :: init' => cert_ok K ci /\ ccan ci <> x00 /\ chain_pred Q (cD ci) init' cn
  end.

Definition final_unmod (sig : bytes) (c0 : cache) (pk : bytes) : Prop :=
  exists m l, msg_of (sig_flag sig) c0 = Some m /\
              orc PVerify [pk; m; firstn 64 sig] = OOk l /\ List.length l <> 1.

Variable sig : bytes.
Hypothesis Lsig : List.length sig = 64 \/ List.length sig = 65.
Variable c0 : cache.

Notation accepts := (chain_pred (fun Dn => sig_accepts orc cfg Dn sig (b2z fl) c0)).
Notation unmod := (chain_pred (final_unmod sig c0)).

(* the closing OP_CHECK_SIG of the last activation *)
Lemma final_check run fr s Dn :
  st_stack s = [Dn; sig] -> List.length Dn = 32 -> 1 <= c_max_items cfg ->
  (forall g, msg_of g (st_cache s) = msg_of g c0) ->
  forall T A,
  outcome_spec (sig_accepts orc cfg Dn sig (b2z fl) c0) (final_unmod sig c0 Dn)
    (ifelse_last_outcome T 75
       (sig_wrap A (interp orc cfg run (check_sig_body (b2z fl)) fr (sigext_log cfg s)))).
Proof.
  intros Hs LD Hit Hmsg T A.
  pose proof (check_sig_closing orc cfg run (b2z fl) fr (sigext_log cfg s) Dn sig [] c0 Hs LD Lsig
                ltac:(unfold room; simpl; lia) (Hmsg _)) as H.
  destruct (interp orc cfg run (check_sig_body (b2z fl)) fr (sigext_log cfg s)) as [[] fr' st'|e fr' st'| |w];
    cbn [sig_wrap ifelse_last_outcome outcome_spec]; try exact H.
  destruct H as (_ & v & -> & Hv). exists v. split; [apply stack_prop_cache|exact Hv].
Qed.

(* a certificate where a signature is expected: OP_CHECK_SIG raises ValueError (105 bytes) *)
Lemma cert_as_sig run fr s Dk x tl T A :
  st_stack s = Dk :: pack x :: tl -> List.length Dk = 32 -> cert_wf x ->
  exists err fr' st',
    ifelse_last_outcome T 75
      (sig_wrap A (interp orc cfg run (check_sig_body (b2z fl)) fr (sigext_log cfg s))) = Raised err fr' st'.
Proof.
  intros Hs LD Hwf.
  rewrite (check_sig_body_exact orc cfg _ (b2z fl) _ (sigext_log cfg s) Dk (pack x) tl) by exact Hs.
  cbv zeta. unfold blen. rewrite LD, (pack_length x Hwf).
  change (Z.of_nat 32 =? 32)%Z with true. change ((Z.of_nat 105 =? 64) || (Z.of_nat 105 =? 65))%Z with false.
  cbn [negb sig_wrap ifelse_last_outcome]. eexists _, _, _. reflexivity.
Qed.

Lemma chain_stack_head init cn :
  Forall cert_wf init -> cert_wf cn ->
  exists x tl, chain_stack init cn sig = pack x :: tl /\ cert_wf x.
Proof.
  intros Hi Hn. destruct init as [|ci init].
  - exists cn, [[x00]; sig]. split; [reflexivity|exact Hn].
  - exists ci, ([xff] :: chain_stack init cn sig). split; [reflexivity|]. inversion Hi; assumption.
Qed.

Lemma ts_through_act c K D b e can csig :
  cache_get c ts_key = Some (VOne (AInt ts)) ->
  cache_get (act_cache c K D b e can csig) ts_key = Some (VOne (AInt ts)).
Proof. intro H. unfold act_cache. rewrite !cache_get_set_other by reflexivity. exact H. Qed.

Lemma msg_through_act c K D b e can csig g : msg_of g (act_cache c K D b e can csig) = msg_of g c.
Proof. unfold act_cache, kR, kS, kC, kE, kB, kD. rewrite !msg_of_set_bytes. reflexivity. Qed.

(* the activation of definition 0 (tape object T, call count c) with authorising key K on top of the stack the
   witness built for the certificates init ++ [cn]: every remaining certificate but the last costs one call
   level, so the run accepts only if they fit under the limit *)
Lemma chain_runs cn :
  cert_wf cn ->
  forall init K st T c g,
  Forall cert_wf init -> List.length K = 32 ->
  2 * List.length init + 5 <= c_max_items cfg ->
  (c <= c_limit cfg)%Z -> def_ready fl st T c ->
  st_stack st = K :: chain_stack init cn sig ->
  cache_get (st_cache st) ts_key = Some (VOne (AInt ts)) ->
  (forall f, msg_of f (st_cache st) = msg_of f c0) ->
  outcome_spec ((c + Z.of_nat (List.length init) <= c_limit cfg)%Z /\ accepts K init cn)
               ((c + Z.of_nat (List.length init) <= c_limit cfg)%Z /\ unmod K init cn)
    (run_tape orc cfg (31 * S (List.length init) + 1 + g) T 0 st).
Proof.
  intros Hwn. induction init as [|ci init IH]; intros K st T c g Hwf LK Hit Hle Hr Hst Hts Hmsg;
    pose proof Hr as (Hd & HT & Hc & Hdid & Hg).
  - (* the last certificate: `false` lies beneath it *)
    destruct Hwn as (L1 & L2 & L3 & L4).
    cbn [chain_stack] in Hst. rewrite pack_eq in Hst.
    change (31 * S (List.length (@nil cert)) + 1 + g) with (32 + g).
    pose proof (body_run orc cfg Hsize fl ts thr Hthr K (cD cn) (cb cn) (ce cn) (ccsig cn) [x00] (ccan cn) [sig]
                  LK L1 L2 L3 L4 ltac:(unfold fits; simpl; lia) ltac:(simpl in *; lia)
                  T st c Hd HT Hc Hdid Hg Hst Hts g) as H.
    cbn [chain_pred List.length]. rewrite Z.add_0_r.
    destruct (cert_good orc cfg ts thr K (cD cn) (cb cn) (ce cn) (ccan cn) (ccsig cn)) eqn:G.
    2:{ destruct H as (err & fr & st' & ->). cbn [outcome_spec].
        intros (_ & H & _). apply cert_good_ok in H. congruence. }
    apply cert_good_ok in G.
    rewrite H, and_false. change (bytes_to_bool [x00]) with false. cbv iota.
    eapply outcome_spec_iff.
    3:{ eapply final_check; [reflexivity|exact L1|lia|].
        intro f. cbn [st_cache with_stack]. unfold arm_start, sub_start, st28.
        cbn [st_cache with_stack with_cache with_tapes with_defs]. rewrite msg_through_act. apply Hmsg. }
    all: tauto.
  - (* a certificate followed by another one: `true` lies beneath it *)
    pose proof (Forall_inv Hwf) as Hwi. pose proof (Forall_inv_tail Hwf) as Hwf'.
    destruct Hwi as (L1 & L2 & L3 & L4).
    cbn [chain_stack] in Hst. rewrite pack_eq in Hst.
    cbn [List.length] in *. rewrite Nat2Z.inj_succ.
    replace (31 * S (S (List.length init)) + 1 + g) with (32 + (31 * S (List.length init) + g)) by lia.
    assert (Hrest : List.length (chain_stack init cn sig) + 4 <= c_max_items cfg)
      by (rewrite chain_stack_length; lia).
    pose proof (body_run orc cfg Hsize fl ts thr Hthr K (cD ci) (cb ci) (ce ci) (ccsig ci) [xff] (ccan ci)
                  (chain_stack init cn sig)
                  LK L1 L2 L3 L4 ltac:(unfold fits; simpl; lia) Hrest
                  T st c Hd HT Hc Hdid Hg Hst Hts (31 * S (List.length init) + g)) as H.
    cbn [chain_pred].
    destruct (cert_good orc cfg ts thr K (cD ci) (cb ci) (ce ci) (ccan ci) (ccsig ci)) eqn:G.
    2:{ destruct H as (err & fr & st' & ->). cbn [outcome_spec].
        intros (_ & H & _). apply cert_good_ok in H. congruence. }
    apply cert_good_ok in G.
    rewrite H, and_true, bool_of_byte. clear H.
    destruct (Byte.eqb (ccan ci) x00) eqn:Ecan; cbn [negb].
    + (* can-delegate byte 00: CHECK_SIG is given the next certificate as signature *)
      apply byte_eqb_eq in Ecan.
      destruct (chain_stack_head init cn Hwf' Hwn) as (x & tl & Ex & Wx).
      edestruct (cert_as_sig (sub (S (31 * S (List.length init) + g)))
                   {| fr_tid := List.length (st_tapes st); fr_ptr := 5 |}
                   (with_stack (arm_start st T K (cD ci) (cb ci) (ce ci) (ccsig ci) [xff] (ccan ci)
                                  (chain_stack init cn sig) (sig_arm fl))
                               (cD ci :: chain_stack init cn sig))
                   (cD ci) x tl T (List.length (st_tapes st))) as (err & fr' & st' & E).
      * cbn [st_stack with_stack]. rewrite Ex. reflexivity.
      * exact L1.
      * exact Wx.
      * rewrite E. cbn [outcome_spec]. intros (_ & _ & H & _). contradiction.
    + assert (Hnz : ccan ci <> x00) by (intro E; rewrite E in Ecan; discriminate).
      destruct (c <? c_limit cfg)%Z eqn:Hlim.
      2:{ (* no call level left *)
          apply Z.ltb_ge in Hlim. cbn [ifelse_last_outcome outcome_spec]. lia. }
      apply Z.ltb_lt in Hlim.
      apply def_outcome_wrap.
      replace (S (31 * S (List.length init) + g)) with (31 * S (List.length init) + 1 + g) by lia.
      eapply outcome_spec_iff.
      3:{ apply (IH (cD ci) _ T (c + 1)%Z g Hwf' L1); [lia|lia| |apply next_state_stack| |].
          - exact (next_state_facts fl K (cD ci) (cb ci) (ce ci) (ccsig ci) [xff] (ccan ci)
                     (chain_stack init cn sig) T st c Hd HT Hc Hdid Hg).
          - rewrite next_state_cache. apply ts_through_act. exact Hts.
          - intro f. rewrite next_state_cache, msg_through_act. apply Hmsg. }
      all: replace (c + 1 + Z.of_nat (List.length init))%Z with (c + Z.succ (Z.of_nat (List.length init)))%Z by lia;
           tauto.
Qed.

End Chain.

Definition push_flagged (s : list bytes) (x : bytes) : list bytes := x :: [xff] :: s.

Lemma witness_stack_is_chain_stack init cn sig :
  fold_left push_flagged (map pack (rev init)) [pack cn; [x00]; sig] = chain_stack init cn sig.
Proof.
  induction init as [|ci init IH]; [reflexivity|].
  cbn [rev chain_stack]. rewrite map_app, fold_left_app. cbn [map fold_left]. rewrite IH. reflexivity.
Qed.

Section Whole.
Variable orc : oracle.
Variable cfg : config.
Hypothesis Hsize : 105 <= c_max_item_size cfg.
Variable fl : byte.
Variables ts thr : Z.
Hypothesis Hthr : flag_get (c_flags cfg) thr_key = Some (FVInt thr).
Notation sub f := (fun t s0 => run_tape orc cfg f t 0 s0).

(* "true ; push x" repeated *)
Lemma true_push_steps tid : forall (cs : list bytes) st s,
  (forall v, In v cs -> List.length v < 256 /\ fits cfg v) ->
  st_stack st = s -> List.length s + 2 * List.length cs <= c_max_items cfg ->
  runs orc cfg (2 * List.length cs) tid (flat_map (fun x => x01 :: push1_bytes x) cs) st
       (with_stack st (fold_left push_flagged cs s)).
Proof.
  induction cs as [|v cs IH]; intros st s Hv Hs Hsp.
  - cbn [fold_left]. rewrite <- Hs, with_stack_same. apply runs_nil.
  - destruct (Hv v (or_introl eq_refl)) as [Hl Hf]. cbn [List.length] in Hsp.
    replace (2 * List.length (v :: cs)) with (1 + (1 + 2 * List.length cs)) by (cbn [List.length]; lia).
    apply (runs_app (a := [x01]) (st1 := with_stack st ([xff] :: s))).
    { apply true_runs; [exact Hs|unfold room; lia]. }
    apply (runs_app (a := push1_bytes v) (st1 := with_stack st (v :: [xff] :: s))).
    { rewrite <- (with_stack_twice st ([xff] :: s) (v :: [xff] :: s)).
      apply push1_runs; [exact Hl|reflexivity|exact Hf|unfold space; cbn [List.length]; lia]. }
    change (fold_left push_flagged (v :: cs) s) with (fold_left push_flagged cs (v :: [xff] :: s)).
    rewrite <- (with_stack_twice st (v :: [xff] :: s) (fold_left push_flagged cs (v :: [xff] :: s))).
    apply IH; [intros v' Hv'; apply Hv; right; exact Hv'|reflexivity|cbn [List.length]; lia].
Qed.

Lemma chain_witness_runs f sig c0 cs vals :
  (List.length sig = 64 \/ List.length sig = 65) ->
  List.length c0 < 256 -> fits cfg c0 ->
  (forall v, In v cs -> List.length v < 256 /\ fits cfg v) ->
  3 + 2 * List.length cs <= c_max_items cfg ->
  exists fr,
  run_script orc cfg (4 + 2 * List.length cs + f) (delegate_key_chain_witness sig c0 cs) vals =
    Done tt fr (with_stack (init_state cfg (delegate_key_chain_witness sig c0 cs) vals)
                           (fold_left push_flagged cs [c0; [x00]; sig])).
Proof.
  intros Ls L0 F0 Hv Hit. eexists.
  apply (script_runs orc cfg (1 + (1 + (1 + 2 * List.length cs)))); [|lia].
  rewrite chain_witness_bytes.
  set (st0 := init_state cfg _ vals).
  apply (runs_app (st1 := with_stack st0 [sig])).
  { apply push1_runs; [lia|reflexivity|unfold fits; lia|unfold space; simpl; lia]. }
  apply (runs_app (st1 := with_stack st0 [[x00]; sig])).
  { rewrite <- (with_stack_twice st0 [sig] [[x00]; sig]). apply false_runs; [reflexivity|unfold room; simpl; lia]. }
  apply (runs_app (st1 := with_stack st0 [c0; [x00]; sig])).
  { rewrite <- (with_stack_twice st0 [[x00]; sig] [c0; [x00]; sig]).
    apply push1_runs; [exact L0|reflexivity|exact F0|unfold space; simpl; lia]. }
  rewrite <- (with_stack_twice st0 [c0; [x00]; sig] (fold_left push_flagged cs [c0; [x00]; sig])).
  apply true_push_steps; [exact Hv|reflexivity|simpl; blia].
Qed.

Variable sig : bytes.
Hypothesis Lsig : List.length sig = 64 \/ List.length sig = 65.
Variable c0 : cache.
Variable root : bytes.
Hypothesis LR : List.length root = 32.

Notation accepts := (chain_pred orc cfg ts thr (fun Dn => sig_accepts orc cfg Dn sig (b2z fl) c0)).
Notation unmod := (chain_pred orc cfg ts thr (final_unmod orc sig c0)).

(* def 0 { ... } ; push root ; call d0   run as tape object L (call count c) on the stack [stack]: with a call
   level left, the outcome is that of definition 0 (a new tape object T holding the 75 body bytes, bound to
   handle 0 in the definition table of L) started with the call count c + 1 on root :: stack *)
Lemma lock_to_def (P U : Prop) (stack : list bytes) F L st c :
  tdata st L = delegate_key_chain_lock root fl -> L < List.length (st_tapes st) ->
  to_count (nth_tape st L) = c ->
  to_defs (nth_tape st L) < List.length (st_defs st) ->
  st_stack st = stack -> List.length stack < c_max_items cfg ->
  ((c_limit cfg <= c)%Z -> ~ P) ->
  ((c < c_limit cfg)%Z ->
   forall s3 T,
     def_ready fl s3 T (c + 1) -> st_stack s3 = root :: stack -> st_cache s3 = st_cache st ->
     outcome_spec P U (run_tape orc cfg (S F) T 0 s3)) ->
  outcome_spec P U (run_tape orc cfg (S (S (S (S F)))) L 0 st).
Proof.
  intros Hd HL Hc Hdid Hst Hsp Hover Hcallee.
  rewrite chain_lock_bytes in Hd.
  set (body := body_bytes fl) in *.
  set (T := List.length (st_tapes st)).
  (* DEF 0 *)
  rewrite (runs1_at (p := 0) (rest := push1_bytes root ++ [x2a; x00]) (def_runs orc cfg L st x00 body HL eq_refl)
             Hd eq_refl).
  change (0 + List.length (x29 :: x00 :: len2 body ++ body)) with 79.
  set (s1 := def_state st L x00 body).
  assert (Hold : nth_tape s1 L = nth_tape st L) by exact (def_state_old st L x00 body L HL).
  assert (Hd1 : tdata s1 L = lock_hdr ++ body ++ push1_bytes root ++ [x2a; x00]).
  { unfold tdata. rewrite Hold. exact Hd. }
  (* PUSH1 root *)
  assert (Hp1 : skipn 79 (lock_hdr ++ body ++ push1_bytes root ++ [x2a; x00]) = push1_bytes root ++ [x2a; x00])
    by reflexivity.
  rewrite (runs1_at (code := push1_bytes root) (push1_runs orc cfg L s1 root stack ltac:(lia) Hst ltac:(unfold fits; lia) Hsp) Hd1 Hp1).
  set (s2 := with_stack s1 (root :: stack)).
  (* CALL 0 *)
  assert (HL2 : L < List.length (st_tapes s2)).
  { change (st_tapes s2) with (st_tapes s1). unfold s1. rewrite def_state_length. lia. }
  assert (Hg2 : defs_get (nth_defs s2 (to_defs (nth_tape s2 L))) x00 = Some T).
  { change (nth_tape s2 L) with (nth_tape s1 L). rewrite Hold.
    change (nth_defs s2 (to_defs (nth_tape st L))) with (nth_defs s1 (to_defs (nth_tape st L))).
    unfold s1. rewrite def_state_defs by exact Hdid. apply defs_get_put_same. }
  rewrite (op_call_last orc cfg F L _ s2 _ x00 T c Hd1 (skipn_app_r 79 _ _ _ Hp1) HL2
             ltac:(change (nth_tape s2 L) with (nth_tape s1 L); rewrite Hold; exact Hc) Hg2).
  destruct (Z.ltb_spec c (c_limit cfg)) as [Hlim|Hlim]; [|exact (Hover Hlim)].
  set (s3 := set_count (set_count s2 L (c + 1)) T (c + 1)).
  assert (HT2 : T < List.length (st_tapes s2)).
  { change (st_tapes s2) with (st_tapes s1). unfold s1. rewrite def_state_length. unfold T. lia. }
  assert (H3 : nth_tape s3 T = {| to_data := body; to_count := (c + 1)%Z; to_defs := to_defs (nth_tape st L) |}).
  { unfold s3. rewrite nth_tape_set_count_same by (rewrite set_count_length; exact HT2).
    rewrite nth_tape_set_count_other by (unfold T; lia).
    change (nth_tape s2 T) with (nth_tape s1 T). unfold s1, T. rewrite def_state_new. reflexivity. }
  assert (R' : outcome_spec P U (run_tape orc cfg (S F) T 0 s3)).
  { apply (Hcallee Hlim); [|reflexivity|reflexivity].
    unfold def_ready, tdata. rewrite H3. cbn [to_data to_count to_defs].
    split; [reflexivity|]. split; [unfold s3; rewrite !set_count_length; exact HT2|]. split; [reflexivity|].
    split.
    - unfold s3, s2, s1, def_state.
      cbn [st_defs set_count with_stack with_defs with_tapes]. rewrite list_set_length. exact Hdid.
    - change (nth_defs s3 (to_defs (nth_tape st L))) with (nth_defs s1 (to_defs (nth_tape st L))).
      unfold s1. rewrite def_state_defs by exact Hdid. apply defs_get_put_same. }
  destruct (run_tape orc cfg (S F) T 0 s3) as [[] fr' st'|e fr' st'| |w]; exact R'.
Qed.

Lemma chain_lock_runs init cn g L st c :
  Forall cert_wf init -> cert_wf cn ->
  2 * List.length init + 5 <= c_max_items cfg ->
  tdata st L = delegate_key_chain_lock root fl -> L < List.length (st_tapes st) ->
  to_count (nth_tape st L) = c ->
  to_defs (nth_tape st L) < List.length (st_defs st) ->
  st_stack st = chain_stack init cn sig ->
  cache_get (st_cache st) ts_key = Some (VOne (AInt ts)) ->
  (forall f, msg_of f (st_cache st) = msg_of f c0) ->
  outcome_spec ((c + 1 + Z.of_nat (List.length init) <= c_limit cfg)%Z /\ accepts root init cn)
               ((c + 1 + Z.of_nat (List.length init) <= c_limit cfg)%Z /\ unmod root init cn)
    (run_tape orc cfg (31 * S (List.length init) + 4 + g) L 0 st).
Proof.
  intros Hwf Hwn Hit Hd HL Hc Hdid Hst Hts Hmsg.
  replace (31 * S (List.length init) + 4 + g) with (S (S (S (S (31 * S (List.length init) + g))))) by lia.
  apply (lock_to_def _ _ (chain_stack init cn sig) _ L st c Hd HL Hc Hdid Hst).
  - rewrite chain_stack_length. lia.
  - lia.
  - intros Hlim s3 T Hr Hs3 Hc3.
    replace (S (31 * S (List.length init) + g)) with (31 * S (List.length init) + 1 + g) by lia.
    apply (chain_runs orc cfg Hsize fl ts thr Hthr sig Lsig c0 cn Hwn init root s3 T (c + 1)%Z g Hwf LR Hit
             ltac:(lia) Hr Hs3).
    + rewrite Hc3. exact Hts.
    + intro f. rewrite Hc3. apply Hmsg.
Qed.

End Whole.

Section Main.
Variable orc : oracle.
Variable cfg : config.
Hypothesis Hsize : 105 <= c_max_item_size cfg.
Variable fl : byte.
Variables ts thr : Z.
Hypothesis Hthr : flag_get (c_flags cfg) thr_key = Some (FVInt thr).
Variable sig : bytes.
Hypothesis Lsig : List.length sig = 64 \/ List.length sig = 65.
Variable root : bytes.
Hypothesis LR : List.length root = 32.

(* acceptance condition / the only way to leave the model, for the cache c0 the scripts start with *)
Definition chain_accepts (c0 : cache) : list cert -> cert -> Prop :=
  chain_pred orc cfg ts thr (fun Dn => sig_accepts orc cfg Dn sig (b2z fl) c0) root.
Definition chain_unmod (c0 : cache) : list cert -> cert -> Prop :=
  chain_pred orc cfg ts thr (final_unmod orc sig c0) root.

(* The pair (witness of make_delegate_key_chain_witness, lock of make_delegate_key_chain_lock) for a chain of
   n = length init + 1 certificates: every outcome.  [init] are the certificates that are followed by another
   one, in the order in which the lock consumes them (the first is signed by the root); [cn] is the last one
   (it authorises the key that signed [sig]).  One OP_CALL per certificate: the chain is accepted only if
   n <= callstack_limit.  Room for 2n + 3 stack items. *)
Theorem chain_lock_verdict init cn f vals :
  Forall cert_wf init -> cert_wf cn ->
  2 * S (List.length init) + 3 <= c_max_items cfg ->
  cache_get (init_cache cfg vals) ts_key = Some (VOne (AInt ts)) ->
  verdict_spec
    (run_auth_scripts orc cfg (31 * S (List.length init) + 4 + f)
       [delegate_key_chain_witness sig (pack cn) (map pack (rev init)); delegate_key_chain_lock root fl] vals)
    ((Z.of_nat (S (List.length init)) <= c_limit cfg)%Z /\ chain_accepts (init_cache cfg vals) init cn)
    ((Z.of_nat (S (List.length init)) <= c_limit cfg)%Z /\ chain_unmod (init_cache cfg vals) init cn).
Proof.
  intros Hwf Hwn Hit Hts. unfold chain_accepts, chain_unmod.
  destruct (chain_witness_runs orc cfg Hsize (29 * List.length init + 31 + f) sig (pack cn) (map pack (rev init)) vals Lsig)
    as [fr0 Hw].
  { rewrite pack_length by exact Hwn. lia. }
  { unfold fits. rewrite pack_length by exact Hwn. lia. }
  { intros v Hv. apply in_map_iff in Hv. destruct Hv as (x & <- & Hx). apply in_rev in Hx.
    rewrite Forall_forall in Hwf. unfold fits. rewrite (pack_length x (Hwf x Hx)). split; lia. }
  { rewrite map_length, rev_length. lia. }
  rewrite map_length, rev_length, witness_stack_is_chain_stack in Hw.
  replace (4 + 2 * List.length init + (29 * List.length init + 31 + f)) with (31 * S (List.length init) + 4 + f)
    in Hw by lia.
  rewrite (auth_two orc cfg _ _ _ vals _ _ Hw).
  match type of Hw with _ = Done _ _ ?s => set (st1 := s) in * end.
  pose proof (next_start_tdata st1 0 (delegate_key_chain_lock root fl)) as Hd.
  pose proof (next_start_msg st1 0 (delegate_key_chain_lock root fl)) as Hm.
  apply finish_spec. rewrite Nat2Z.inj_succ, <- Z.add_1_l.
  apply (chain_lock_runs orc cfg Hsize fl ts thr Hthr sig Lsig (init_cache cfg vals) root LR init cn f _ _ 0%Z Hwf Hwn
           ltac:(lia) Hd).
  - unfold next_start. cbn [fst snd st_tapes with_cache with_tapes]. rewrite app_length. simpl. lia.
  - reflexivity.
  - simpl. lia.
  - reflexivity.
  - change (st_cache (snd (next_start st1 0 (delegate_key_chain_lock root fl))))
      with (cache_del (init_cache cfg vals) returned_key).
    rewrite cache_get_del_other by reflexivity. exact Hts.
  - exact Hm.
Qed.

Theorem chain_lock_exact init cn f vals :
  Forall cert_wf init -> cert_wf cn ->
  2 * S (List.length init) + 3 <= c_max_items cfg ->
  (Z.of_nat (S (List.length init)) <= c_limit cfg)%Z ->
  cache_get (init_cache cfg vals) ts_key = Some (VOne (AInt ts)) ->
  match run_auth_scripts orc cfg (31 * S (List.length init) + 4 + f)
          [delegate_key_chain_witness sig (pack cn) (map pack (rev init)); delegate_key_chain_lock root fl] vals with
  | AuthVerdict v _ => v = true <-> chain_accepts (init_cache cfg vals) init cn
  | AuthFuel => False
  | AuthUnmod _ => chain_unmod (init_cache cfg vals) init cn
  end.
Proof.
  intros Hwf Hwn Hit Hbud Hts.
  refine (verdict_spec_iff _ _ _ _ _ _ _ (chain_lock_verdict init cn f vals Hwf Hwn Hit Hts)); tauto.
Qed.
Corollary chain_lock_true_iff init cn f vals :
  Forall cert_wf init -> cert_wf cn ->
  2 * S (List.length init) + 3 <= c_max_items cfg ->
  (Z.of_nat (S (List.length init)) <= c_limit cfg)%Z ->
  cache_get (init_cache cfg vals) ts_key = Some (VOne (AInt ts)) ->
  ((exists stf, run_auth_scripts orc cfg (31 * S (List.length init) + 4 + f)
       [delegate_key_chain_witness sig (pack cn) (map pack (rev init)); delegate_key_chain_lock root fl] vals
       = AuthVerdict true stf)
   <-> chain_accepts (init_cache cfg vals) init cn).
Proof.
  intros Hwf Hwn Hit Hbud Hts. pose proof (chain_lock_exact init cn f vals Hwf Hwn Hit Hbud Hts) as H.
  destruct (run_auth_scripts orc cfg _ _ vals) as [v st| |w].
  - split.
    + intros (stf & E). injection E as -> _. apply H. reflexivity.
    + intro Ha. apply H in Ha. subst v. exists st. reflexivity.
  - contradiction.
  - split; [intros (stf & E); discriminate|].
    unfold chain_accepts, chain_unmod in *. revert H. generalize root.
    induction init as [|ci init IH]; intros K; cbn [chain_pred].
    + intros (_ & m' & l & Hm' & Ho' & Hl) (_ & _ & m & x & Hm & _ & Ho & _).
      rewrite Hm in Hm'. injection Hm' as <-. rewrite Ho in Ho'. injection Ho' as <-. simpl in Hl. congruence.
    + intros (_ & _ & H1) (_ & _ & H2). pose proof (Forall_inv_tail Hwf) as Hwf'.
      apply (IH Hwf' ltac:(cbn [List.length] in *; lia) ltac:(cbn [List.length] in *; lia) (cD ci) H1 H2).
Qed.

(* n = 1: one certificate (signed by the root), `false` beneath it *)
Corollary chain_lock_exact_1 cn f vals :
  cert_wf cn -> 5 <= c_max_items cfg -> (1 <= c_limit cfg)%Z ->
  cache_get (init_cache cfg vals) ts_key = Some (VOne (AInt ts)) ->
  match run_auth_scripts orc cfg (35 + f)
          [delegate_key_chain_witness sig (pack cn) []; delegate_key_chain_lock root fl] vals with
  | AuthVerdict v _ =>
      v = true <-> cert_ok orc cfg ts thr root cn /\ sig_accepts orc cfg (cD cn) sig (b2z fl) (init_cache cfg vals)
  | AuthFuel => False
  | AuthUnmod _ => cert_ok orc cfg ts thr root cn /\ final_unmod orc sig (init_cache cfg vals) (cD cn)
  end.
Proof.
  intros Hwn Hit Hbud Hts.
  exact (chain_lock_exact [] cn f vals (Forall_nil _) Hwn Hit Hbud Hts).
Qed.

(* n = 2: c1 signed by the root delegates to D1 = cD c1; c2 signed by D1 delegates to the signer of sig *)
Corollary chain_lock_exact_2 c1 c2 f vals :
  cert_wf c1 -> cert_wf c2 -> 7 <= c_max_items cfg -> (2 <= c_limit cfg)%Z ->
  cache_get (init_cache cfg vals) ts_key = Some (VOne (AInt ts)) ->
  match run_auth_scripts orc cfg (66 + f)
          [delegate_key_chain_witness sig (pack c2) [pack c1]; delegate_key_chain_lock root fl] vals with
  | AuthVerdict v _ =>
      v = true <-> cert_ok orc cfg ts thr root c1 /\ ccan c1 <> x00 /\
                   cert_ok orc cfg ts thr (cD c1) c2 /\
                   sig_accepts orc cfg (cD c2) sig (b2z fl) (init_cache cfg vals)
  | AuthFuel => False
  | AuthUnmod _ => cert_ok orc cfg ts thr root c1 /\ ccan c1 <> x00 /\
                   cert_ok orc cfg ts thr (cD c1) c2 /\ final_unmod orc sig (init_cache cfg vals) (cD c2)
  end.
Proof.
  intros Hw1 Hw2 Hit Hbud Hts.
  exact (chain_lock_exact [c1] c2 f vals (Forall_cons _ Hw1 (Forall_nil _)) Hw2 Hit Hbud Hts).
Qed.

End Main.

(* toy signature scheme: key i = 32 bytes i; a signature by key i = 64 bytes i (any message) *)
Definition dk_orc : oracle := fun p args =>
  match p, args with
  | PVerify, [k; m; s] => OOk [[if Byte.eqb (hd x00 k) (hd x00 s) then x01 else x00]]
  | _, _ => OErr OtherError
  end.
Definition dk_cfg (limit : Z) : config :=
  {| c_max_items := 1024; c_max_item_size := 1024; c_limit := limit;
     c_flags := [(thr_key, FVInt 60)]; c_sigext := []; c_ctplugins := []; c_contracts := []; c_now := 100 |}.
Definition dk_key (i : byte) : bytes := repeat i 32.
Definition dk_sig (i : byte) : bytes := repeat i 64.
(* certificate signed by key i for key j, valid from 50 to 200 (the cache timestamp is c_now = 100) *)
Definition dk_cert (i j can : byte) : cert :=
  {| cD := dk_key j; cb := [x00;x00;x00;x32]; ce := [x00;x00;x00;xc8]; ccan := can; ccsig := dk_sig i |}.
Definition dk_verdict (r : auth_result) : option bool :=
  match r with AuthVerdict v _ => Some v | _ => None end.
(* root = key 1; certs in the order of make_delegate_key_chain_witness (the root-signed one last) *)
Definition dk_run (limit : Z) (sig c0 : bytes) (cs : list bytes) : option bool :=
  dk_verdict (run_auth_scripts dk_orc (dk_cfg limit) 200
                [delegate_key_chain_witness sig c0 cs; delegate_key_chain_lock (dk_key x01) x00] []).

(* sanity: root 1 -> key 2 -> key 3, key 3 signs *)
Example dk_chain2_accepted :
  dk_run 128 (dk_sig x03) (pack (dk_cert x02 x03 xff)) [pack (dk_cert x01 x02 xff)] = Some true.
Proof. vm_compute. reflexivity. Qed.
Example dk_chain2_wrong_signer :
  dk_run 128 (dk_sig x04) (pack (dk_cert x02 x03 xff)) [pack (dk_cert x01 x02 xff)] = Some false.
Proof. vm_compute. reflexivity. Qed.
Example dk_chain2_broken_link :
  dk_run 128 (dk_sig x03) (pack (dk_cert x04 x03 xff)) [pack (dk_cert x01 x02 xff)] = Some false.
Proof. vm_compute. reflexivity. Qed.

(* the can-delegate byte of the LAST certificate is never tested (`false` lies beneath it): a terminal
   certificate (can = 00) authorises the signature of its own delegate *)
Example dk_last_can_ignored :
  dk_run 128 (dk_sig x03) (pack (dk_cert x02 x03 x00)) [pack (dk_cert x01 x02 xff)] = Some true /\
  dk_run 128 (dk_sig x02) (pack (dk_cert x01 x02 x00)) [] = Some true.
Proof. vm_compute. split; reflexivity. Qed.

(* a NON-final certificate with can = 00: the lock falls to CHECK_SIG with the next certificate in the
   place of the signature (105 bytes: ValueError) -> rejected, so a terminal certificate cannot delegate *)
Example dk_terminal_cannot_delegate :
  dk_run 128 (dk_sig x03) (pack (dk_cert x02 x03 xff)) [pack (dk_cert x01 x02 x00)] = Some false.
Proof. vm_compute. reflexivity. Qed.

(* can bytes other than 00 / ff: `can AND true` is truthy for every non-zero byte, so the lock lets the
   delegate of such a certificate delegate further, while Certificate.unpack (BuilderSpecC14.cert_unpack)
   reads the same certificate as can_further_delegate = False (it tests == 0xff) *)
Example dk_can_01_delegates :
  dk_run 128 (dk_sig x03) (pack (dk_cert x02 x03 xff)) [pack (dk_cert x01 x02 x01)] = Some true /\
  (exists D b e cs, cert_unpack (pack (dk_cert x01 x02 x01)) = Some (D, b, e, false, cs)).
Proof. split; [vm_compute; reflexivity|]. vm_compute. eexists _, _, _, _. reflexivity. Qed.

(* the budget: a chain of n certificates needs n <= callstack_limit (one OP_CALL per certificate) *)
Example dk_budget :
  dk_run 2 (dk_sig x03) (pack (dk_cert x02 x03 xff)) [pack (dk_cert x01 x02 xff)] = Some true /\
  dk_run 1 (dk_sig x03) (pack (dk_cert x02 x03 xff)) [pack (dk_cert x01 x02 xff)] = Some false /\
  dk_run 1 (dk_sig x02) (pack (dk_cert x01 x02 xff)) [] = Some true /\
  dk_run 0 (dk_sig x02) (pack (dk_cert x01 x02 xff)) [] = Some false.
Proof. vm_compute. repeat split; reflexivity. Qed.

(* the recursive activation overwrites the cache keys r s c e b d (one cache for all activations); every
   activation reads them only after its own writes, and nothing is read after the recursive call returns,
   so this is harmless: after the run the keys hold the values of the LAST activation *)
Definition dk_final_cache (sig c0 : bytes) (cs : list bytes) (k : ckey) : option cval :=
  match run_auth_scripts dk_orc (dk_cfg 128) 200
          [delegate_key_chain_witness sig c0 cs; delegate_key_chain_lock (dk_key x01) x00] [] with
  | AuthVerdict _ st => cache_get (st_cache st) k
  | _ => None
  end.
Example dk_cache_overwritten :
  let c0 := pack (dk_cert x02 x03 xff) in let cs := [pack (dk_cert x01 x02 xff)] in
  dk_final_cache (dk_sig x03) c0 cs kR = Some (one (dk_key x02)) /\
  dk_final_cache (dk_sig x03) c0 cs kD = Some (one (dk_key x03)) /\
  dk_final_cache (dk_sig x03) c0 cs kS = Some (one (dk_sig x02)).
Proof. vm_compute. repeat split; reflexivity. Qed.

(* the flag beneath a certificate is chosen by the witness, not signed: it cannot turn a rejected chain
   into an accepted one.  `true` beneath the last certificate makes the lock read the signature as a
   certificate; the witness of the SINGLE-certificate lock (no flag at all) is rejected as well *)
Definition dk_run_raw (w : bytes) : option bool :=
  dk_verdict (run_auth_scripts dk_orc (dk_cfg 128) 200 [w; delegate_key_chain_lock (dk_key x01) x00] []).
Example dk_flag_lies :
  dk_run_raw (encode [P1 (dk_sig x02); IOp0 O_TRUE; P1 (pack (dk_cert x01 x02 xff))]) = Some false /\
  dk_run_raw (delegate_key_witness (dk_sig x02) (pack (dk_cert x01 x02 xff))) = Some false.
Proof. vm_compute. split; reflexivity. Qed.

(* the witness bytes, against the real builder:
   sk_i = SigningKey(bytes([i])*32); c1 = make_delegate_key_cert(sk_1, vk_2, 1, 2**31-1);
   c2 = make_delegate_key_cert(sk_2, vk_3, 1, 2**31-1, False);
   make_delegate_key_chain_witness(sk_3, [c2, c1], {'sigfield1': b'hello'}).bytes.hex() *)
Example chain_witness_bytes_real :
  delegate_key_chain_witness
    (of_hex "5a9f2ac8aecbd4356c229f2880cd8755909e4ba3cf341a1fea463a3eedf306df92374d2141d5dea702bb2c3c9354531ee3776ac0d8f166c833fea7d8f0114c06")
    (of_hex "ed4928c628d1c2c6eae90338905995612959273a5c63f93636c14614ac8737d1000000017fffffff00d1736f63c237ac4c4a12adeb6c100ce07b918025abddb964a428131678c60a5662637937a97e810307efa657387db8bc37b70ba5f57b0a7b9fd717385e675d0b")
    [of_hex "8139770ea87d175f56a35466c34c7ecccb8d8a91b4ee37a25df60f5b8fc9b394000000017ffffffffffadcc6de00025e89c23575019ba9ae18c4ba7dd850b50ff3a7d58f787d36a3738ab828be9ec5e58ab6c013614253d6705e1f19d4c1e0c795df99570aa38d7208"]
  = of_hex "03405a9f2ac8aecbd4356c229f2880cd8755909e4ba3cf341a1fea463a3eedf306df92374d2141d5dea702bb2c3c9354531ee3776ac0d8f166c833fea7d8f0114c06000369ed4928c628d1c2c6eae90338905995612959273a5c63f93636c14614ac8737d1000000017fffffff00d1736f63c237ac4c4a12adeb6c100ce07b918025abddb964a428131678c60a5662637937a97e810307efa657387db8bc37b70ba5f57b0a7b9fd717385e675d0b0103698139770ea87d175f56a35466c34c7ecccb8d8a91b4ee37a25df60f5b8fc9b394000000017ffffffffffadcc6de00025e89c23575019ba9ae18c4ba7dd850b50ff3a7d58f787d36a3738ab828be9ec5e58ab6c013614253d6705e1f19d4c1e0c795df99570aa38d7208".
Proof. vm_compute. reflexivity. Qed.

Print Assumptions chain_lock_bytes_real.
Print Assumptions chain_witness_bytes_real.
Print Assumptions body_step.
Print Assumptions body_step_over_budget.
Print Assumptions next_state_facts.
Print Assumptions chain_runs.
Print Assumptions chain_lock_runs.
Print Assumptions chain_lock_exact_1.
Print Assumptions chain_lock_exact_2.
Print Assumptions chain_lock_exact.
Print Assumptions chain_lock_true_iff.
Print Assumptions dk_last_can_ignored.
Print Assumptions dk_terminal_cannot_delegate.
Print Assumptions dk_can_01_delegates.
Print Assumptions dk_budget.
Print Assumptions dk_cache_overwritten.
Print Assumptions dk_flag_lies.
