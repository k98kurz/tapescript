(* C01 / C06: what OP_RETURN ends — the exact semantics of OP_RETURN and of its propagation through the
   block instructions, as equations about [interp] for an arbitrary runner [run] (the parameter through
   which the block instructions execute their bodies).

   Discipline.v proves the *discipline* of the control flag (no stale flag).  This file is the positive
   statement: what each instruction does with a RETURN that happened inside its body.

     OP_RETURN                 pointer of the current tape to its end, flag set, nothing else changes
     OP_IF / OP_IF_ELSE        HAND ON  (pointer of the enclosing tape to its end, flag set again)
     OP_TRY_EXCEPT             HAND ON, from the TRY body and from the EXCEPT body alike
     OP_CALL / OP_LOOP         ABSORB   (flag deleted, pointer just after the instruction)
     OP_EVAL (eval_body)       ABSORB, or HAND ON when the flag 'eval_return' of the configuration is on
     whole scripts             the bytes behind an IF { RETURN } / TRY { fails } EXCEPT { RETURN } never run *)
From Coq Require Import ZArith List Bool Lia.
From Coq.Strings Require Import Byte String.
From TS Require Import Bytes State Prog Ops Interp StateLemmas InterpLemmas NopSpec StackLemmas
  BytesLemmas TimeSpec TapeLemmas Asm BuilderSpecC15 Pointer Discipline TablesCheck.
Import ListNotations.
Local Open Scope nat_scope.

(* the control flag is in the cache (Discipline.flag_clear is its negation) *)
Definition returned (st : state) : Prop := cache_get (st_cache st) returned_key <> None.

(* the test made by AReturnedTest *)
Definition flagged (st : state) : bool :=
  match cache_get (st_cache st) returned_key with Some _ => true | None => false end.

(* cache['returned'] = True / del cache['returned'] *)
Definition set_flag (st : state) : state :=
  with_cache st (cache_set (st_cache st) returned_key (VOne (ABool true))).
Definition clear_flag (st : state) : state :=
  with_cache st (cache_del (st_cache st) returned_key).

(* the frame [fr] with its pointer moved to the end of its tape, as the tape is in [st] *)
Definition end_of (fr : frame) (st : state) : frame :=
  {| fr_tid := fr_tid fr; fr_ptr := List.length (to_data (nth_tape st (fr_tid fr))) |}.

(* what propagate_return does in the frame of the block instruction *)
Definition hand_on (fr : frame) (st : state) : outcome unit :=
  if flagged st then Done tt (end_of fr st) (set_flag st) else Done tt fr st.

(* a block instruction standing in frame [fr], seen after its body ended with outcome [o] *)
Definition after_body (fr : frame) (o : outcome unit) : outcome unit :=
  match o with
  | Done _ _ st' => hand_on fr st'
  | Raised e _ st' => Raised e fr st'
  | OutOfFuel => OutOfFuel
  | Unmodelled w => Unmodelled w
  end.

(* operand bytes of OP_IF / OP_LOOP (OP_IF_ELSE / OP_TRY_EXCEPT: BuilderSpecC15.ifelse_ops) *)
Definition block_ops (body : bytes) : bytes := len2 body ++ body.

(* the state in which the body of OP_EVAL starts: as sub_start, the call count one higher *)
Definition eval_start (st : state) (tid : nat) (body : bytes) : state :=
  with_tapes (with_defs st (st_defs st ++ [nth_defs st (to_defs (nth_tape st tid))]))
    (st_tapes st ++ [{| to_data := body; to_count := (to_count (nth_tape st tid) + 1)%Z;
                        to_defs := List.length (st_defs st) |}]).

(* the state in which the body of OP_LOOP runs first: a new tape object that SHARES the definitions *)
Definition loop_start (st : state) (tid : nat) (body : bytes) : state :=
  with_tapes st
    (st_tapes st ++ [{| to_data := body; to_count := to_count (nth_tape st tid);
                        to_defs := to_defs (nth_tape st tid) |}]).

(* OP_CALL: the call count of the calling tape goes up by one and is copied to the definition tape *)
Definition count_up (st : state) (tid : nat) : state :=
  with_tapes st (list_set (st_tapes st) tid
    {| to_data := to_data (nth_tape st tid); to_count := (to_count (nth_tape st tid) + 1)%Z;
       to_defs := to_defs (nth_tape st tid) |}).
Definition call_start (st : state) (tid dt : nat) : state :=
  let st1 := count_up st tid in
  with_tapes st1 (list_set (st_tapes st1) dt
    {| to_data := to_data (nth_tape st1 dt); to_count := to_count (nth_tape st1 tid);
       to_defs := to_defs (nth_tape st1 dt) |}).

(* OP_TRY_EXCEPT: cache[b'E'] = [ (class name + '|').encode() ] *)
Definition write_E (e : exn) (st : state) : state :=
  with_cache st (cache_set (st_cache st) (KBytes (str "E")) (VMany [ABytes (exn_name e ++ str "|")])).

Lemma flagged_true st : flagged st = true <-> returned st.
Proof.
  unfold flagged, returned. destruct (cache_get _ _); split; intro H; congruence.
Qed.

Lemma flagged_false st : flagged st = false <-> flag_clear st.
Proof.
  unfold flagged, flag_clear. destruct (cache_get _ _); split; intro H; congruence.
Qed.

Lemma returned_not_clear st : returned st <-> ~ flag_clear st.
Proof. unfold returned, flag_clear. tauto. Qed.

Lemma set_flag_returned st : returned (set_flag st).
Proof.
  unfold returned, set_flag. cbn [st_cache with_cache]. rewrite cache_get_set_same. discriminate.
Qed.

Lemma set_flag_value st :
  cache_get (st_cache (set_flag st)) returned_key = Some (VOne (ABool true)).
Proof. unfold set_flag. cbn [st_cache with_cache]. apply cache_get_set_same. Qed.

Lemma set_flag_flagged st : flagged (set_flag st) = true.
Proof. apply flagged_true, set_flag_returned. Qed.

Lemma clear_flag_clear st : flag_clear (clear_flag st).
Proof. unfold flag_clear, clear_flag. cbn [st_cache with_cache]. apply cache_get_del_same. Qed.

(* everything except the flag entry is unchanged by set_flag / clear_flag *)
Lemma set_flag_rest st :
  st_stack (set_flag st) = st_stack st /\ st_tapes (set_flag st) = st_tapes st /\
  st_defs (set_flag st) = st_defs st /\ st_log (set_flag st) = st_log st /\
  st_rand (set_flag st) = st_rand st /\
  forall k, ckey_eqb returned_key k = false ->
    cache_get (st_cache (set_flag st)) k = cache_get (st_cache st) k.
Proof.
  repeat split. intros k Hk. unfold set_flag. cbn [st_cache with_cache].
  apply cache_get_set_other. exact Hk.
Qed.

Lemma clear_flag_rest st :
  st_stack (clear_flag st) = st_stack st /\ st_tapes (clear_flag st) = st_tapes st /\
  st_defs (clear_flag st) = st_defs st /\ st_log (clear_flag st) = st_log st /\
  st_rand (clear_flag st) = st_rand st /\
  forall k, ckey_eqb returned_key k = false ->
    cache_get (st_cache (clear_flag st)) k = cache_get (st_cache st) k.
Proof.
  repeat split. intros k Hk. unfold clear_flag. cbn [st_cache with_cache].
  apply cache_get_del_other. exact Hk.
Qed.

(* deleting an absent flag changes nothing *)
Lemma clear_flag_id st : flag_clear st -> clear_flag st = st.
Proof.
  intro H. unfold clear_flag. rewrite cache_del_absent by exact H. destruct st; reflexivity.
Qed.

Lemma set_flag_twice st : set_flag (set_flag st) = set_flag st.
Proof. unfold set_flag. cbn [st_cache with_cache]. rewrite cache_set_twice. reflexivity. Qed.

Lemma end_of_at_end fr st : at_end (end_of fr st) st.
Proof. reflexivity. Qed.

Lemma end_of_at_end_set fr st : at_end (end_of fr st) (set_flag st).
Proof. reflexivity. Qed.

(* what every instruction that hands a RETURN on says about its result *)
Lemma hand_on_returned fr st :
  returned st ->
  hand_on fr st = Done tt (end_of fr st) (set_flag st) /\
  at_end (end_of fr st) (set_flag st) /\ returned (set_flag st).
Proof.
  intro H. unfold hand_on. apply flagged_true in H. rewrite H.
  split; [reflexivity|split; [reflexivity|apply set_flag_returned]].
Qed.

Lemma hand_on_clear fr st : flag_clear st -> hand_on fr st = Done tt fr st.
Proof. intro H. unfold hand_on. apply flagged_false in H. rewrite H. reflexivity. Qed.

Lemma tdata_nonempty_valid st tid : tdata st tid <> [] -> tid < List.length (st_tapes st).
Proof.
  intro H. destruct (Nat.lt_ge_cases tid (List.length (st_tapes st))) as [Hl|Hg]; [exact Hl|].
  exfalso. apply H. unfold tdata, nth_tape. rewrite nth_overflow by exact Hg. reflexivity.
Qed.

(* count_up keeps the data and the definitions of every tape *)
Lemma count_up_defs st tid : to_defs (nth_tape (count_up st tid) tid) = to_defs (nth_tape st tid).
Proof.
  unfold count_up, nth_tape at 1. cbn [st_tapes with_tapes].
  destruct (Nat.lt_ge_cases tid (List.length (st_tapes st))) as [Hl|Hg].
  - rewrite nth_list_set_same by exact Hl. reflexivity.
  - rewrite list_set_oob by exact Hg. reflexivity.
Qed.

Lemma count_up_count st tid :
  tid < List.length (st_tapes st) ->
  to_count (nth_tape (count_up st tid) tid) = (to_count (nth_tape st tid) + 1)%Z.
Proof.
  intro Hl. unfold count_up, nth_tape at 1. cbn [st_tapes with_tapes].
  rewrite nth_list_set_same by exact Hl. reflexivity.
Qed.

Section Steps.
Variable orc : oracle.
Variable cfg : config.
Variable run : nat -> state -> outcome unit.

Lemma test_step A (k : bool -> prog A) fr st :
  interp orc cfg run (Act AReturnedTest k) fr st = interp orc cfg run (k (flagged st)) fr st.
Proof. reflexivity. Qed.

Lemma clear_step A (k : unit -> prog A) fr st :
  interp orc cfg run (Act AReturnedClear k) fr st = interp orc cfg run (k tt) fr (clear_flag st).
Proof. reflexivity. Qed.

Lemma loopnew_step A (k : nat -> prog A) fr st data :
  interp orc cfg run (Act (ALoopNew data) k) fr st =
    interp orc cfg run (k (List.length (st_tapes st))) fr (loop_start st (fr_tid fr) data).
Proof. reflexivity. Qed.

Lemma runsub_eval_step A (k : unit -> prog A) fr st data :
  interp orc cfg run (Act (ARunSub SubEval data) k) fr st =
    match run (List.length (st_tapes st)) (eval_start st (fr_tid fr) data) with
    | Done _ _ st' => interp orc cfg run (k tt) fr st'
    | Raised e _ st' => Raised e fr st'
    | OutOfFuel => OutOfFuel
    | Unmodelled w => Unmodelled w
    end.
Proof. exact (after_run_step orc cfg run A k _ _). Qed.

(* ATrySub turns the exception of the tape into a value *)
Lemma trysub_step A (k : option exn -> prog A) fr st data :
  interp orc cfg run (Act (ATrySub data) k) fr st =
    match run (List.length (st_tapes st)) (sub_start st (fr_tid fr) data) with
    | Done _ _ st' => interp orc cfg run (k None) fr st'
    | Raised e _ st' => interp orc cfg run (k (Some e)) fr st'
    | OutOfFuel => OutOfFuel
    | Unmodelled w => Unmodelled w
    end.
Proof.
  cbn [interp step new_tape]. fold (sub_start st (fr_tid fr) data).
  destruct (run _ _) as [[] fr' st'|e fr' st'| |w]; reflexivity.
Qed.

End Steps.

Section Gen.
Variable orc : oracle.
Variable cfg : config.
Variable run : nat -> state -> outcome unit.

Theorem op_return_exact fr st :
  interp orc cfg run OP_RETURN fr st = Done tt (end_of fr st) (set_flag st).
Proof. reflexivity. Qed.

(* the same in words: the pointer is at the end of the current tape, the flag is set (to True), and
   the stack, the tape objects, the definitions, the log, the random counter and every other cache
   entry are what they were *)
Theorem op_return_spec fr st :
  exists fr_end st',
    interp orc cfg run OP_RETURN fr st = Done tt fr_end st' /\
    fr_tid fr_end = fr_tid fr /\ at_end fr_end st' /\ returned st' /\
    cache_get (st_cache st') returned_key = Some (VOne (ABool true)) /\
    st_stack st' = st_stack st /\ st_tapes st' = st_tapes st /\ st_defs st' = st_defs st /\
    st_log st' = st_log st /\ st_rand st' = st_rand st /\
    (forall k, ckey_eqb returned_key k = false ->
       cache_get (st_cache st') k = cache_get (st_cache st) k).
Proof.
  exists (end_of fr st), (set_flag st).
  split; [reflexivity|]. split; [reflexivity|]. split; [reflexivity|].
  split; [apply set_flag_returned|]. split; [apply set_flag_value|]. apply set_flag_rest.
Qed.

Lemma propagate_exact fr st : interp orc cfg run propagate_return fr st = hand_on fr st.
Proof.
  unfold propagate_return, OP_RETURN, act, hand_on, flagged. cbn [bind interp step].
  destruct (cache_get (st_cache st) returned_key); reflexivity.
Qed.

(* a body run by ARunSub, then propagate_return *)
Lemma propagate_after_body fr o :
  match o with
  | Done _ _ st' => interp orc cfg run propagate_return fr st'
  | Raised e _ st' => Raised e fr st'
  | OutOfFuel => OutOfFuel
  | Unmodelled w => Unmodelled w
  end = after_body fr o.
Proof. destruct o as [[] fr' st'|e fr' st'| |w]; try reflexivity. apply propagate_exact. Qed.

(* OP_IF, the pointer standing just behind the opcode: the body is read, the condition is popped; with a
   true condition a NEW tape object holding the body is run from offset 0 and the flag is handed on *)
Theorem op_if_exact tid st ptr (pfx body tail : bytes) cond s :
  tdata st tid = pfx ++ block_ops body ++ tail -> ptr = List.length pfx ->
  (blen body < 65536)%Z -> st_stack st = cond :: s ->
  interp orc cfg run OP_IF {| fr_tid := tid; fr_ptr := ptr |} st =
    let fr' := {| fr_tid := tid; fr_ptr := ptr + List.length (block_ops body) |} in
    if bytes_to_bool cond
    then after_body fr' (run (List.length (st_tapes st)) (sub_start (with_stack st s) tid body))
    else Done tt fr' (with_stack st s).
Proof.
  intros Hd Hp H1 Hs.
  assert (Hd' := data_at_pfx tid ptr st pfx _ Hd Hp). unfold block_ops in Hd'. rewrite <- app_assoc in Hd'.
  unfold OP_IF. rewrite (read_block orc cfg run _ _ _ st body tail Hd' H1).
  unfold get, act. cbn [bind]. rewrite (get_step orc cfg run _ _ _ st cond s Hs).
  cbv zeta. destruct (bytes_to_bool cond); [|reflexivity].
  cbn [bind]. rewrite runsub_exec. apply propagate_after_body.
Qed.

Section IfCases.
Variables (tid ptr : nat) (st : state) (pfx body tail cond : bytes) (s : list bytes).
Hypothesis Hd : tdata st tid = pfx ++ block_ops body ++ tail.
Hypothesis Hp : ptr = List.length pfx.
Hypothesis Hb : (blen body < 65536)%Z.
Hypothesis Hs : st_stack st = cond :: s.

Let fr := {| fr_tid := tid; fr_ptr := ptr |}.
Let fr' := {| fr_tid := tid; fr_ptr := ptr + List.length (block_ops body) |}.   (* just after the instruction *)
Let body_run := run (List.length (st_tapes st)) (sub_start (with_stack st s) tid body).

Lemma if_is :
  interp orc cfg run OP_IF fr st =
    if bytes_to_bool cond then after_body fr' body_run else Done tt fr' (with_stack st s).
Proof. exact (op_if_exact tid st ptr pfx body tail cond s Hd Hp Hb Hs). Qed.

(* true condition, the body ends with the flag set: the RETURN is handed on *)
Theorem op_if_true_returned frb st' :
  bytes_to_bool cond = true -> body_run = Done tt frb st' -> returned st' ->
  interp orc cfg run OP_IF fr st = Done tt (end_of fr' st') (set_flag st') /\
  at_end (end_of fr' st') (set_flag st') /\ returned (set_flag st').
Proof. intros Hc Hr Hf. rewrite if_is, Hc, Hr. exact (hand_on_returned fr' st' Hf). Qed.

(* true condition, the body ends with the flag clear: on to the next instruction *)
Theorem op_if_true_clear frb st' :
  bytes_to_bool cond = true -> body_run = Done tt frb st' -> flag_clear st' ->
  interp orc cfg run OP_IF fr st = Done tt fr' st'.
Proof. intros Hc Hr Hf. rewrite if_is, Hc, Hr. exact (hand_on_clear fr' st' Hf). Qed.

(* true condition, the body raises: the same exception, the state of the body *)
Theorem op_if_true_raises e frb st' :
  bytes_to_bool cond = true -> body_run = Raised e frb st' ->
  interp orc cfg run OP_IF fr st = Raised e fr' st'.
Proof. intros Hc Hr. rewrite if_is, Hc, Hr. reflexivity. Qed.

(* false condition: the body does not run (no call of [run] at all: the result does not depend on it) *)
Theorem op_if_false :
  bytes_to_bool cond = false ->
  interp orc cfg run OP_IF fr st = Done tt fr' (with_stack st s).
Proof. intros Hc. rewrite if_is, Hc. reflexivity. Qed.

End IfCases.

Theorem op_if_else_exact tid st ptr (pfx b1 b2 tail : bytes) cond s :
  tdata st tid = pfx ++ ifelse_ops b1 b2 ++ tail -> ptr = List.length pfx ->
  (blen b1 < 65536)%Z -> (blen b2 < 65536)%Z -> st_stack st = cond :: s ->
  interp orc cfg run OP_IF_ELSE {| fr_tid := tid; fr_ptr := ptr |} st =
    after_body {| fr_tid := tid; fr_ptr := ptr + List.length (ifelse_ops b1 b2) |}
      (run (List.length (st_tapes st))
           (sub_start (with_stack st s) tid (if bytes_to_bool cond then b1 else b2))).
Proof.
  intros Hd Hp H1 H2 Hs.
  rewrite (if_else_exec orc cfg run tid st ptr pfx b1 b2 tail cond s Hd Hp H1 H2 Hs). apply propagate_after_body.
Qed.

Section IfElseCases.
Variables (tid ptr : nat) (st : state) (pfx b1 b2 tail cond : bytes) (s : list bytes).
Hypothesis Hd : tdata st tid = pfx ++ ifelse_ops b1 b2 ++ tail.
Hypothesis Hp : ptr = List.length pfx.
Hypothesis Hb1 : (blen b1 < 65536)%Z.
Hypothesis Hb2 : (blen b2 < 65536)%Z.
Hypothesis Hs : st_stack st = cond :: s.

Let fr := {| fr_tid := tid; fr_ptr := ptr |}.
Let fr' := {| fr_tid := tid; fr_ptr := ptr + List.length (ifelse_ops b1 b2) |}.
(* the arm that runs: the first one exactly when the condition is true *)
Let arm_run := run (List.length (st_tapes st))
                   (sub_start (with_stack st s) tid (if bytes_to_bool cond then b1 else b2)).

Lemma if_else_is : interp orc cfg run OP_IF_ELSE fr st = after_body fr' arm_run.
Proof. exact (op_if_else_exact tid st ptr pfx b1 b2 tail cond s Hd Hp Hb1 Hb2 Hs). Qed.

Theorem op_if_else_returned frb st' :
  arm_run = Done tt frb st' -> returned st' ->
  interp orc cfg run OP_IF_ELSE fr st = Done tt (end_of fr' st') (set_flag st') /\
  at_end (end_of fr' st') (set_flag st') /\ returned (set_flag st').
Proof. intros Hr Hf. rewrite if_else_is, Hr. exact (hand_on_returned fr' st' Hf). Qed.

Theorem op_if_else_clear frb st' :
  arm_run = Done tt frb st' -> flag_clear st' ->
  interp orc cfg run OP_IF_ELSE fr st = Done tt fr' st'.
Proof. intros Hr Hf. rewrite if_else_is, Hr. exact (hand_on_clear fr' st' Hf). Qed.

Theorem op_if_else_raises e frb st' :
  arm_run = Raised e frb st' ->
  interp orc cfg run OP_IF_ELSE fr st = Raised e fr' st'.
Proof. intros Hr. rewrite if_else_is, Hr. reflexivity. Qed.

End IfElseCases.

(* OP_TRY_EXCEPT, the pointer standing just behind the opcode.  Both bodies are read.  The TRY body runs
   on a new tape object; if it ends normally the flag is handed on and the EXCEPT body does not run; if
   it raises [e], the record of [e] is written under the bytes key "E" (in the state the TRY body left),
   the EXCEPT body runs on another new tape object and ITS flag is handed on, ITS exception raised. *)
Theorem op_try_except_exact tid st ptr (pfx b1 b2 tail : bytes) :
  tdata st tid = pfx ++ ifelse_ops b1 b2 ++ tail -> ptr = List.length pfx ->
  (blen b1 < 65536)%Z -> (blen b2 < 65536)%Z ->
  interp orc cfg run OP_TRY_EXCEPT {| fr_tid := tid; fr_ptr := ptr |} st =
    let fr' := {| fr_tid := tid; fr_ptr := ptr + List.length (ifelse_ops b1 b2) |} in
    match run (List.length (st_tapes st)) (sub_start st tid b1) with
    | Done _ _ st1 => hand_on fr' st1
    | Raised e _ st1 =>
        after_body fr' (run (List.length (st_tapes (write_E e st1))) (sub_start (write_E e st1) tid b2))
    | OutOfFuel => OutOfFuel
    | Unmodelled w => Unmodelled w
    end.
Proof.
  intros Hd Hp H1 H2.
  unfold OP_TRY_EXCEPT.
  rewrite (read_block2 orc cfg run _ _ _ st b1 b2 tail (data_at_pfx tid ptr st pfx _ Hd Hp) H1 H2).
  unfold act. cbn [bind]. rewrite trysub_step. cbv zeta.
  destruct (run _ _) as [[] fr1 st1|e fr1 st1| |w]; try reflexivity.
  - cbn [bind]. apply propagate_exact.
  - unfold cache_items, act. cbn [bind map].
    rewrite cacheset_step, runsub_exec. apply propagate_after_body.
Qed.

Section TryCases.
Variables (tid ptr : nat) (st : state) (pfx b1 b2 tail : bytes).
Hypothesis Hd : tdata st tid = pfx ++ ifelse_ops b1 b2 ++ tail.
Hypothesis Hp : ptr = List.length pfx.
Hypothesis Hb1 : (blen b1 < 65536)%Z.
Hypothesis Hb2 : (blen b2 < 65536)%Z.

Let fr := {| fr_tid := tid; fr_ptr := ptr |}.
Let fr' := {| fr_tid := tid; fr_ptr := ptr + List.length (ifelse_ops b1 b2) |}.
Let try_run := run (List.length (st_tapes st)) (sub_start st tid b1).
(* the run of the EXCEPT body after the TRY body raised [e] leaving state [st1] *)
Let except_run (e : exn) (st1 : state) :=
  run (List.length (st_tapes (write_E e st1))) (sub_start (write_E e st1) tid b2).

Lemma try_is :
  interp orc cfg run OP_TRY_EXCEPT fr st =
    match try_run with
    | Done _ _ st1 => hand_on fr' st1
    | Raised e _ st1 => after_body fr' (except_run e st1)
    | OutOfFuel => OutOfFuel
    | Unmodelled w => Unmodelled w
    end.
Proof. exact (op_try_except_exact tid st ptr pfx b1 b2 tail Hd Hp Hb1 Hb2). Qed.

(* TRY body Done, flag set: handed on; the EXCEPT body is not run *)
Theorem op_try_returned frb st1 :
  try_run = Done tt frb st1 -> returned st1 ->
  interp orc cfg run OP_TRY_EXCEPT fr st = Done tt (end_of fr' st1) (set_flag st1) /\
  at_end (end_of fr' st1) (set_flag st1) /\ returned (set_flag st1).
Proof. intros Hr Hf. rewrite try_is, Hr. exact (hand_on_returned fr' st1 Hf). Qed.

(* TRY body Done, flag clear: on to the next instruction; the EXCEPT body is not run *)
Theorem op_try_clear frb st1 :
  try_run = Done tt frb st1 -> flag_clear st1 ->
  interp orc cfg run OP_TRY_EXCEPT fr st = Done tt fr' st1.
Proof. intros Hr Hf. rewrite try_is, Hr. exact (hand_on_clear fr' st1 Hf). Qed.

(* TRY body raises, EXCEPT body Done with the flag set: HANDED ON *)
Theorem op_try_except_returned e frb st1 frc st3 :
  try_run = Raised e frb st1 -> except_run e st1 = Done tt frc st3 -> returned st3 ->
  interp orc cfg run OP_TRY_EXCEPT fr st = Done tt (end_of fr' st3) (set_flag st3) /\
  at_end (end_of fr' st3) (set_flag st3) /\ returned (set_flag st3).
Proof. intros Hr Hx Hf. rewrite try_is, Hr, Hx. exact (hand_on_returned fr' st3 Hf). Qed.

(* TRY body raises, EXCEPT body Done with the flag clear: on to the next instruction *)
Theorem op_try_except_clear e frb st1 frc st3 :
  try_run = Raised e frb st1 -> except_run e st1 = Done tt frc st3 -> flag_clear st3 ->
  interp orc cfg run OP_TRY_EXCEPT fr st = Done tt fr' st3.
Proof. intros Hr Hx Hf. rewrite try_is, Hr, Hx. exact (hand_on_clear fr' st3 Hf). Qed.

(* TRY body raises, EXCEPT body raises: the instruction raises the exception of the EXCEPT body *)
Theorem op_try_except_raises e frb st1 e' frc st3 :
  try_run = Raised e frb st1 -> except_run e st1 = Raised e' frc st3 ->
  interp orc cfg run OP_TRY_EXCEPT fr st = Raised e' fr' st3.
Proof. intros Hr Hx. rewrite try_is, Hr, Hx. reflexivity. Qed.

(* the EXCEPT body starts from the state the TRY body left, with the record of the exception under "E" *)
Theorem except_body_sees_E e st1 :
  cache_get (st_cache (sub_start (write_E e st1) tid b2)) (KBytes (str "E")) =
    Some (VMany [ABytes (exn_name e ++ str "|")]).
Proof. unfold sub_start, write_E. cbn [st_cache with_cache with_tapes with_defs]. apply cache_get_set_same. Qed.

End TryCases.

End Gen.

Section Absorb.
Variable orc : oracle.
Variable cfg : config.
Variable run : nat -> state -> outcome unit.

(* OP_CALL <h>, the pointer standing just behind the opcode, the call count below the limit, the handle
   defined: the definition tape runs from offset 0 (runner [run]) and afterwards the flag is DELETED,
   whether or not it was set; the pointer is just after the handle byte *)
Theorem op_call_exact tid st ptr (pfx : bytes) h (tail : bytes) dt :
  tdata st tid = pfx ++ h :: tail -> ptr = List.length pfx ->
  (to_count (nth_tape st tid) < c_limit cfg)%Z ->
  defs_get (nth_defs st (to_defs (nth_tape st tid))) h = Some dt ->
  interp orc cfg run OP_CALL {| fr_tid := tid; fr_ptr := ptr |} st =
    let fr' := {| fr_tid := tid; fr_ptr := ptr + 1 |} in
    match run dt (call_start st tid dt) with
    | Done _ _ st' => Done tt fr' (clear_flag st')
    | Raised e _ st' => Raised e fr' st'
    | OutOfFuel => OutOfFuel
    | Unmodelled w => Unmodelled w
    end.
Proof.
  intros Hd Hp Hc Hh.
  unfold OP_CALL, config_, read, act. cbn [bind].
  rewrite config_step, count_step. cbn [fr_tid].
  apply Z.ltb_lt in Hc. rewrite Hc. cbn [sert bind].
  rewrite (read1 orc cfg run _ st h tail) by exact (data_at_pfx tid ptr st pfx _ Hd Hp).
  cbn [bind hd]. unfold adv. cbn [fr_tid fr_ptr].
  rewrite countincr_step, defget_step. cbn [fr_tid].
  change (set_count st tid (to_count (nth_tape st tid) + 1)) with (count_up st tid).
  change (nth_defs (count_up st tid)) with (nth_defs st).
  rewrite count_up_defs, Hh.
  rewrite calldef_step. cbn [fr_tid]. cbv zeta.
  change (set_count (count_up st tid) dt (to_count (nth_tape (count_up st tid) tid)))
    with (call_start st tid dt).
  destruct (run _ _) as [[] frb st'|e frb st'| |w]; try reflexivity.
Qed.

(* the RETURN is absorbed: whatever the flag after the body, it is clear after the instruction and
   the pointer is just after the instruction; nothing but the flag entry differs from the body's state *)
Theorem op_call_absorbs tid st ptr (pfx : bytes) h (tail : bytes) dt frb st' :
  tdata st tid = pfx ++ h :: tail -> ptr = List.length pfx ->
  (to_count (nth_tape st tid) < c_limit cfg)%Z ->
  defs_get (nth_defs st (to_defs (nth_tape st tid))) h = Some dt ->
  run dt (call_start st tid dt) = Done tt frb st' ->
  interp orc cfg run OP_CALL {| fr_tid := tid; fr_ptr := ptr |} st =
    Done tt {| fr_tid := tid; fr_ptr := ptr + 1 |} (clear_flag st') /\
  flag_clear (clear_flag st') /\ (flag_clear st' -> clear_flag st' = st').
Proof.
  intros Hd Hp Hc Hh Hr. split; [|split; [apply clear_flag_clear|apply clear_flag_id]].
  rewrite (op_call_exact tid st ptr pfx h tail dt Hd Hp Hc Hh). cbv zeta. rewrite Hr. reflexivity.
Qed.

Theorem op_call_raises tid st ptr (pfx : bytes) h (tail : bytes) dt e frb st' :
  tdata st tid = pfx ++ h :: tail -> ptr = List.length pfx ->
  (to_count (nth_tape st tid) < c_limit cfg)%Z ->
  defs_get (nth_defs st (to_defs (nth_tape st tid))) h = Some dt ->
  run dt (call_start st tid dt) = Raised e frb st' ->
  interp orc cfg run OP_CALL {| fr_tid := tid; fr_ptr := ptr |} st =
    Raised e {| fr_tid := tid; fr_ptr := ptr + 1 |} st'.
Proof.
  intros Hd Hp Hc Hh Hr.
  rewrite (op_call_exact tid st ptr pfx h tail dt Hd Hp Hc Hh). cbv zeta. rewrite Hr. reflexivity.
Qed.

(* what eval_body does with the flag after its body *)
Definition eval_finish (fr : frame) (st : state) : outcome unit :=
  if flagged st then
    if flag_on (c_flags cfg) (FKStr (str "eval_return"))
    then Done tt (end_of fr st) (set_flag st)        (* handed on *)
    else Done tt fr (clear_flag st)                  (* absorbed *)
  else Done tt fr st.

(* eval_body (= OP_EVAL; also the tail of OP_MERKLEVAL and of the script path of OP_TAPROOT):
   no operand on the tape, the script is popped and run on a new tape object, call count + 1 *)
Theorem eval_body_exact tid ptr st script s :
  flag_get (c_flags cfg) (FKStr (str "disallow_OP_EVAL")) = None ->
  (to_count (nth_tape st tid) < c_limit cfg)%Z ->
  st_stack st = script :: s -> (0 < blen script)%Z ->
  interp orc cfg run eval_body {| fr_tid := tid; fr_ptr := ptr |} st =
    let fr := {| fr_tid := tid; fr_ptr := ptr |} in
    match run (List.length (st_tapes st)) (eval_start (with_stack st s) tid script) with
    | Done _ _ st' => eval_finish fr st'
    | Raised e _ st' => Raised e fr st'
    | OutOfFuel => OutOfFuel
    | Unmodelled w => Unmodelled w
    end.
Proof.
  intros Hdis Hc Hs Hl.
  unfold eval_body, config_, get, act. cbn [bind].
  rewrite config_step. rewrite Hdis. cbn [sert bind].
  rewrite count_step. cbn [fr_tid]. apply Z.ltb_lt in Hc. rewrite Hc. cbn [sert bind].
  rewrite (get_step orc cfg run _ _ _ st script s Hs).
  apply Z.ltb_lt in Hl. rewrite Hl. cbn [vert bind].
  rewrite runsub_eval_step. cbv zeta.
  destruct (run _ _) as [[] frb st'|e frb st'| |w]; try reflexivity.
  rewrite test_step. unfold eval_finish.
  destruct (flagged st'); [|reflexivity].
  destruct (flag_on _ _); reflexivity.
Qed.

Section EvalCases.
Variables (tid ptr : nat) (st : state) (script : bytes) (s : list bytes).
Hypothesis Hdis : flag_get (c_flags cfg) (FKStr (str "disallow_OP_EVAL")) = None.
Hypothesis Hc : (to_count (nth_tape st tid) < c_limit cfg)%Z.
Hypothesis Hs : st_stack st = script :: s.
Hypothesis Hl : (0 < blen script)%Z.

Let fr := {| fr_tid := tid; fr_ptr := ptr |}.
Let body_run := run (List.length (st_tapes st)) (eval_start (with_stack st s) tid script).

Lemma eval_is :
  interp orc cfg run OP_EVAL fr st =
    match body_run with
    | Done _ _ st' => eval_finish fr st'
    | Raised e _ st' => Raised e fr st'
    | OutOfFuel => OutOfFuel
    | Unmodelled w => Unmodelled w
    end.
Proof. exact (eval_body_exact tid ptr st script s Hdis Hc Hs Hl). Qed.

(* without the flag 'eval_return': ABSORBED — flag clear, pointer unchanged (just after the opcode) *)
Theorem op_eval_absorbs frb st' :
  flag_on (c_flags cfg) (FKStr (str "eval_return")) = false ->
  body_run = Done tt frb st' -> returned st' ->
  interp orc cfg run OP_EVAL fr st = Done tt fr (clear_flag st') /\ flag_clear (clear_flag st').
Proof.
  intros Hf Hr Hret. split; [|apply clear_flag_clear].
  rewrite eval_is, Hr. unfold eval_finish. apply flagged_true in Hret. rewrite Hret, Hf. reflexivity.
Qed.

(* with the flag 'eval_return': HANDED ON *)
Theorem op_eval_hands_on frb st' :
  flag_on (c_flags cfg) (FKStr (str "eval_return")) = true ->
  body_run = Done tt frb st' -> returned st' ->
  interp orc cfg run OP_EVAL fr st = Done tt (end_of fr st') (set_flag st') /\
  at_end (end_of fr st') (set_flag st') /\ returned (set_flag st').
Proof.
  intros Hf Hr Hret. split; [|split; [reflexivity|apply set_flag_returned]].
  rewrite eval_is, Hr. unfold eval_finish. apply flagged_true in Hret. rewrite Hret, Hf. reflexivity.
Qed.

Theorem op_eval_clear frb st' :
  body_run = Done tt frb st' -> flag_clear st' ->
  interp orc cfg run OP_EVAL fr st = Done tt fr st'.
Proof.
  intros Hr Hcl. rewrite eval_is, Hr. unfold eval_finish. apply flagged_false in Hcl. rewrite Hcl. reflexivity.
Qed.

Theorem op_eval_raises e frb st' :
  body_run = Raised e frb st' ->
  interp orc cfg run OP_EVAL fr st = Raised e fr st'.
Proof. intros Hr. rewrite eval_is, Hr. reflexivity. Qed.

End EvalCases.

Lemma interp_bind3 A B C (p : prog A) (f : A -> prog B) (g : B -> prog C) fr st :
  interp orc cfg run (bind (bind p f) g) fr st =
    match interp orc cfg run p fr st with
    | Done a fr' st' => interp orc cfg run (bind (f a) g) fr' st'
    | Raised e fr' st' => Raised e fr' st'
    | OutOfFuel => OutOfFuel
    | Unmodelled w => Unmodelled w
    end.
Proof.
  rewrite interp_bind. rewrite (interp_bind orc cfg run _ _ p f).
  destruct (interp orc cfg run p fr st); try reflexivity. rewrite interp_bind. reflexivity.
Qed.

(* everything OP_MERKLEVAL does before it evaluates the script *)
Definition merkle_prefix : prog unit :=
  root <- read 32 ;;
  OP_DUP ;; OP_SHA256 ;; OP_SHA256 ;; swap_core 1 2 ;; OP_SWAP2 ;; OP_SHA256 ;; OP_XOR ;;
  put root ;; OP_EQUAL_VERIFY.

(* OP_MERKLEVAL = its prefix (no sub-tape, no flag action: Discipline.simple), then eval_body in the
   frame and state the prefix left: eval_body_exact says what happens to a RETURN of the script *)
Theorem op_merkleval_tail fr st :
  interp orc cfg run OP_MERKLEVAL fr st =
    match interp orc cfg run merkle_prefix fr st with
    | Done _ fr' st' => interp orc cfg run eval_body fr' st'
    | Raised e fr' st' => Raised e fr' st'
    | OutOfFuel => OutOfFuel
    | Unmodelled w => Unmodelled w
    end.
Proof.
  rewrite <- (interp_bind orc cfg run _ _ merkle_prefix (fun _ => eval_body)).
  unfold OP_MERKLEVAL, merkle_prefix.
  rewrite interp_bind, interp_bind3.
  destruct (interp orc cfg run (read 32) fr st) as [root fr1 st1|e fr1 st1| |w]; try reflexivity.
  repeat (rewrite interp_bind, interp_bind3;
          match goal with |- match ?o with _ => _ end = _ => destruct o; try reflexivity end).
Qed.

(* one round of the loop, exactly.  [lt] is the loop's tape object, [cond] the condition item as it was
   PEEKED (never popped) before this round, [i] the number of rounds done. *)
Theorem loop_go_step n i limit lt cond fr st :
  interp orc cfg run (loop_go (S n) i limit lt cond) fr st =
    if bytes_to_bool cond then
      if (i <? limit)%Z then
        match run lt st with
        | Done _ _ st' =>
            if flagged st' then Done tt fr (clear_flag st')       (* RETURN in the body: the loop stops *)
            else match st_stack st' with
                 | [] => Raised IndexError fr st'
                 | c :: _ => interp orc cfg run (loop_go n (i + 1)%Z limit lt c) fr st'
                 end
        | Raised e _ st' => Raised e fr st'
        | OutOfFuel => OutOfFuel
        | Unmodelled w => Unmodelled w
        end
      else Raised ScriptExecutionError fr st
    else Done tt fr st.
Proof.
  cbn [loop_go]. destruct (bytes_to_bool cond); [|reflexivity].
  destruct (i <? limit)%Z; cbn [sert bind]; [|reflexivity].
  unfold act. cbn [bind]. rewrite runloop_step.
  destruct (run lt st) as [[] frb st'|e frb st'| |w]; try reflexivity.
  rewrite test_step. destruct (flagged st'); [reflexivity|].
  cbn [interp step]. destruct (st_stack st'); reflexivity.
Qed.

(* a RETURN in the body of ANY round ends the loop — and only the loop: flag deleted, frame unchanged *)
Theorem loop_go_returned n i limit lt cond fr st frb st' :
  bytes_to_bool cond = true -> (i < limit)%Z ->
  run lt st = Done tt frb st' -> returned st' ->
  interp orc cfg run (loop_go (S n) i limit lt cond) fr st = Done tt fr (clear_flag st').
Proof.
  intros Hc Hi Hr Hret. rewrite loop_go_step, Hc.
  apply Z.ltb_lt in Hi. rewrite Hi, Hr. apply flagged_true in Hret. rewrite Hret. reflexivity.
Qed.

(* no RETURN in the body: the next round, with the item now on top of the stack as condition *)
Theorem loop_go_continues n i limit lt cond fr st frb st' c' s' :
  bytes_to_bool cond = true -> (i < limit)%Z ->
  run lt st = Done tt frb st' -> flag_clear st' -> st_stack st' = c' :: s' ->
  interp orc cfg run (loop_go (S n) i limit lt cond) fr st =
    interp orc cfg run (loop_go n (i + 1)%Z limit lt c') fr st'.
Proof.
  intros Hc Hi Hr Hcl Hs. rewrite loop_go_step, Hc.
  apply Z.ltb_lt in Hi. rewrite Hi, Hr. apply flagged_false in Hcl. rewrite Hcl, Hs. reflexivity.
Qed.

(* OP_LOOP, the pointer standing just behind the opcode: the body is read, the top item is PEEKED as the
   condition, a new tape object for the body is created (sharing the definitions), then the rounds *)
Theorem op_loop_exact tid st ptr (pfx body tail : bytes) c s :
  tdata st tid = pfx ++ block_ops body ++ tail -> ptr = List.length pfx ->
  (blen body < 65536)%Z -> st_stack st = c :: s ->
  interp orc cfg run OP_LOOP {| fr_tid := tid; fr_ptr := ptr |} st =
    interp orc cfg run
      (loop_go (S (nat_of (c_limit cfg))) 0%Z (c_limit cfg) (List.length (st_tapes st)) c)
      {| fr_tid := tid; fr_ptr := ptr + List.length (block_ops body) |} (loop_start st tid body).
Proof.
  intros Hd Hp H1 Hs.
  assert (Hd' := data_at_pfx tid ptr st pfx _ Hd Hp). unfold block_ops in Hd'. rewrite <- app_assoc in Hd'.
  unfold OP_LOOP. rewrite (read_block orc cfg run _ _ _ st body tail Hd' H1).
  unfold config_, act. cbn [bind].
  rewrite (peek_step orc cfg run _ _ _ st c s Hs), config_step, loopnew_step, Nat.add_1_r. reflexivity.
Qed.

(* RETURN in the first round: the loop — and only the loop — stops.  After the instruction the flag is
   clear, the pointer is just after the instruction, and the stack is the stack the body left: OP_LOOP
   never pops, so the condition item is still there unless the body itself removed it. *)
Theorem op_loop_absorbs tid st ptr (pfx body tail : bytes) c s frb st' :
  tdata st tid = pfx ++ block_ops body ++ tail -> ptr = List.length pfx ->
  (blen body < 65536)%Z -> st_stack st = c :: s ->
  bytes_to_bool c = true -> (0 < c_limit cfg)%Z ->
  run (List.length (st_tapes st)) (loop_start st tid body) = Done tt frb st' -> returned st' ->
  interp orc cfg run OP_LOOP {| fr_tid := tid; fr_ptr := ptr |} st =
    Done tt {| fr_tid := tid; fr_ptr := ptr + List.length (block_ops body) |} (clear_flag st') /\
  flag_clear (clear_flag st') /\ st_stack (clear_flag st') = st_stack st' /\
  st_stack (loop_start st tid body) = c :: s.
Proof.
  intros Hd Hp H1 Hs Hc Hlim Hr Hret.
  split; [|split; [apply clear_flag_clear|split; [reflexivity|exact Hs]]].
  rewrite (op_loop_exact tid st ptr pfx body tail c s Hd Hp H1 Hs).
  apply (loop_go_returned _ _ _ _ _ _ _ frb st' Hc Hlim Hr Hret).
Qed.

(* a false condition: no round; the new tape object exists, the condition item stays on the stack *)
Theorem op_loop_false tid st ptr (pfx body tail : bytes) c s :
  tdata st tid = pfx ++ block_ops body ++ tail -> ptr = List.length pfx ->
  (blen body < 65536)%Z -> st_stack st = c :: s -> bytes_to_bool c = false ->
  interp orc cfg run OP_LOOP {| fr_tid := tid; fr_ptr := ptr |} st =
    Done tt {| fr_tid := tid; fr_ptr := ptr + List.length (block_ops body) |} (loop_start st tid body).
Proof.
  intros Hd Hp H1 Hs Hc.
  rewrite (op_loop_exact tid st ptr pfx body tail c s Hd Hp H1 Hs).
  rewrite loop_go_step, Hc. reflexivity.
Qed.

End Absorb.

Lemma sub_start_tdata_caller st tid body :
  tdata st tid <> [] -> tdata (sub_start st tid body) tid = tdata st tid.
Proof. intro H. apply tdata_sub_old. apply tdata_nonempty_valid. exact H. Qed.

Section Scripts.
Variable orc : oracle.
Variable cfg : config.

Notation sub f := (fun t s0 => run_tape orc cfg f t 0 s0).

(* a tape object holding the single instruction OP_RETURN *)
Lemma return_tape_runs f nt st :
  tdata st nt = encode [IOp0 O_RETURN] ->
  run_tape orc cfg (S (S f)) nt 0 st = Done tt {| fr_tid := nt; fr_ptr := 1 |} (set_flag st).
Proof.
  intro Hd.
  rewrite (run_tape_fetch_at orc cfg _ nt 0 st _ x30 [] Hd eq_refl).
  change (dispatch (N.to_nat (Byte.to_N x30))) with OP_RETURN.
  rewrite op_return_exact. cbn [fr_ptr end_of fr_tid].
  fold (tdata st nt). rewrite Hd. cbn [List.length encode flat_map encode1 app].
  apply run_tape_end. change (tdata (set_flag st) nt) with (tdata st nt). rewrite Hd. simpl. lia.
Qed.

(* a tape object holding OP_FALSE OP_VERIFY: raises, leaving the state as it was *)
Lemma fail_tape_runs f nt st :
  tdata st nt = encode [IOp0 O_FALSE; IOp0 O_VERIFY] ->
  1 <= c_max_item_size cfg -> List.length (st_stack st) < c_max_items cfg ->
  run_tape orc cfg (S (S f)) nt 0 st = Raised ScriptExecutionError {| fr_tid := nt; fr_ptr := 2 |} st.
Proof.
  intros Hd H1 H2.
  rewrite (runs1_at (p := 0) (rest := [x20]) (false_runs orc cfg nt st _ eq_refl (conj H2 H1)) Hd eq_refl).
  rewrite (verify_step orc cfg f nt (0 + List.length [x00]) (with_stack st (boolb false :: st_stack st)) _ [] (boolb false) (st_stack st)
             Hd eq_refl eq_refl).
  cbn [boolb bytes_to_bool]. rewrite with_stack_twice, with_stack_same. reflexivity.
Qed.

(* the instruction under the pointer hands a RETURN on: the pointer is at the end of the tape, run_tape stops *)
Lemma handed_on_stops f tid p st data c tail q st' :
  tdata st tid = data -> skipn p data = c :: tail ->
  interp orc cfg (sub (S f)) (dispatch (N.to_nat (Byte.to_N c))) {| fr_tid := tid; fr_ptr := S p |} st =
    Done tt (end_of {| fr_tid := tid; fr_ptr := q |} st') (set_flag st') ->
  tdata st' tid = data ->
  run_tape orc cfg (S (S f)) tid p st = Done tt {| fr_tid := tid; fr_ptr := List.length data |} (set_flag st').
Proof.
  intros Hd Hp E Hd'. rewrite (run_tape_fetch_at orc cfg _ tid p st data c tail Hd Hp), E.
  cbn [fr_ptr end_of fr_tid]. fold (tdata st' tid). rewrite Hd'.
  apply run_tape_end. change (tdata (set_flag st') tid) with (tdata st' tid). rewrite Hd'. apply Nat.le_refl.
Qed.

(* pre ++ [ IF { RETURN } ] ++ post, reached with a true condition on top of the stack:
   run_tape ends at the END of the tape, in the state in which the block ended (flag set);
   nothing of [post] is executed, whatever it is *)
Theorem if_return_skips_post f tid st (pfx post : bytes) cond s :
  tdata st tid = pfx ++ encode [IIf [IOp0 O_RETURN]] ++ post ->
  st_stack st = cond :: s -> bytes_to_bool cond = true ->
  run_tape orc cfg (S (S (S f))) tid (List.length pfx) st =
    Done tt {| fr_tid := tid; fr_ptr := List.length (pfx ++ encode [IIf [IOp0 O_RETURN]] ++ post) |}
         (set_flag (sub_start (with_stack st s) tid (encode [IOp0 O_RETURN]))).
Proof.
  intros Hd Hs Hc.
  assert (Hd1 : tdata st tid = (pfx ++ [x2b]) ++ block_ops [x30] ++ post) by (rewrite Hd, <- app_assoc; reflexivity).
  assert (Hne : tdata st tid <> []) by (rewrite Hd; destruct pfx; discriminate).
  set (st1 := sub_start (with_stack st s) tid (encode [IOp0 O_RETURN])).
  destruct (op_if_true_returned orc cfg (sub (S (S f))) tid _ st (pfx ++ [x2b]) [x30] post cond s
              Hd1 (eq_sym (last_length pfx x2b)) eq_refl Hs _ (set_flag st1) Hc
              (return_tape_runs f _ st1 (tdata_sub_new (with_stack st s) tid _)) (set_flag_returned st1)) as [E _].
  rewrite <- (set_flag_twice st1).
  apply (handed_on_stops (S f) tid _ st _ x2b _ _ _ Hd (skipn_after pfx _) E).
  rewrite <- Hd. exact (sub_start_tdata_caller (with_stack st s) tid _ Hne).
Qed.

(* pre ++ [ TRY { FALSE VERIFY } EXCEPT { RETURN } ] ++ post: the TRY body raises, the record is
   written under "E", the EXCEPT body RETURNs, the RETURN is handed on: [post] is not executed *)
Definition try_fail_return : list instr := [ITry [IOp0 O_FALSE; IOp0 O_VERIFY] [IOp0 O_RETURN]].

Theorem try_except_return_skips_post f tid st (pfx post : bytes) :
  tdata st tid = pfx ++ encode try_fail_return ++ post ->
  1 <= c_max_item_size cfg -> List.length (st_stack st) < c_max_items cfg ->
  run_tape orc cfg (S (S (S f))) tid (List.length pfx) st =
    Done tt {| fr_tid := tid; fr_ptr := List.length (pfx ++ encode try_fail_return ++ post) |}
         (set_flag (sub_start (write_E ScriptExecutionError
                                 (sub_start st tid (encode [IOp0 O_FALSE; IOp0 O_VERIFY])))
                              tid (encode [IOp0 O_RETURN]))).
Proof.
  intros Hd H1 H2.
  assert (Hd1 : tdata st tid = (pfx ++ [x3d]) ++ ifelse_ops [x00; x20] [x30] ++ post)
    by (rewrite Hd, <- app_assoc; reflexivity).
  assert (Hne : tdata st tid <> []) by (rewrite Hd; destruct pfx; discriminate).
  set (st1 := sub_start st tid (encode [IOp0 O_FALSE; IOp0 O_VERIFY])).
  set (st3 := sub_start (write_E ScriptExecutionError st1) tid (encode [IOp0 O_RETURN])).
  assert (H1d : tdata st1 tid = tdata st tid) by exact (sub_start_tdata_caller st tid _ Hne).
  destruct (op_try_except_returned orc cfg (sub (S (S f))) tid _ st (pfx ++ [x3d]) [x00; x20] [x30] post
              Hd1 (eq_sym (last_length pfx x3d)) eq_refl eq_refl ScriptExecutionError _ st1 _ (set_flag st3)
              (fail_tape_runs f _ st1 (tdata_sub_new st tid _) H1 H2)
              (return_tape_runs f _ st3 (tdata_sub_new (write_E ScriptExecutionError st1) tid _))
              (set_flag_returned st3)) as [E _].
  rewrite <- (set_flag_twice st3).
  apply (handed_on_stops (S f) tid _ st _ x3d _ _ _ Hd (skipn_after pfx _) E).
  rewrite <- Hd, <- H1d. apply (sub_start_tdata_caller (write_E ScriptExecutionError st1) tid).
  change (tdata (write_E ScriptExecutionError st1) tid) with (tdata st1 tid). rewrite H1d. exact Hne.
Qed.

End Scripts.

(* a whole script, for ANY bytes [post] behind the block: TRUE ; IF { RETURN } ; post *)
Theorem script_if_return_any_post orc cfg f (post : bytes) vals :
  1 <= c_max_item_size cfg -> 0 < c_max_items cfg ->
  let script := encode [IOp0 O_TRUE; IIf [IOp0 O_RETURN]] ++ post in
  run_script orc cfg (S (S (S (S f)))) script vals =
    Done tt {| fr_tid := 0; fr_ptr := List.length script |}
         (set_flag (sub_start (init_state cfg script vals) 0 (encode [IOp0 O_RETURN]))).
Proof.
  intros H1 H2 script. unfold run_script.
  set (st0 := init_state cfg script vals).
  rewrite (runs1_at (p := 0) (rest := encode [IIf [IOp0 O_RETURN]] ++ post)
             (true_runs orc cfg 0 st0 [] eq_refl (conj H2 H1)) eq_refl eq_refl).
  exact (if_return_skips_post orc cfg f 0 (with_stack st0 [[xff]]) [x01] post [xff] [] eq_refl eq_refl eq_refl).
Qed.

(* and the same with the RETURN in the EXCEPT body of a TRY whose body fails *)
Theorem script_try_except_return_any_post orc cfg f (post : bytes) vals :
  1 <= c_max_item_size cfg -> 0 < c_max_items cfg ->
  let script := encode try_fail_return ++ post in
  run_script orc cfg (S (S (S f))) script vals =
    Done tt {| fr_tid := 0; fr_ptr := List.length script |}
         (set_flag (sub_start (write_E ScriptExecutionError
                                 (sub_start (init_state cfg script vals) 0 (encode [IOp0 O_FALSE; IOp0 O_VERIFY])))
                              0 (encode [IOp0 O_RETURN]))).
Proof.
  intros H1 H2 script. unfold run_script.
  exact (try_except_return_skips_post orc cfg f 0 (init_state cfg script vals) [] post eq_refl H1 H2).
Qed.

(* concrete instances, by computation (the oracle is never consulted) *)

(* pointer, stack and flag at the normal end of a run *)
Definition summary (o : outcome unit) : option (nat * list bytes * bool) :=
  match o with Done _ fr st => Some (fr_ptr fr, st_stack st, flagged st) | _ => None end.

Definition cfg_d : config := default_config 1000.
Definition cfg_eval_return : config :=
  {| c_max_items := c_max_items cfg_d; c_max_item_size := c_max_item_size cfg_d; c_limit := c_limit cfg_d;
     c_flags := (FKStr (str "eval_return"), FVBool true) :: c_flags cfg_d;
     c_sigext := []; c_ctplugins := []; c_contracts := []; c_now := 1000 |}.

(* [post] would fail if it ran *)
Definition post_fail : list instr := [IOp0 O_FALSE; IOp0 O_VERIFY].

(* IF { RETURN } with a true condition: post is skipped, the pointer is at the end (7 bytes), flag set *)
Example ex_if_return orc :
  summary (run_script orc cfg_d 10 (encode ([IOp0 O_TRUE; IIf [IOp0 O_RETURN]] ++ post_fail)) []) =
    Some (7, [], true).
Proof. vm_compute. reflexivity. Qed.

(* the same script with a false condition: post runs (and fails) *)
Example ex_if_false orc :
  run_script orc cfg_d 10 (encode ([IOp0 O_FALSE; IIf [IOp0 O_RETURN]] ++ post_fail)) [] =
    Raised ScriptExecutionError {| fr_tid := 0; fr_ptr := 7 |}
      (init_state cfg_d (encode ([IOp0 O_FALSE; IIf [IOp0 O_RETURN]] ++ post_fail)) []).
Proof. vm_compute. reflexivity. Qed.

(* IF_ELSE, the RETURN in the arm that runs *)
Example ex_if_else_return orc :
  summary (run_script orc cfg_d 10
             (encode ([IOp0 O_FALSE; IIfElse [IOp0 O_TRUE] [IOp0 O_RETURN]] ++ post_fail)) []) =
    Some (10, [], true).
Proof. vm_compute. reflexivity. Qed.

(* nested: IF { IF { RETURN } ; post } ; post — neither post runs *)
Example ex_nested_if_return orc :
  summary (run_script orc cfg_d 10
             (encode ([IOp0 O_TRUE; IOp0 O_TRUE; IIf (IIf [IOp0 O_RETURN] :: post_fail)] ++ post_fail)) []) =
    Some (13, [], true).
Proof. vm_compute. reflexivity. Qed.

(* TRY { RETURN } EXCEPT { .. }: handed on from the TRY body *)
Example ex_try_return orc :
  summary (run_script orc cfg_d 10 (encode (ITry [IOp0 O_RETURN] [IOp0 O_TRUE] :: post_fail)) []) =
    Some (9, [], true).
Proof. vm_compute. reflexivity. Qed.

(* TRY { FALSE VERIFY } EXCEPT { RETURN }: handed on from the EXCEPT body; "E" holds the record *)
Example ex_try_except_return orc :
  match run_script orc cfg_d 10 (encode (try_fail_return ++ post_fail)) [] with
  | Done _ fr st => Some (fr_ptr fr, st_stack st, flagged st, cache_get (st_cache st) (KBytes (str "E")))
  | _ => None
  end = Some (10, [], true, Some (VMany [ABytes (str "ScriptExecutionError|")])).
Proof. vm_compute. reflexivity. Qed.

(* the ABSORBING instructions: the instruction behind the block DOES run (it pushes 0x2a) *)
Definition post_mark : list instr := [IFix O_PUSH0 [x2a]].

Example ex_loop_absorbs orc :
  summary (run_script orc cfg_d 10 (encode ([IOp0 O_TRUE; ILoop [IOp0 O_RETURN]] ++ post_mark)) []) =
    Some (7, [[x2a]; [xff]], false).       (* the condition item is still on the stack *)
Proof. vm_compute. reflexivity. Qed.

Example ex_call_absorbs orc :
  summary (run_script orc cfg_d 10 (encode ([IDef x07 [IOp0 O_RETURN]; IOp1 O_CALL x07] ++ post_mark)) []) =
    Some (9, [[x2a]], false).
Proof. vm_compute. reflexivity. Qed.

Example ex_eval_absorbs orc :
  summary (run_script orc cfg_d 10 (encode ([IVar1 O_PUSH1 [x30]; IOp0 O_EVAL] ++ post_mark)) []) =
    Some (6, [[x2a]], false).
Proof. vm_compute. reflexivity. Qed.

(* with the flag 'eval_return' in the configuration OP_EVAL hands the RETURN on *)
Example ex_eval_return_hands_on orc :
  summary (run_script orc cfg_eval_return 10 (encode ([IVar1 O_PUSH1 [x30]; IOp0 O_EVAL] ++ post_mark)) []) =
    Some (6, [], true).
Proof. vm_compute. reflexivity. Qed.

(* a RETURN in a called definition ends the definition only; an IF inside a definition hands it on to
   the definition tape, OP_CALL absorbs it there *)
Example ex_call_if_return orc :
  summary (run_script orc cfg_d 12
             (encode ([IDef x07 (IOp0 O_TRUE :: IIf [IOp0 O_RETURN] :: post_fail); IOp1 O_CALL x07] ++ post_mark)) []) =
    Some (15, [[x2a]], false).
Proof. vm_compute. reflexivity. Qed.

Print Assumptions op_return_exact.
Print Assumptions op_return_spec.
Print Assumptions propagate_exact.
Print Assumptions op_if_exact.
Print Assumptions op_if_true_returned.
Print Assumptions op_if_true_clear.
Print Assumptions op_if_true_raises.
Print Assumptions op_if_false.
Print Assumptions op_if_else_exact.
Print Assumptions op_if_else_returned.
Print Assumptions op_if_else_clear.
Print Assumptions op_if_else_raises.
Print Assumptions op_try_except_exact.
Print Assumptions op_try_returned.
Print Assumptions op_try_clear.
Print Assumptions op_try_except_returned.
Print Assumptions op_try_except_clear.
Print Assumptions op_try_except_raises.
Print Assumptions except_body_sees_E.
Print Assumptions op_call_exact.
Print Assumptions op_call_absorbs.
Print Assumptions op_call_raises.
Print Assumptions eval_body_exact.
Print Assumptions op_eval_absorbs.
Print Assumptions op_eval_hands_on.
Print Assumptions op_eval_clear.
Print Assumptions op_eval_raises.
Print Assumptions op_merkleval_tail.
Print Assumptions loop_go_step.
Print Assumptions loop_go_returned.
Print Assumptions loop_go_continues.
Print Assumptions op_loop_exact.
Print Assumptions op_loop_absorbs.
Print Assumptions op_loop_false.
Print Assumptions if_return_skips_post.
Print Assumptions try_except_return_skips_post.
Print Assumptions script_if_return_any_post.
Print Assumptions script_try_except_return_any_post.
Print Assumptions ex_if_return.
Print Assumptions ex_if_false.
Print Assumptions ex_if_else_return.
Print Assumptions ex_nested_if_return.
Print Assumptions ex_try_return.
Print Assumptions ex_try_except_return.
Print Assumptions ex_loop_absorbs.
Print Assumptions ex_call_absorbs.
Print Assumptions ex_eval_absorbs.
Print Assumptions ex_eval_return_hands_on.
Print Assumptions ex_call_if_return.
