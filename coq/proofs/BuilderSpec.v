(* What the lock proofs share.  A lock is proved exact in three steps: the witness runs ([pushes_witness_runs],
   [flagged_witness_runs]: a [runs] segment closed by [script_runs]); the lock then starts as a new tape object
   ([auth_two] / [auth_pair]; [next_start_*] for what the start state keeps) and is stepped with the lemmas of
   TapeLemmas up to its last instruction; the last instruction decides: a closing OP_CHECK_SIG by [check_sig_last],
   an instruction that runs another tape (EVAL, IF_ELSE, CALL, TAPROOT) by [call_last].  The run is summed up
   as [outcome_spec P U (run_tape ..)] and turned into the verdict by [finish_spec]. *)
From Coq Require Import ZArith List Bool Lia.
From Coq.Strings Require Import Byte String.
From TS Require Import Bytes State Prog Ops Interp StateLemmas InterpLemmas NopSpec StackLemmas
  BytesLemmas TimeSpec TapeLemmas SigSpec ConfigSpec AuthSpec Asm Closure Pointer.
Import ListNotations.
Local Open Scope nat_scope.

(* bytes produced by the builders (tied to tapescript.tools by the correspondence run, and to the documented
   encoding by the lemmas below) *)
Definition push1_bytes (v : bytes) : bytes := x03 :: z2b (blen v) :: v.
Definition single_sig_witness (sig : bytes) : bytes := push1_bytes sig.
Definition single_sig_lock (pk : bytes) (fl : byte) : bytes := push1_bytes pk ++ [x23; fl].

Lemma single_sig_lock_encoding pk fl :
  single_sig_lock pk fl = encode [IVar1 O_PUSH1 pk; IOp1 O_CHECK_SIG fl].
Proof. reflexivity. Qed.
Lemma single_sig_witness_encoding sig : single_sig_witness sig = encode [IVar1 O_PUSH1 sig].
Proof. unfold single_sig_witness, push1_bytes, encode. cbn. rewrite app_nil_r. reflexivity. Qed.

Definition pushes_bytes (vs : list bytes) : bytes := flat_map push1_bytes vs.

Lemma sigfield_not_returned i : In i fields18 -> ckey_eqb returned_key (sigfield_key i) = false.
Proof. intro H. simpl in H. repeat (destruct H as [<-|H]; [reflexivity|]). contradiction. Qed.

Lemma msg_of_del_returned f c : msg_of f (cache_del c returned_key) = msg_of f c.
Proof.
  apply excluded_fields_irrelevant. intros i Hi _.
  apply cache_get_del_other. apply sigfield_not_returned. exact Hi.
Qed.

(* the start of the next script: what [next_start] keeps *)
Lemma next_start_tdata st prev l : tdata (snd (next_start st prev l)) (fst (next_start st prev l)) = l.
Proof. exact (proj1 (next_start_spec st prev l)). Qed.

Lemma next_start_lt st prev l : fst (next_start st prev l) < List.length (st_tapes (snd (next_start st prev l))).
Proof. cbn [next_start fst snd st_tapes with_cache with_tapes]. rewrite app_length. simpl. lia. Qed.

Lemma next_start_ts st prev l :
  cache_get (st_cache (snd (next_start st prev l))) ts_key = cache_get (st_cache st) ts_key.
Proof. apply cache_get_del_other. reflexivity. Qed.

Lemma next_start_returned st prev l : cache_get (st_cache (snd (next_start st prev l))) returned_key = None.
Proof. apply cache_get_del_same. Qed.

Lemma next_start_msg st prev l g : msg_of g (st_cache (snd (next_start st prev l))) = msg_of g (st_cache st).
Proof. apply msg_of_del_returned. Qed.

(* the verdict once the last script has run *)
Definition finish (o : outcome unit) : auth_result :=
  match o with
  | Done _ _ st' =>
    match st_stack st' with
    | [item] => AuthVerdict (bytes_eqb item [xff]) (with_stack st' [])
    | _ => AuthVerdict false st'
    end
  | Raised _ _ st' => AuthVerdict false st'
  | OutOfFuel => AuthFuel
  | Unmodelled w => AuthUnmod w
  end.

(* a lock decides P, and leaves the model only if U: on the run of its tape, and on the verdict *)
Definition outcome_spec (P U : Prop) (r : outcome unit) : Prop :=
  match r with
  | Done _ _ st' => exists v, st_stack st' = [boolb v] /\ (v = true <-> P)
  | Raised _ _ _ => ~ P
  | OutOfFuel => False
  | Unmodelled _ => U
  end.

Definition verdict_spec (r : auth_result) (P U : Prop) : Prop :=
  match r with AuthVerdict b _ => b = true <-> P | AuthFuel => False | AuthUnmod _ => U end.

Lemma verdict_spec_iff r (P P' U U' : Prop) :
  (P <-> P') -> (U -> U') -> verdict_spec r P U -> verdict_spec r P' U'.
Proof. intros H1 H2. destruct r; simpl; tauto. Qed.

Lemma outcome_spec_iff (P P' U U' : Prop) r :
  (P <-> P') -> (U -> U') -> outcome_spec P U r -> outcome_spec P' U' r.
Proof.
  intros H1 H2. destruct r as [[] fr st'|e fr st'| |w]; cbn [outcome_spec]; try tauto.
  intros (v & Hs & Hv). exists v. tauto.
Qed.

Lemma finish_spec (P U : Prop) r : outcome_spec P U r -> verdict_spec (finish r) P U.
Proof.
  destruct r as [[] fr st'|e fr st'| |w]; cbn [outcome_spec finish verdict_spec]; try tauto.
  - intros (v & -> & Hv). rewrite boolb_is_true. exact Hv.
  - intro H. split; [discriminate|exact (fun p => False_ind _ (H p))].
Qed.

Section B.
Variable orc : oracle.
Variable cfg : config.

Definition sig_accepts (pk sig : bytes) (allowed : Z) (c : cache) : Prop :=
  flags_permitted (sig_flag sig) allowed = true /\
  exists m x, msg_of (sig_flag sig) c = Some m /\ List.length m <= c_max_item_size cfg /\
              orc PVerify [pk; m; firstn 64 sig] = OOk [x] /\ bytes_to_bool x = true.

Lemma script_runs n code vals st' F :
  runs orc cfg n 0 code (init_state cfg code vals) st' -> n < F ->
  run_script orc cfg F code vals = Done tt {| fr_tid := 0; fr_ptr := List.length code |} st'.
Proof.
  intros H HF. exact (runs_end (p := 0) (data := code) H eq_refl eq_refl HF).
Qed.

Lemma auth_one F l vals : run_auth_scripts orc cfg F [l] vals = finish (run_script orc cfg F l vals).
Proof. unfold run_auth_scripts. destruct (run_script orc cfg F l vals) as [[] fr st| | |]; reflexivity. Qed.

Lemma auth_two F w l vals fr st1 :
  run_script orc cfg F w vals = Done tt fr st1 ->
  run_auth_scripts orc cfg F [w; l] vals =
    finish (run_tape orc cfg F (fst (next_start st1 0 l)) 0 (snd (next_start st1 0 l))).
Proof.
  intro H. unfold run_auth_scripts. rewrite H, auth_rest_unfold.
  destruct (run_tape orc cfg F _ 0 _) as [[] fr' st'|e fr' st'| |w']; reflexivity.
Qed.

Lemma auth_last F l prev st :
  auth_rest orc cfg F [l] prev st =
    finish (run_tape orc cfg F (fst (next_start st prev l)) 0 (snd (next_start st prev l))).
Proof.
  rewrite auth_rest_unfold. destruct (run_tape orc cfg F _ 0 _) as [[] fr' st'|e fr' st'| |w']; reflexivity.
Qed.

(* the second script of a pair runs as tape object 1; its start state when the first has left the stack [stk] *)
Definition pair_start (w l : bytes) (stk : list bytes) (vals : cache) : state :=
  {| st_stack := stk;
     st_cache := cache_del (init_cache cfg vals) returned_key;
     st_tapes := [{| to_data := w; to_count := 0; to_defs := 0 |}; {| to_data := l; to_count := 0; to_defs := 0 |}];
     st_defs := [[]];
     st_log := [];
     st_rand := 0 |}.

Lemma auth_pair F w l vals fr stk :
  run_script orc cfg F w vals = Done tt fr (with_stack (init_state cfg w vals) stk) ->
  run_auth_scripts orc cfg F [w; l] vals = finish (run_tape orc cfg F 1 0 (pair_start w l stk vals)).
Proof. exact (auth_two F w l vals fr (with_stack (init_state cfg w vals) stk)). Qed.

Lemma pair_start_msg w l stk vals g : msg_of g (st_cache (pair_start w l stk vals)) = msg_of g (init_cache cfg vals).
Proof. apply msg_of_del_returned. Qed.

(* a run of PUSH1 instructions pushes all the values, the last one on top *)
Lemma pushes_runs tid : forall (vs : list bytes) st s,
  (forall v, In v vs -> List.length v < 256 /\ fits cfg v) ->
  st_stack st = s -> List.length s + List.length vs <= c_max_items cfg ->
  runs orc cfg (List.length vs) tid (pushes_bytes vs) st (with_stack st (rev vs ++ s)).
Proof.
  induction vs as [|v vs IH]; intros st s Hv Hs Hsp.
  - cbn [rev app]. rewrite <- Hs, with_stack_same. apply runs_nil.
  - destruct (Hv v (or_introl eq_refl)) as [Hl Hf]. cbn [List.length] in Hsp.
    apply (runs_app (n := 1) (a := push1_bytes v) (st1 := with_stack st (v :: s))).
    + apply push1_runs; [exact Hl|exact Hs|exact Hf|unfold space; lia].
    + cbn [rev]. rewrite <- app_assoc, <- (with_stack_twice st (v :: s) (rev vs ++ [v] ++ s)).
      apply IH; [intros v' Hv'; apply Hv; right; exact Hv'|reflexivity|cbn [app List.length]; lia].
Qed.

(* a witness that only pushes, optionally with a closing TRUE / FALSE *)
Lemma pushes_witness_runs F vs vals :
  List.length vs < F -> List.length vs <= c_max_items cfg ->
  (forall v, In v vs -> List.length v < 256 /\ fits cfg v) ->
  run_script orc cfg F (pushes_bytes vs) vals =
    Done tt {| fr_tid := 0; fr_ptr := List.length (pushes_bytes vs) |}
         (with_stack (init_state cfg (pushes_bytes vs) vals) (rev vs)).
Proof.
  intros HF Hit Hv. apply (script_runs (List.length vs)); [|exact HF].
  rewrite <- (app_nil_r (rev vs)). apply pushes_runs; [exact Hv|reflexivity|exact Hit].
Qed.

Lemma flagged_witness_runs F vs (b : bool) vals :
  S (List.length vs) < F -> List.length vs < c_max_items cfg -> 1 <= c_max_item_size cfg ->
  (forall v, In v vs -> List.length v < 256 /\ fits cfg v) ->
  let w := pushes_bytes vs ++ [if b then x01 else x00] in
  run_script orc cfg F w vals =
    Done tt {| fr_tid := 0; fr_ptr := List.length w |} (with_stack (init_state cfg w vals) (boolb b :: rev vs)).
Proof.
  intros HF Hit Hsz Hv w. apply (script_runs (List.length vs + 1)); [|lia].
  apply (runs_app (st1 := with_stack (init_state cfg w vals) (rev vs))).
  - rewrite <- (app_nil_r (rev vs)). apply pushes_runs; [exact Hv|reflexivity|cbn [List.length]; blia].
  - assert (Hr : room cfg (rev vs)) by (unfold room; rewrite rev_length; lia).
    rewrite <- (with_stack_twice _ (rev vs) (boolb b :: rev vs)).
    destruct b; [apply true_runs|apply false_runs]; first [reflexivity|exact Hr].
Qed.

(* DUP ; SHAKE256 n ; PUSH1 h ; EQUAL_VERIFY : the item on top is kept iff it hashes to h *)
Lemma hash_commit_step f tid p st data rest n (h x : bytes) (s : list bytes) :
  tdata st tid = data -> skipn p data = [x1d] ++ [x1f; n] ++ push1_bytes h ++ [x22] ++ rest ->
  st_stack st = x :: s -> fits cfg x -> List.length h < 256 -> fits cfg h ->
  List.length s + 3 <= c_max_items cfg -> 1 <= c_max_item_size cfg ->
  run_tape orc cfg (S (S (S (S f)))) tid p st =
    match orc PShake256 [x; [n]] with
    | OOk [d] =>
      if c_max_item_size cfg <? List.length d
      then Raised ScriptExecutionError {| fr_tid := tid; fr_ptr := p + 3 |} (with_stack st (x :: s))
      else if bytes_eqb h d
           then run_tape orc cfg f tid (p + 3 + List.length (push1_bytes h) + 1) (with_stack st (x :: s))
           else Raised ScriptExecutionError {| fr_tid := tid; fr_ptr := p + 3 + List.length (push1_bytes h) + 1 |}
                       (with_stack st (x :: s))
    | OOk _ => Unmodelled "oracle arity"
    | OErr e => Raised e {| fr_tid := tid; fr_ptr := p + 3 |} (with_stack st (x :: s))
    end.
Proof.
  intros Hd Hp Hs Fx Lh Fh Hit Hsz.
  rewrite (runs1_at (dup_runs orc cfg tid st x s Hs Fx ltac:(lia)) Hd Hp).
  apply skipn_app_r in Hp.
  erewrite shake_step; [|exact Hd|exact Hp|reflexivity|unfold space; simpl; lia].
  destruct (orc PShake256 [x; [n]]) as [[|d [|d' l]]|e]; [reflexivity| |reflexivity|do 2 f_equal; simpl; lia].
  destruct (c_max_item_size cfg <? List.length d); [do 2 f_equal; simpl; lia|].
  apply (skipn_app_r _ _ [x1f; n]) in Hp.
  erewrite (runs1_at (code := push1_bytes h)); [|apply (push1_runs orc cfg tid _ h (d :: x :: s))|exact Hd|exact Hp];
    [|exact Lh|reflexivity|exact Fh|unfold space; simpl; lia].
  apply skipn_app_r in Hp.
  erewrite equal_verify_step; [|exact Hd|exact Hp|reflexivity|unfold room; simpl; lia].
  destruct (bytes_eqb h d); do 2 f_equal; simpl; lia.
Qed.

(* PUSH1 c ; CHECK_TIMESTAMP_VERIFY *)
Lemma push1_check_timestamp_verify_step f tid p st data rest (c : bytes) s ts thr :
  tdata st tid = data -> skipn p data = push1_bytes c ++ x26 :: rest ->
  0 < List.length c < 256 -> st_stack st = s -> fits cfg c -> space cfg s ->
  cache_get (st_cache st) ts_key = Some (VOne (AInt ts)) ->
  flag_get (c_flags cfg) thr_key = Some (FVInt thr) ->
  run_tape orc cfg (S (S f)) tid p st =
    if ts_verdict cfg (be_to_Z c) ts thr
    then run_tape orc cfg f tid (p + List.length (push1_bytes c) + 1) (with_stack st s)
    else Raised ScriptExecutionError {| fr_tid := tid; fr_ptr := S (p + List.length (push1_bytes c)) |}
                (with_stack st s).
Proof.
  intros Hd Hp Hc Hs Fc Hsp Hts Hthr.
  rewrite (runs1_at (code := push1_bytes c) (push1_runs orc cfg tid st c s ltac:(lia) Hs Fc Hsp) Hd Hp).
  rewrite (check_timestamp_verify_step orc cfg f tid _ (with_stack st (c :: s)) data rest c s ts thr Hd
             (skipn_app_r p data _ _ Hp) eq_refl ltac:(intros ->; simpl in Hc; lia) Hts Hthr)
    by (unfold room, space, fits in *; lia).
  rewrite with_stack_twice. reflexivity.
Qed.

(* the PVerify oracle answered with a list that is not exactly one item: outside the model *)
Definition bad_arity (pk sig : bytes) (c : cache) : Prop :=
  exists m l, msg_of (sig_flag sig) c = Some m /\
              orc PVerify [pk; m; firstn 64 sig] = OOk l /\ List.length l <> 1.

(* a 32-byte key over a signature of 64 or 65 bytes: every outcome of the check against [sig_accepts];
   [c] is any cache that selects the same message *)
Lemma check_sig_closing run allowed fr st pk sig rest c :
  st_stack st = pk :: sig :: rest ->
  List.length pk = 32 -> (List.length sig = 64 \/ List.length sig = 65) -> room cfg rest ->
  msg_of (sig_flag sig) (st_cache st) = msg_of (sig_flag sig) c ->
  match interp orc cfg run (check_sig_body allowed) fr st with
  | Done _ fr' st' =>
    fr' = fr /\ exists v, st' = with_stack st (boolb v :: rest) /\
                          (v = true <-> sig_accepts pk sig allowed c)
  | Raised _ _ _ => ~ sig_accepts pk sig allowed c
  | OutOfFuel => False
  | Unmodelled _ => bad_arity pk sig c
  end.
Proof.
  intros Hs Hpk Hsig [Hr1 Hr2] Hm.
  assert (E1 : negb (blen pk =? 32)%Z = false) by (unfold blen; rewrite Hpk; reflexivity).
  assert (E2 : negb ((blen sig =? 64) || (blen sig =? 65))%Z = false)
    by (unfold blen; destruct Hsig as [->| ->]; reflexivity).
  assert (E3 : (c_max_items cfg <=? List.length rest) = false) by (apply Nat.leb_gt; exact Hr1).
  assert (E4 : (c_max_item_size cfg <? 1) = false) by (apply Nat.ltb_ge; exact Hr2).
  rewrite (check_sig_body_exact orc cfg run allowed fr st pk sig rest Hs). cbv zeta.
  rewrite E1, E2, Hm, E3, E4. unfold sig_accepts, bad_arity.
  destruct (flags_permitted (sig_flag sig) allowed); cbn [negb]; [|intros [H _]; discriminate].
  destruct (msg_of (sig_flag sig) c) as [m|]; [|intros (_ & m & x & H & _); discriminate].
  rewrite orb_false_r.
  destruct (Nat.ltb_spec (c_max_item_size cfg) (List.length m)) as [El|El].
  { intros (_ & m' & x & H & Hlen & _). injection H as <-. lia. }
  destruct (orc PVerify [pk; m; firstn 64 sig]) as [[|x [|y l]]|e] eqn:Eo.
  - exists m, []. split; [reflexivity|]. split; [exact Eo|discriminate].
  - split; [reflexivity|]. exists (bytes_to_bool x). split; [reflexivity|]. split.
    + intro Hb. split; [reflexivity|]. exists m, x. auto.
    + intros (_ & m' & x' & H1 & _ & H2 & H3). injection H1 as <-. rewrite Eo in H2. injection H2 as <-.
      exact H3.
  - exists m, (x :: y :: l). split; [reflexivity|]. split; [exact Eo|discriminate].
  - intros (_ & m' & x & H1 & _ & H2 & _). injection H1 as <-. rewrite Eo in H2. discriminate.
Qed.

(* OP_CHECK_SIG fl with its plugins and operand *)
Lemma check_sig_exec run fr st fl tail pk sig rest c :
  data_at fr st = fl :: tail -> st_stack st = pk :: sig :: rest ->
  List.length pk = 32 -> (List.length sig = 64 \/ List.length sig = 65) -> room cfg rest ->
  msg_of (sig_flag sig) (st_cache st) = msg_of (sig_flag sig) c ->
  match interp orc cfg run OP_CHECK_SIG fr st with
  | Done _ fr' st' =>
    fr' = adv fr 1 /\ exists v, st' = with_stack (sigext_log cfg st) (boolb v :: rest) /\
                                (v = true <-> sig_accepts pk sig (b2z fl) c)
  | Raised _ _ _ => ~ sig_accepts pk sig (b2z fl) c
  | OutOfFuel => False
  | Unmodelled _ => bad_arity pk sig c
  end.
Proof.
  intros Hd Hs Hpk Hsig Hr Hm. rewrite (check_sig_decomposed orc cfg run fr st fl tail Hd).
  exact (check_sig_closing run (b2z fl) (adv fr 1) (sigext_log cfg st) pk sig rest c Hs Hpk Hsig Hr Hm).
Qed.

(* the tape ends with CHECK_SIG fl and the stack is [pk; sig] *)
Lemma check_sig_last f tid p st data fl pk sig c :
  tdata st tid = data -> skipn p data = [x23; fl] -> st_stack st = [pk; sig] ->
  List.length pk = 32 -> (List.length sig = 64 \/ List.length sig = 65) -> room cfg [] ->
  msg_of (sig_flag sig) (st_cache st) = msg_of (sig_flag sig) c ->
  outcome_spec (sig_accepts pk sig (b2z fl) c) (bad_arity pk sig c)
               (run_tape orc cfg (S (S f)) tid p st).
Proof.
  intros Hd Hp Hs Hpk Hsig Hr Hm.
  rewrite (run_tape_fetch_at orc cfg (S f) tid p st data x23 [fl] Hd Hp).
  change (dispatch (N.to_nat (Byte.to_N x23))) with OP_CHECK_SIG.
  pose proof (check_sig_exec (fun t s => run_tape orc cfg (S f) t 0 s) _ st fl [] pk sig [] c
                (data_at_next tid p st data x23 [fl] Hd Hp) Hs Hpk Hsig Hr Hm) as H.
  destruct (interp _ _ _ OP_CHECK_SIG _ st) as [[] fr' st'|e fr' st'| |w]; cbn [outcome_spec]; try exact H.
  destruct H as (-> & v & -> & Hv). rewrite run_tape_end_at with (data := data).
  - exists v. split; [reflexivity|exact Hv].
  - exact Hd.
  - exact (skipn_app_r (S p) data [fl] [] (skipn_S_of data p x23 [fl] Hp)).
Qed.

(* tape data are immutable: whatever a called script does, the calling tape still holds its bytes *)
Lemma data_kept F t p st0 tid (o : outcome unit) :
  o = run_tape orc cfg F t p st0 -> tid < List.length (st_tapes st0) ->
  match o with
  | Done _ _ st' | Raised _ _ st' => tdata st' tid = tdata st0 tid
  | _ => True
  end.
Proof.
  intros -> Hlt. pose proof (run_tape_heap orc cfg F t p st0) as Hh.
  destruct (run_tape orc cfg F t p st0) as [[] fr' st'|e fr' st'| |w]; try exact I;
    cbn [R_out] in Hh; destruct Hh as [_ Hh]; exact (Hh tid Hlt).
Qed.

(* the outcome of an instruction that runs another tape, from the outcome [o] of that tape: on a normal end it
   still changes the state by [post] and leaves the pointer at [q]; an error is passed on with the pointer [r] *)
Definition call_outcome (post : state -> state) (q : state -> nat) (tid r : nat) (o : outcome unit) : outcome unit :=
  match o with
  | Done _ _ st' => Done tt {| fr_tid := tid; fr_ptr := q st' |} (post st')
  | Raised e _ st' => Raised e {| fr_tid := tid; fr_ptr := r |} st'
  | OutOfFuel => OutOfFuel
  | Unmodelled w => Unmodelled w
  end.

(* back in the calling tape, whose data [o] has kept: if the instruction leaves the pointer at the end of the tape,
   written either way (behind itself, or the length of the tape: control flag set by RETURN in the called tape),
   the calling tape ends there *)
Lemma call_return f tid data post q r o :
  match o with Done _ _ st' => tdata st' tid = data | _ => True end ->
  (forall s, tdata (post s) tid = tdata s tid) ->
  (forall s, q s = List.length data \/ q s = List.length (tdata s tid)) ->
  match call_outcome post q tid r o with
  | Done _ fr' st' => run_tape orc cfg (S f) tid (fr_ptr fr') st'
  | Raised e fr' st' => Raised e fr' st'
  | OutOfFuel => OutOfFuel
  | Unmodelled w => Unmodelled w
  end = call_outcome post (fun _ => List.length data) tid r o.
Proof.
  intros Hk Hpost Hq. destruct o as [[] fr' st'|e fr' st'| |w]; cbn [call_outcome]; try reflexivity.
  cbn [fr_ptr]. replace (q st') with (List.length data) by (destruct (Hq st') as [-> | ->]; rewrite ?Hk; reflexivity).
  apply run_tape_end. rewrite Hpost, Hk. apply le_n.
Qed.

(* such an instruction (EVAL, IF_ELSE, IF, TRY_EXCEPT, CALL, TAPROOT) as the LAST one of its tape, from its
   instruction-level equation *)
Lemma call_last f tid p st data c tail T st1 post q :
  tdata st tid = data -> skipn p data = c :: tail ->
  tid < List.length (st_tapes st1) -> tdata st1 tid = data ->
  (forall s, tdata (post s) tid = tdata s tid) ->
  (forall s, q s = S p + List.length tail \/ q s = List.length (tdata s tid)) ->
  interp orc cfg (fun t s => run_tape orc cfg (S f) t 0 s) (dispatch (N.to_nat (Byte.to_N c)))
         {| fr_tid := tid; fr_ptr := S p |} st =
    call_outcome post q tid (S p + List.length tail) (run_tape orc cfg (S f) T 0 st1) ->
  run_tape orc cfg (S (S f)) tid p st =
    call_outcome post (fun _ => List.length data) tid (List.length data) (run_tape orc cfg (S f) T 0 st1).
Proof.
  intros Hd Hp Hlt Hd1 Hpost Hq Hi.
  rewrite (run_tape_fetch_at orc cfg (S f) tid p st data c tail Hd Hp), Hi.
  rewrite <- (skipn_cons_length p data c tail Hp) in *.
  apply call_return; [|exact Hpost|exact Hq].
  pose proof (data_kept (S f) T 0 st1 tid _ eq_refl Hlt) as Hk.
  destruct (run_tape orc cfg (S f) T 0 st1); try exact I. rewrite Hk. exact Hd1.
Qed.

Lemma outcome_spec_call (P U : Prop) post q tid r o :
  (forall s, st_stack (post s) = st_stack s) ->
  outcome_spec P U o -> outcome_spec P U (call_outcome post q tid r o).
Proof.
  intros Hpost H. destruct o as [[] fr' st'|e fr' st'| |w]; cbn [call_outcome outcome_spec]; [rewrite Hpost|..];
    exact H.
Qed.

Hypothesis Hsize : 65 <= c_max_item_size cfg.
Hypothesis Hitems : 2 <= c_max_items cfg.

Lemma witness_runs f sig vals :
  (List.length sig = 64 \/ List.length sig = 65) ->
  run_script orc cfg (S (S f)) (single_sig_witness sig) vals =
    Done tt {| fr_tid := 0; fr_ptr := 2 + List.length sig |}
         (with_stack (init_state cfg (single_sig_witness sig) vals) [sig]).
Proof using Hsize Hitems.
  intro Hl. apply (script_runs 1); [|lia].
  apply push1_runs; [lia|reflexivity|unfold fits; lia|unfold space; simpl; lia].
Qed.

(* C13, make_single_sig_witness / make_single_sig_lock: the pair (witness pushing sig, lock for key pk with
   allowed-flags byte fl), the authorisation verdict exactly *)
Theorem single_sig_exact f pk sig fl vals :
  List.length pk = 32 -> (List.length sig = 64 \/ List.length sig = 65) ->
  match run_auth_scripts orc cfg (S (S (S f))) [single_sig_witness sig; single_sig_lock pk fl] vals with
  | AuthVerdict b _ => b = true <-> sig_accepts pk sig (b2z fl) (init_cache cfg vals)
  | AuthFuel => False
  | AuthUnmod _ => exists m l, msg_of (sig_flag sig) (init_cache cfg vals) = Some m /\
                               orc PVerify [pk; m; firstn 64 sig] = OOk l /\ List.length l <> 1
  end.
Proof using Hsize Hitems.
  intros Hpk Hsig.
  rewrite (auth_two _ _ _ vals _ _ (witness_runs (S f) sig vals Hsig)).
  set (st1 := with_stack (init_state cfg (single_sig_witness sig) vals) [sig]).
  pose proof (next_start_tdata st1 0 (single_sig_lock pk fl)) as Hd.
  pose proof (next_start_msg st1 0 (single_sig_lock pk fl) (sig_flag sig)) as Hm.
  set (tid := fst (next_start st1 0 (single_sig_lock pk fl))) in *.
  set (st2 := snd (next_start st1 0 (single_sig_lock pk fl))) in *.
  assert (Hp : skipn 0 (single_sig_lock pk fl) = push1_bytes pk ++ [x23; fl]) by reflexivity.
  rewrite (runs1_at (push1_runs orc cfg tid st2 pk [sig] ltac:(lia) eq_refl ltac:(unfold fits; lia)
                       ltac:(unfold space; simpl; lia)) Hd Hp).
  apply (finish_spec (sig_accepts pk sig (b2z fl) (init_cache cfg vals))
                     (bad_arity pk sig (init_cache cfg vals))).
  apply (check_sig_last f tid _ (with_stack st2 [pk; sig]) _ fl pk sig (init_cache cfg vals) Hd (skipn_app_r 0 _ _ _ Hp));
    [reflexivity|exact Hpk|exact Hsig|unfold room; simpl; lia|exact Hm].
Qed.

End B.
