(* C07 (stack part): in every reachable state, also the one carried by a raise, the stack holds
   at most max_items items and no item longer than max_item_size. *)
From Coq Require Import ZArith List Bool Lia.
From Coq.Strings Require Import Byte String.
From TS Require Import Bytes State Prog Interp StateLemmas Closure.
Import ListNotations.
Local Open Scope nat_scope.

Section Lim.
Variable orc : oracle.
Variable cfg : config.

Definition item_ok (b : bytes) : Prop := List.length b <= c_max_item_size cfg.
Definition limits_ok (st : state) : Prop :=
  List.length (st_stack st) <= c_max_items cfg /\ Forall item_ok (st_stack st).

Definition R_lim (st st' : state) : Prop := limits_ok st -> limits_ok st'.

Lemma R_lim_refl s : R_lim s s.
Proof. intro H. exact H. Qed.
Lemma R_lim_trans a b c : R_lim a b -> R_lim b c -> R_lim a c.
Proof. unfold R_lim. auto. Qed.
Lemma R_lim_stack_eq st st' : st_stack st' = st_stack st -> R_lim st st'.
Proof. intros E [H1 H2]. unfold limits_ok. rewrite E. split; assumption. Qed.

Lemma swap_nth_ok l i j :
  List.length l <= c_max_items cfg -> Forall item_ok l ->
  List.length (swap_nth l i j) <= c_max_items cfg /\ Forall item_ok (swap_nth l i j).
Proof.
  intros H1 H2. destruct l as [|x l'] eqn:E; [destruct i, j; simpl; auto|].
  rewrite <- E in *. clear E.
  assert (Hd : item_ok []) by (unfold item_ok; simpl; lia).
  assert (Hs : swap_nth l i j = list_set (list_set l i (nth j l [])) j (nth i l [])).
  { destruct l; reflexivity. }
  rewrite Hs. split.
  - rewrite !list_set_length. exact H1.
  - apply list_set_Forall; [apply list_set_Forall|]; auto; apply nth_Forall; auto.
Qed.

Lemma step_closed_lim : step_closed orc cfg R_lim.
Proof.
  intros run Hrun X a fr st.
  destruct a; simpl;
    try (apply R_lim_refl);
    try (apply R_lim_stack_eq; reflexivity).
  - (* AGet *)
    destruct (st_stack st) as [|x s] eqn:E; simpl; [apply R_lim_refl|].
    intros [H1 H2]. unfold limits_ok in *. rewrite E in *. simpl in *.
    split; [lia|inversion H2; assumption].
  - (* APut *)
    destruct (_ <? _) eqn:E1; simpl; [apply R_lim_refl|].
    destruct (_ <=? _) eqn:E2; simpl; [apply R_lim_refl|].
    apply Nat.ltb_ge in E1. apply Nat.leb_gt in E2.
    intros [H1 H2]. unfold limits_ok. simpl. split; [lia|constructor; [exact E1|exact H2]].
  - (* APeek *) destruct (st_stack st); simpl; apply R_lim_refl.
  - (* ASwapIdx *)
    destruct (_ && _); simpl; [|exact I].
    intros [H1 H2]. unfold limits_ok. simpl. apply swap_nth_ok; assumption.
  - (* ARead *) destruct (_ <? _); simpl; apply R_lim_refl.
  - (* ACallDef *)
    eapply after_run_closed; [exact R_lim_trans| |apply Hrun]; apply R_lim_stack_eq; reflexivity.
  - (* ARunSub *)
    eapply after_run_closed; [exact R_lim_trans| |apply Hrun]; apply R_lim_stack_eq; reflexivity.
  - (* ATrySub *)
    eapply try_run_closed; [exact R_lim_trans| |apply Hrun]; apply R_lim_stack_eq; reflexivity.
  - (* ARunLoop *) eapply after_run_closed; [exact R_lim_trans| |apply Hrun]; apply R_lim_refl.
Qed.

Theorem run_tape_limits : forall fuel tid ptr st,
  limits_ok st ->
  match run_tape orc cfg fuel tid ptr st with
  | Done _ _ st' | Raised _ _ st' => limits_ok st'
  | _ => True
  end.
Proof.
  intros fuel tid ptr st H.
  pose proof (run_tape_closed orc cfg R_lim R_lim_refl R_lim_trans step_closed_lim fuel tid ptr st) as Hc.
  destruct (run_tape orc cfg fuel tid ptr st); simpl in *; try exact I; apply Hc; exact H.
Qed.

Lemma init_limits script vals : limits_ok (init_state cfg script vals).
Proof. unfold limits_ok. simpl. split; [lia|constructor]. Qed.

Theorem run_script_limits fuel script vals :
  match run_script orc cfg fuel script vals with
  | Done _ _ st' | Raised _ _ st' => limits_ok st'
  | _ => True
  end.
Proof. apply run_tape_limits. apply init_limits. Qed.

Theorem run_auth_scripts_limits fuel scripts vals :
  match run_auth_scripts orc cfg fuel scripts vals with
  | AuthVerdict _ st' => limits_ok st'
  | _ => True
  end.
Proof.
  apply (run_auth_scripts_inv orc cfg limits_ok).
  - exact run_tape_limits.
  - intros st prev s H. exact H.
  - intros st H. exact H.
  - intros st H. unfold limits_ok. simpl. split; [lia|constructor].
  - intro s. apply init_limits.
Qed.

End Lim.
