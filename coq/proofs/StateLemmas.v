(* Basic facts about keys, caches, definition tables and the heap (tape objects, definition tables) of a state. *)
From Coq Require Import ZArith List Bool Lia.
From Coq.Strings Require Import Byte.
From TS Require Import Bytes State Prog Ops Interp.
Import ListNotations.
Local Open Scope nat_scope.

Lemma byte_eqb_eq (a b : byte) : Byte.eqb a b = true <-> a = b.
Proof.
  split.
  - apply Byte.byte_dec_bl.
  - intros ->. apply Byte.byte_dec_lb. reflexivity.
Qed.

Lemma bytes_eqb_eq (a b : bytes) : bytes_eqb a b = true <-> a = b.
Proof.
  revert b. induction a as [|x a IH]; intros [|y b]; simpl; split; intro H; try congruence; try reflexivity.
  - apply andb_true_iff in H. destruct H as [H1 H2].
    apply byte_eqb_eq in H1. apply IH in H2. congruence.
  - injection H as -> ->. apply andb_true_iff. split; [apply byte_eqb_eq|apply IH]; reflexivity.
Qed.

Lemma bytes_eqb_refl (a : bytes) : bytes_eqb a a = true.
Proof. apply bytes_eqb_eq. reflexivity. Qed.

Lemma bytes_eqb_neq (a b : bytes) : a <> b -> bytes_eqb a b = false.
Proof.
  intro H. destruct (bytes_eqb a b) eqn:E; [|reflexivity].
  apply bytes_eqb_eq in E. contradiction.
Qed.

Lemma bytes_eqb_sym (a b : bytes) : bytes_eqb a b = bytes_eqb b a.
Proof.
  destruct (bytes_eqb a b) eqn:E1, (bytes_eqb b a) eqn:E2; try reflexivity.
  - apply bytes_eqb_eq in E1. subst. rewrite bytes_eqb_refl in E2. discriminate.
  - apply bytes_eqb_eq in E2. subst. rewrite bytes_eqb_refl in E1. discriminate.
Qed.

Lemma ckey_eqb_eq (a b : ckey) : ckey_eqb a b = true <-> a = b.
Proof.
  destruct a, b; simpl; split; intro H; try congruence.
  - apply bytes_eqb_eq in H. congruence.
  - injection H as ->. apply bytes_eqb_refl.
  - apply bytes_eqb_eq in H. congruence.
  - injection H as ->. apply bytes_eqb_refl.
Qed.

Lemma ckey_eqb_refl (a : ckey) : ckey_eqb a a = true.
Proof. apply ckey_eqb_eq. reflexivity. Qed.

Lemma cache_get_set_other (c : cache) (k k' : ckey) (v : cval) :
  ckey_eqb k' k = false -> cache_get (cache_set c k' v) k = cache_get c k.
Proof.
  intro H. induction c as [|[k0 v0] c IH]; simpl.
  - rewrite H. reflexivity.
  - destruct (ckey_eqb k0 k') eqn:E.
    + apply ckey_eqb_eq in E. subst k0. simpl. rewrite H. reflexivity.
    + simpl. destruct (ckey_eqb k0 k); [reflexivity|exact IH].
Qed.

Lemma cache_get_set_same (c : cache) (k : ckey) (v : cval) :
  cache_get (cache_set c k v) k = Some v.
Proof.
  induction c as [|[k0 v0] c IH]; simpl.
  - rewrite ckey_eqb_refl. reflexivity.
  - destruct (ckey_eqb k0 k) eqn:E; simpl.
    + rewrite ckey_eqb_refl. reflexivity.
    + rewrite E. exact IH.
Qed.

Lemma cache_get_del_other (c : cache) (k k' : ckey) :
  ckey_eqb k' k = false -> cache_get (cache_del c k') k = cache_get c k.
Proof.
  intro H. induction c as [|[k0 v0] c IH]; simpl; [reflexivity|].
  destruct (ckey_eqb k0 k') eqn:E.
  - apply ckey_eqb_eq in E. subst k0. rewrite H. exact IH.
  - simpl. destruct (ckey_eqb k0 k); [reflexivity|exact IH].
Qed.

Lemma cache_get_del_same (c : cache) (k : ckey) : cache_get (cache_del c k) k = None.
Proof.
  induction c as [|[k0 v0] c IH]; simpl; [reflexivity|].
  destruct (ckey_eqb k0 k) eqn:E; [exact IH|]. simpl. rewrite E. exact IH.
Qed.

Lemma cache_del_absent (c : cache) k : cache_get c k = None -> cache_del c k = c.
Proof.
  induction c as [|[k0 v0] c IH]; simpl; [reflexivity|].
  destruct (ckey_eqb k0 k); [discriminate|]. intro H. rewrite IH by exact H. reflexivity.
Qed.

Lemma cache_set_twice (c : cache) k v : cache_set (cache_set c k v) k v = cache_set c k v.
Proof.
  induction c as [|[k0 v0] c IH]; simpl.
  - rewrite ckey_eqb_refl. reflexivity.
  - destruct (ckey_eqb k0 k) eqn:E; simpl.
    + rewrite ckey_eqb_refl. reflexivity.
    + rewrite E, IH. reflexivity.
Qed.

Lemma defs_get_put_same d h t : defs_get (defs_put d h t) h = Some t.
Proof.
  induction d as [|[h' t'] r IH]; cbn [defs_put defs_get].
  - replace (Byte.eqb h h) with true by (symmetry; apply byte_eqb_eq; reflexivity). reflexivity.
  - destruct (Byte.eqb h' h) eqn:E; cbn [defs_get].
    + replace (Byte.eqb h h) with true by (symmetry; apply byte_eqb_eq; reflexivity). reflexivity.
    + rewrite E. exact IH.
Qed.

Lemma defs_get_put_other d h h' t : h' <> h -> defs_get (defs_put d h t) h' = defs_get d h'.
Proof.
  intro Hne.
  assert (Hf : Byte.eqb h h' = false).
  { destruct (Byte.eqb h h') eqn:E; [|reflexivity]. apply byte_eqb_eq in E. congruence. }
  induction d as [|[a ta] r IH]; cbn [defs_put defs_get].
  - rewrite Hf. reflexivity.
  - destruct (Byte.eqb a h) eqn:E; cbn [defs_get].
    + apply byte_eqb_eq in E. subst a. rewrite Hf. reflexivity.
    + destruct (Byte.eqb a h'); [reflexivity|exact IH].
Qed.

Lemma list_set_length {A} (l : list A) i x : List.length (list_set l i x) = List.length l.
Proof. revert i. induction l as [|h t IH]; intros [|i]; simpl; auto. Qed.

Lemma list_set_oob {A} (l : list A) i x : List.length l <= i -> list_set l i x = l.
Proof.
  revert i. induction l as [|h t IH]; intros [|i] H; simpl in *; try lia; try reflexivity.
  rewrite IH by lia. reflexivity.
Qed.

Lemma list_set_Forall {A} (P : A -> Prop) (l : list A) i x :
  Forall P l -> P x -> Forall P (list_set l i x).
Proof.
  intros Hl Hx. revert i. induction Hl as [|h t Hh Ht IH]; intros [|i]; simpl; auto.
Qed.

Lemma nth_Forall {A} (P : A -> Prop) (l : list A) i d : Forall P l -> P d -> P (nth i l d).
Proof.
  intros Hl Hd. revert i. induction Hl as [|h t Hh Ht IH]; intros [|i]; simpl; auto.
Qed.

Lemma nth_list_set_same {A} (l : list A) i x d : i < List.length l -> nth i (list_set l i x) d = x.
Proof. revert i. induction l as [|h t IH]; intros [|i] H; simpl in *; try lia; auto. apply IH. lia. Qed.

Lemma nth_list_set_other {A} (l : list A) i j x d : i <> j -> nth j (list_set l i x) d = nth j l d.
Proof.
  revert i j. induction l as [|h t IH]; intros [|i] [|j] H; simpl; auto; try congruence.
Qed.

Lemma nth_app_old {A} (l r : list A) i d : i < List.length l -> nth i (l ++ r) d = nth i l d.
Proof. intro H. apply app_nth1. exact H. Qed.

(* A state [st'] whose tape objects (definition tables) are those of [st] and new ones behind them: the states in
   which a sub-tape, an EVALuated script or a definition starts.  The premise is closed by [eq_refl]. *)
Lemma nth_tape_old st st' l t :
  st_tapes st' = st_tapes st ++ l -> t < List.length (st_tapes st) -> nth_tape st' t = nth_tape st t.
Proof. intros E H. unfold nth_tape. rewrite E. apply app_nth1. exact H. Qed.

Lemma nth_tape_new st st' o : st_tapes st' = st_tapes st ++ [o] -> nth_tape st' (List.length (st_tapes st)) = o.
Proof. intro E. unfold nth_tape. rewrite E, app_nth2, Nat.sub_diag by lia. reflexivity. Qed.

Lemma tapes_len_new st st' o :
  st_tapes st' = st_tapes st ++ [o] -> List.length (st_tapes st') = S (List.length (st_tapes st)).
Proof. intro E. rewrite E, app_length. simpl. lia. Qed.

Lemma nth_defs_new st st' d : st_defs st' = st_defs st ++ [d] -> nth_defs st' (List.length (st_defs st)) = d.
Proof. intro E. unfold nth_defs. rewrite E, app_nth2, Nat.sub_diag by lia. reflexivity. Qed.

Lemma defs_len_new st st' d :
  st_defs st' = st_defs st ++ [d] -> List.length (st_defs st') = S (List.length (st_defs st)).
Proof. intro E. rewrite E, app_length. simpl. lia. Qed.

Lemma nth_tape_set_count_same st t c :
  t < List.length (st_tapes st) ->
  nth_tape (set_count st t c) t =
    {| to_data := to_data (nth_tape st t); to_count := c; to_defs := to_defs (nth_tape st t) |}.
Proof. intro H. unfold nth_tape, set_count. cbn [st_tapes with_tapes]. apply nth_list_set_same. exact H. Qed.

Lemma count_set_count_same st t c : t < List.length (st_tapes st) -> to_count (nth_tape (set_count st t c) t) = c.
Proof. intro H. rewrite nth_tape_set_count_same by exact H. reflexivity. Qed.

Lemma nth_tape_set_count_other st t c t' : t <> t' -> nth_tape (set_count st t c) t' = nth_tape st t'.
Proof. intro H. unfold nth_tape, set_count. cbn [st_tapes with_tapes]. apply nth_list_set_other. exact H. Qed.

Lemma set_count_length st t c : List.length (st_tapes (set_count st t c)) = List.length (st_tapes st).
Proof. unfold set_count. cbn [st_tapes with_tapes]. apply list_set_length. Qed.

Lemma data_set_count st t c t' : to_data (nth_tape (set_count st t c) t') = to_data (nth_tape st t').
Proof.
  destruct (Nat.eq_dec t t') as [<-|Hn].
  - destruct (Nat.lt_ge_cases t (List.length (st_tapes st))) as [Hl|Hg].
    + rewrite nth_tape_set_count_same by exact Hl. reflexivity.
    + unfold nth_tape. rewrite !nth_overflow; [reflexivity|lia|rewrite set_count_length; lia].
  - rewrite nth_tape_set_count_other by exact Hn. reflexivity.
Qed.
