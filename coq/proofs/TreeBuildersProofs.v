(* The Merkle tree builders (model/TreeBuilders.v): every input script ends up as a committed, unlockable
   leaf.  Shapes checked against the real functions (Examples), places of the leaves (prioritized_paths,
   balanced_leaves), the listed unlocking scripts (prioritized_unlocks_spec, balanced_unlocks_spec), and the
   combination with MerkleTreeProofs.merkle_auth (builders_complete_prioritized / _balanced). *)
From Coq Require Import ZArith List Bool Lia Arith.
From Coq.Strings Require Import Byte String.
From TS Require Import Bytes State Prog Interp StackLemmas TapeLemmas MerkleTree MerkleTreeProofs TreeBuilders.
Import ListNotations.
Local Open Scope nat_scope.

(* the shapes returned by the real functions (printed by running tools.py on `push d<i>`) *)
Module Shapes.
(* push d<i> *)
Definition d (i : nat) : bytes := match Byte.of_N (N.of_nat i) with Some b => [x02; b] | None => [] end.
(* the k-th filler: push x<16 bytes> return *)
Definition fl (k : nat) : bytes :=
  x03 :: x10 :: repeat (match Byte.of_N (N.of_nat (240 + k)) with Some b => b | None => x00 end) 16 ++ [x30].

Example prio_shape_1 : prioritized (map d (seq 0 1)) = Some (Node (Leaf (d 0)) (Leaf filler_false)).
Proof. vm_compute. reflexivity. Qed.
Example prio_shape_2 : prioritized (map d (seq 0 2)) = Some (Node (Leaf (d 0)) (Leaf (d 1))).
Proof. vm_compute. reflexivity. Qed.
Example prio_shape_3 : prioritized (map d (seq 0 3)) = Some (Node (Leaf (d 0)) (Node (Leaf (d 1)) (Leaf (d 2)))).
Proof. vm_compute. reflexivity. Qed.
Example prio_shape_4 : prioritized (map d (seq 0 4)) = Some (Node (Leaf (d 0)) (Node (Leaf (d 1)) (Node (Leaf (d 2)) (Leaf (d 3))))).
Proof. vm_compute. reflexivity. Qed.
Example prio_shape_5 : prioritized (map d (seq 0 5)) = Some (Node (Leaf (d 0)) (Node (Leaf (d 1)) (Node (Leaf (d 2)) (Node (Leaf (d 3)) (Leaf (d 4)))))).
Proof. vm_compute. reflexivity. Qed.
Example prio_shape_6 : prioritized (map d (seq 0 6)) = Some (Node (Leaf (d 0)) (Node (Leaf (d 1)) (Node (Leaf (d 2)) (Node (Leaf (d 3)) (Node (Leaf (d 4)) (Leaf (d 5))))))).
Proof. vm_compute. reflexivity. Qed.
Example prio_shape_7 : prioritized (map d (seq 0 7)) = Some (Node (Leaf (d 0)) (Node (Leaf (d 1)) (Node (Leaf (d 2)) (Node (Leaf (d 3)) (Node (Leaf (d 4)) (Node (Leaf (d 5)) (Leaf (d 6)))))))).
Proof. vm_compute. reflexivity. Qed.
Example prio_shape_8 : prioritized (map d (seq 0 8)) = Some (Node (Leaf (d 0)) (Node (Leaf (d 1)) (Node (Leaf (d 2)) (Node (Leaf (d 3)) (Node (Leaf (d 4)) (Node (Leaf (d 5)) (Node (Leaf (d 6)) (Leaf (d 7))))))))).
Proof. vm_compute. reflexivity. Qed.
Example prio_shape_9 : prioritized (map d (seq 0 9)) = Some (Node (Leaf (d 0)) (Node (Leaf (d 1)) (Node (Leaf (d 2)) (Node (Leaf (d 3)) (Node (Leaf (d 4)) (Node (Leaf (d 5)) (Node (Leaf (d 6)) (Node (Leaf (d 7)) (Leaf (d 8)))))))))).
Proof. vm_compute. reflexivity. Qed.
Example bal_shape_1 : balanced fl (map d (seq 0 1)) = Some (Node (Leaf (d 0)) (Leaf (fl 0))).
Proof. vm_compute. reflexivity. Qed.
Example bal_shape_2 : balanced fl (map d (seq 0 2)) = Some (Node (Leaf (d 0)) (Leaf (d 1))).
Proof. vm_compute. reflexivity. Qed.
Example bal_shape_3 : balanced fl (map d (seq 0 3)) = Some (Node (Node (Leaf (d 0)) (Leaf (d 1))) (Node (Leaf (d 2)) (Leaf (fl 0)))).
Proof. vm_compute. reflexivity. Qed.
Example bal_shape_4 : balanced fl (map d (seq 0 4)) = Some (Node (Node (Leaf (d 0)) (Leaf (d 1))) (Node (Leaf (d 2)) (Leaf (d 3)))).
Proof. vm_compute. reflexivity. Qed.
Example bal_shape_5 : balanced fl (map d (seq 0 5)) = Some (Node (Node (Node (Leaf (d 0)) (Leaf (d 1))) (Node (Leaf (d 2)) (Leaf (d 3)))) (Node (Node (Leaf (d 4)) (Leaf (fl 0))) (Node (Leaf (fl 1)) (Leaf (fl 2))))).
Proof. vm_compute. reflexivity. Qed.
Example bal_shape_6 : balanced fl (map d (seq 0 6)) = Some (Node (Node (Node (Leaf (d 0)) (Leaf (d 1))) (Node (Leaf (d 2)) (Leaf (d 3)))) (Node (Node (Leaf (d 4)) (Leaf (d 5))) (Node (Leaf (fl 0)) (Leaf (fl 1))))).
Proof. vm_compute. reflexivity. Qed.
Example bal_shape_7 : balanced fl (map d (seq 0 7)) = Some (Node (Node (Node (Leaf (d 0)) (Leaf (d 1))) (Node (Leaf (d 2)) (Leaf (d 3)))) (Node (Node (Leaf (d 4)) (Leaf (d 5))) (Node (Leaf (d 6)) (Leaf (fl 0))))).
Proof. vm_compute. reflexivity. Qed.
Example bal_shape_8 : balanced fl (map d (seq 0 8)) = Some (Node (Node (Node (Leaf (d 0)) (Leaf (d 1))) (Node (Leaf (d 2)) (Leaf (d 3)))) (Node (Node (Leaf (d 4)) (Leaf (d 5))) (Node (Leaf (d 6)) (Leaf (d 7))))).
Proof. vm_compute. reflexivity. Qed.
Example bal_shape_9 : balanced fl (map d (seq 0 9)) = Some (Node (Node (Node (Node (Leaf (d 0)) (Leaf (d 1))) (Node (Leaf (d 2)) (Leaf (d 3)))) (Node (Node (Leaf (d 4)) (Leaf (d 5))) (Node (Leaf (d 6)) (Leaf (d 7))))) (Node (Node (Node (Leaf (d 8)) (Leaf (fl 0))) (Node (Leaf (fl 1)) (Leaf (fl 2)))) (Node (Leaf (fl 3)) (Leaf (fl 4))))).
Proof. vm_compute. reflexivity. Qed.

(* make_script_tree_prioritized(['push d10','push d11','push d12'], tree=make_script_tree_prioritized(['push d0','push d1','push d2'])) *)
Example onto_shape :
  option_map (prioritized_onto (map d [10; 11; 12])) (prioritized (map d (seq 0 3))) =
  Some (Node (Leaf (d 10)) (Node (Leaf (d 11)) (Node (Leaf (d 12)) (Node (Leaf (d 0)) (Node (Leaf (d 1)) (Leaf (d 2))))))).
Proof. vm_compute. reflexivity. Qed.

Example prio_empty : prioritized [] = None.
Proof. reflexivity. Qed.
Example bal_empty : balanced fl [] = None.
Proof. reflexivity. Qed.

(* depths of the listed unlocking scripts (number of push pairs in the real output, n = 5 and n = 1..9) *)
Example prio_depth_5 : map (prio_depth 5) (seq 0 5) = [1; 2; 3; 4; 4].
Proof. reflexivity. Qed.
Example prio_depth_1 : prio_depth 1 0 = 1.
Proof. reflexivity. Qed.
End Shapes.

(* the right spine: the scripts of [front] as left leaves above [base] *)
Definition spine (front : list bytes) (base : tree) : tree :=
  fold_right (fun s acc => Node (Leaf s) acc) base front.

Lemma prio_loop_app a b t : prio_loop (a ++ b) t = prio_loop b (prio_loop a t).
Proof. revert t. induction a as [|s a IH]; intro t; [reflexivity|]. cbn [app prio_loop]. apply IH. Qed.

Lemma prio_loop_spine front t : prio_loop (pops front) t = spine front t.
Proof.
  unfold pops. induction front as [|s front IH]; [reflexivity|].
  cbn [rev]. rewrite prio_loop_app, IH. reflexivity.
Qed.

Lemma prioritized_onto_spine more old : prioritized_onto more old = spine more old.
Proof. apply prio_loop_spine. Qed.

Lemma subtree_spine_base front base p :
  subtree (spine front base) (repeat R (List.length front) ++ p) = subtree base p.
Proof. induction front as [|s front IH]; [reflexivity|]. cbn [List.length repeat app spine fold_right subtree pick]. exact IH. Qed.

Lemma subtree_spine_left front base i :
  i < List.length front -> subtree (spine front base) (repeat R i ++ [L]) = Some (Leaf (nth i front [])).
Proof.
  revert i. induction front as [|s front IH]; intros i Hi; [simpl in Hi; lia|].
  destruct i as [|i]; [reflexivity|].
  cbn [repeat app spine fold_right subtree pick nth]. apply IH. simpl in Hi. lia.
Qed.

Lemma flatten_spine front base : flatten (spine front base) = front ++ flatten base.
Proof. induction front as [|s front IH]; [reflexivity|]. cbn [spine fold_right flatten app]. f_equal. exact IH. Qed.

(* two or more leaves: the last one is the right leaf at the bottom, the others are the left leaves of the spine *)
Lemma prioritized_snoc a front y : prioritized (a :: front ++ [y]) = Some (spine (a :: front) (Leaf y)).
Proof.
  unfold prioritized.
  replace (match a :: front ++ [y] with [_] => (a :: front ++ [y]) ++ [filler_false] | _ => a :: front ++ [y] end)
    with ((a :: front) ++ [y]) by (destruct front; reflexivity).
  unfold pops at 1. rewrite rev_app_distr. change (rev [y] ++ rev (a :: front)) with (y :: pops (a :: front)).
  rewrite <- prio_loop_spine.
  destruct (pops (a :: front)) eqn:E; [symmetry in E; destruct (app_cons_not_nil _ _ _ E)|reflexivity].
Qed.

Lemma prioritized_one x : prioritized [x] = Some (Node (Leaf x) (Leaf filler_false)).
Proof. reflexivity. Qed.

(* in all cases: with the filler appended to a single leaf, the last script is the bottom of a spine of the others *)
Lemma prioritized_shape ls : ls <> [] ->
  exists a front y,
    match ls with [_] => ls ++ [filler_false] | _ => ls end = a :: front ++ [y] /\
    prioritized ls = Some (spine (a :: front) (Leaf y)).
Proof.
  intro Hne. destruct ls as [|a [|b ls]]; [congruence| |].
  - exists a, [], filler_false. split; reflexivity.
  - destruct (@exists_last _ (b :: ls)) as (front & y & E); [discriminate|].
    exists a, front, y. rewrite E. split; [reflexivity|apply prioritized_snoc].
Qed.

Lemma prio_path_left n i : S i < n -> prio_path n i = repeat R i ++ [L].
Proof.
  intro Hi. unfold prio_path. destruct (Nat.eqb_spec n 1); [lia|]. destruct (Nat.ltb_spec (S i) n); [reflexivity|lia].
Qed.

Lemma prio_path_last m : 1 <= m -> prio_path (S m) m = repeat R m.
Proof.
  intro Hm. unfold prio_path. destruct (Nat.eqb_spec (S m) 1); [lia|]. rewrite Nat.ltb_irrefl, Nat.sub_1_r. reflexivity.
Qed.

Lemma prio_path_length n i : i < n -> List.length (prio_path n i) = prio_depth n i.
Proof.
  intro Hi. unfold prio_path, prio_depth. destruct (n =? 1); [reflexivity|].
  destruct (S i <? n); [rewrite app_length, repeat_length; simpl; lia|apply repeat_length].
Qed.

(* Leaf i of n sits at R^i L (depth i+1), the last one at R^(n-1); the single leaf of a one-leaf
   list at L, next to the filler `false` at R. *)
Theorem prioritized_paths ls i :
  i < List.length ls ->
  exists t, prioritized ls = Some t /\
            subtree t (prio_path (List.length ls) i) = Some (Leaf (nth i ls [])).
Proof.
  intro Hi. destruct ls as [|a [|b ls]]; [simpl in Hi; lia| |].
  - exists (Node (Leaf a) (Leaf filler_false)). assert (i = 0) by (simpl in Hi; lia). subst i. split; reflexivity.
  - destruct (prioritized_shape (a :: b :: ls)) as (a' & front & y & E & Ht); [discriminate|].
    exists (spine (a' :: front) (Leaf y)). split; [exact Ht|].
    change (a :: b :: ls = (a' :: front) ++ [y]) in E. assert (Hfr : 1 <= List.length (a' :: front)) by (simpl; lia).
    rewrite E, app_length, Nat.add_1_r in *.
    destruct (Nat.eq_dec i (List.length (a' :: front))) as [->|Hne].
    + rewrite prio_path_last by exact Hfr.
      rewrite <- (app_nil_r (repeat R _)), subtree_spine_base, nth_middle. reflexivity.
    + rewrite prio_path_left, subtree_spine_left, app_nth1 by lia. reflexivity.
Qed.

(* the filler of the one-leaf case *)
Lemma prioritized_one_filler x :
  exists t, prioritized [x] = Some t /\ subtree t [R] = Some (Leaf filler_false).
Proof. eexists; split; reflexivity. Qed.

(* the result is a node *)
Lemma prioritized_node ls t : prioritized ls = Some t -> exists l r, t = Node l r.
Proof.
  intro Ht. destruct (prioritized_shape ls) as (a & front & y & _ & E); [intros ->; discriminate|].
  rewrite Ht in E. injection E as ->. cbn [spine fold_right]. eauto.
Qed.

(* make_script_tree_prioritized(more, tree=old): every node of old is kept, R^(length more) deeper;
   the new scripts are the left leaves above it, more[i] at R^i L *)
Theorem prioritized_onto_old more old p :
  subtree (prioritized_onto more old) (repeat R (List.length more) ++ p) = subtree old p.
Proof. rewrite prioritized_onto_spine. apply subtree_spine_base. Qed.

Theorem prioritized_onto_new more old i :
  i < List.length more ->
  subtree (prioritized_onto more old) (repeat R i ++ [L]) = Some (Leaf (nth i more [])).
Proof. rewrite prioritized_onto_spine. apply subtree_spine_left. Qed.

(* nothing else: the in-order leaves are exactly the new scripts followed by the old leaves *)
Theorem prioritized_onto_flatten more old :
  flatten (prioritized_onto more old) = more ++ flatten old.
Proof. rewrite prioritized_onto_spine. apply flatten_spine. Qed.

Theorem prioritized_flatten ls t :
  prioritized ls = Some t -> flatten t = match ls with [_] => ls ++ [filler_false] | _ => ls end.
Proof.
  intro Ht. destruct (prioritized_shape ls) as (a & front & y & -> & E); [intros ->; discriminate|].
  rewrite Ht in E. injection E as ->. apply (flatten_spine (a :: front)).
Qed.

Lemma prio_walk_spine a front y pre :
  prio_walk_from (spine (a :: front) (Leaf y)) pre =
    map (fun i => pre ++ repeat R i ++ [L]) (seq 0 (S (List.length front))) ++
    [pre ++ repeat R (S (List.length front))].
Proof.
  revert a pre. induction front as [|b front IH]; intros a pre; [reflexivity|].
  change (prio_walk_from (spine (a :: b :: front) (Leaf y)) pre)
    with ((pre ++ [L]) :: prio_walk_from (spine (b :: front) (Leaf y)) (pre ++ [R])).
  rewrite IH. change (seq 0 (S (List.length (b :: front)))) with (0 :: seq 1 (S (List.length front))).
  rewrite <- seq_shift. cbn [map]. rewrite map_map. cbn [repeat app List.length]. do 2 f_equal.
  - apply map_ext. intro i. rewrite <- app_assoc. reflexivity.
  - rewrite <- app_assoc. reflexivity.
Qed.

(* the tree walk of the prioritized builder: the nodes whose unlocking_script() is listed are, in order, the leaves
   0 .. n-1 at their places prio_path n i; with one leaf the filler `false` is listed after it *)
Theorem prio_walk_spec ls t :
  prioritized ls = Some t ->
  prio_walk t = map (prio_path (List.length ls)) (seq 0 (List.length ls)) ++
                (if List.length ls =? 1 then [[R]] else []).
Proof.
  intro Ht. destruct ls as [|a [|b ls]]; [discriminate|injection Ht as <-; reflexivity|].
  destruct (prioritized_shape (a :: b :: ls)) as (a' & front & y & E & Ht'); [discriminate|].
  cbv iota in E. replace t with (spine (a' :: front) (Leaf y)) by congruence. rewrite E.
  unfold prio_walk. rewrite prio_walk_spine. cbn [List.length]. rewrite app_length, Nat.add_1_r.
  cbn [Nat.eqb]. rewrite app_nil_r, (seq_S (S _)), map_app. cbn [map Nat.add]. f_equal.
  - apply map_ext_in. intros i Hi. apply in_seq in Hi. rewrite prio_path_left by lia. reflexivity.
  - rewrite prio_path_last by lia. reflexivity.
Qed.

Lemma nth_error_map_seq {A} (f : nat -> A) n i : i < n -> nth_error (map f (seq 0 n)) i = Some (f i).
Proof.
  intro Hi. apply map_nth_error. rewrite (nth_error_nth' _ 0) by (rewrite seq_length; exact Hi).
  rewrite seq_nth by exact Hi. reflexivity.
Qed.

Lemma prio_walk_nth ls t i :
  prioritized ls = Some t -> i < List.length ls ->
  nth_error (prio_walk t) i = Some (prio_path (List.length ls) i).
Proof.
  intros Ht Hi. rewrite (prio_walk_spec _ _ Ht), nth_error_app1 by (rewrite map_length, seq_length; exact Hi).
  apply nth_error_map_seq, Hi.
Qed.

(* position by position: what two lists mapped to the same list say of an element of the first *)
Lemma map_eq_nth_error {A B C} (f : A -> C) (g : B -> C) l l' k x :
  map f l = map g l' -> nth_error l k = Some x -> exists y, nth_error l' k = Some y /\ f x = g y.
Proof.
  intros E Hx. apply (f_equal (fun m => nth_error m k)) in E. rewrite !nth_error_map, Hx in E.
  destruct (nth_error l' k) as [y|]; [|discriminate]. injection E as E. eauto.
Qed.

Lemma all_some_map {A} (l : list (option A)) us : all_some l = Some us -> l = map Some us.
Proof.
  revert us. induction l as [|[x|] l IH]; intros us E; cbn [all_some] in E.
  - injection E as <-. reflexivity.
  - destruct (all_some l) as [xs|]; [|discriminate]. injection E as <-. cbn [map]. f_equal. apply IH. reflexivity.
  - discriminate.
Qed.

Lemma merklized_spec H t paths lk us :
  merklized H t paths = Some (lk, us) ->
  exists l r, t = Node l r /\ lk = lock H l r /\ map (unlock H t) paths = map Some us.
Proof.
  unfold merklized. destruct t as [s|l r]; [discriminate|].
  destruct (all_some _) as [xs|] eqn:E; [|discriminate]. intro E'. injection E' as <- <-.
  exists l, r. repeat split. apply all_some_map. exact E.
Qed.

Lemma merklized_length H t paths lk us :
  merklized H t paths = Some (lk, us) -> List.length us = List.length paths.
Proof.
  intro E. destruct (merklized_spec _ _ _ _ _ E) as (l & r & _ & _ & Hm).
  apply (f_equal (@List.length _)) in Hm. rewrite !map_length in Hm. symmetry. exact Hm.
Qed.

Lemma merklized_nth H t paths lk us i p :
  merklized H t paths = Some (lk, us) -> nth_error paths i = Some p ->
  exists w, nth_error us i = Some w /\ unlock H t p = Some w.
Proof.
  intros E Hp. destruct (merklized_spec _ _ _ _ _ E) as (l & r & _ & _ & Hm).
  exact (map_eq_nth_error _ _ _ _ _ _ Hm Hp).
Qed.

(* make_merklized_script_prioritized returns the lock of the tree and, in order, the
   unlocking scripts of the leaves 0 .. n-1 (n >= 2: exactly n scripts; n = 1: 2 scripts, the second one is
   the filler's) *)
Theorem prioritized_unlocks_spec H ls lk us :
  prioritized_unlocks H ls = Some (lk, us) ->
  exists l r, prioritized ls = Some (Node l r) /\ lk = lock H l r /\
    List.length us = (if List.length ls =? 1 then 2 else List.length ls) /\
    (forall i, i < List.length ls ->
       exists w, nth_error us i = Some w /\ unlock H (Node l r) (prio_path (List.length ls) i) = Some w) /\
    (List.length ls = 1 -> exists w, nth_error us 1 = Some w /\ unlock H (Node l r) [R] = Some w /\
                                     subtree (Node l r) [R] = Some (Leaf filler_false)).
Proof.
  unfold prioritized_unlocks. destruct (prioritized ls) as [t|] eqn:Ht; [|discriminate]. intro E.
  destruct (merklized_spec _ _ _ _ _ E) as (l & r & -> & Hlk & _). exists l, r.
  split; [reflexivity|]. split; [exact Hlk|]. split; [|split].
  - rewrite (merklized_length _ _ _ _ _ E), (prio_walk_spec _ _ Ht), app_length, map_length, seq_length.
    destruct (List.length ls =? 1) eqn:E1; [apply Nat.eqb_eq in E1; rewrite E1; reflexivity|apply Nat.add_0_r].
  - intros i Hi. exact (merklized_nth _ _ _ _ _ i _ E (prio_walk_nth _ _ _ Ht Hi)).
  - intro H1. destruct ls as [|a [|b ls]]; try discriminate. injection Ht as <- <-.
    destruct (merklized_nth _ _ _ _ _ 1 [R] E eq_refl) as (w & Hw1 & Hw2). exists w. repeat split; assumption.
Qed.

Lemma list_ind2 {A} (P : list A -> Prop) :
  P [] -> (forall a, P [a]) -> (forall a b l, P l -> P (a :: b :: l)) -> forall l, P l.
Proof. intros H0 H1 H2. fix IH 1. intros [|a [|b l]]; [exact H0|apply H1|apply H2, IH]. Qed.

Lemma div2_spec n : 2 * (n / 2) <= n < 2 * (n / 2) + 2.
Proof. pose proof (Nat.div_mod n 2 ltac:(lia)). pose proof (Nat.mod_upper_bound n 2 ltac:(lia)). lia. Qed.

Lemma odd_true n : Nat.odd n = true -> exists h, n = 2 * h + 1.
Proof. intro E. apply Nat.odd_spec in E. destruct E as [h E]. exists h. exact E. Qed.

Lemma half_SS n : S (S n) / 2 = S (n / 2).
Proof. pose proof (div2_spec n). pose proof (div2_spec (S (S n))). lia. Qed.
Lemma half_S_even n : Nat.even n = true -> S n / 2 = n / 2.
Proof. intros [h ->]%Nat.even_spec. pose proof (div2_spec (2 * h)). pose proof (div2_spec (S (2 * h))). lia. Qed.

(* reverse + pop: the pairs are taken from the front *)
Lemma pops_rev {A} (l : list A) : pops (rev l) = l.
Proof. apply rev_involutive. Qed.

Lemma pairs_length l : List.length (pairs l) = List.length l / 2.
Proof.
  induction l as [| a | a b l IH] using list_ind2; [reflexivity|reflexivity|].
  cbn [pairs List.length]. rewrite IH, half_SS. reflexivity.
Qed.

Lemma pairs_flatten l :
  Nat.even (List.length l) = true -> flat_map flatten (pairs l) = flat_map flatten l.
Proof.
  induction l as [| a | a b l IH] using list_ind2; intro He; [reflexivity|discriminate|].
  cbn [pairs flat_map flatten]. rewrite IH by exact He. rewrite <- app_assoc. reflexivity.
Qed.

(* in-order leaf paths *)
Lemma leaf_paths_from_pre t : forall pre, leaf_paths_from t pre = map (fun p => pre ++ p) (leaf_paths t).
Proof.
  unfold leaf_paths. induction t as [s|l IHl r IHr]; intro pre.
  - cbn [leaf_paths_from map]. rewrite app_nil_r. reflexivity.
  - cbn [leaf_paths_from app]. rewrite (IHl (pre ++ [L])), (IHr (pre ++ [R])), (IHl [L]), (IHr [R]).
    rewrite map_app, !map_map. f_equal; apply map_ext; intro p; rewrite <- app_assoc; reflexivity.
Qed.

Lemma leaf_paths_node l r :
  leaf_paths (Node l r) = map (cons L) (leaf_paths l) ++ map (cons R) (leaf_paths r).
Proof.
  unfold leaf_paths at 1. cbn [leaf_paths_from app]. rewrite !leaf_paths_from_pre. reflexivity.
Qed.

(* the k-th in-order path leads to the k-th in-order leaf *)
Lemma leaf_paths_flatten t : map (subtree t) (leaf_paths t) = map (fun s => Some (Leaf s)) (flatten t).
Proof.
  induction t as [s|l IHl r IHr]; [reflexivity|].
  rewrite leaf_paths_node. cbn [flatten]. rewrite !map_app, !map_map, <- IHl, <- IHr. reflexivity.
Qed.

Lemma leaf_paths_subtree t k p :
  nth_error (leaf_paths t) k = Some p -> subtree t p = Some (Leaf (nth k (flatten t) [])).
Proof.
  intro Hk. destruct (map_eq_nth_error _ _ _ _ _ _ (leaf_paths_flatten t) Hk) as (s & Hs & ->).
  rewrite (nth_error_nth _ _ _ Hs). reflexivity.
Qed.

(* all leaves of a list of trees, in order, as (index of the tree, path in the tree) *)
Fixpoint lpaths_from (m : nat) (nodes : list tree) : list (nat * list dir) :=
  match nodes with
  | [] => []
  | u :: rest => map (pair m) (leaf_paths u) ++ lpaths_from (S m) rest
  end.

Lemma lpaths_from_app l l' : forall m,
  lpaths_from m (l ++ l') = lpaths_from m l ++ lpaths_from (m + List.length l) l'.
Proof.
  induction l as [|u l IH]; intro m; cbn [app lpaths_from List.length].
  - rewrite Nat.add_0_r. reflexivity.
  - rewrite IH, <- app_assoc. do 3 f_equal. lia.
Qed.

(* one pass of pairwise combination: tree m goes to tree m/2, as its left child when m is even *)
Definition up (mp : nat * list dir) : nat * list dir := (fst mp / 2, dir_of (Nat.odd (fst mp)) :: snd mp).

Lemma lpaths_pairs l : forall m,
  Nat.even m = true -> Nat.even (List.length l) = true ->
  lpaths_from (m / 2) (pairs l) = map up (lpaths_from m l).
Proof.
  induction l as [| a | a b l IH] using list_ind2; intros m Hm He; [reflexivity|discriminate|].
  cbn [pairs lpaths_from]. rewrite leaf_paths_node. rewrite !map_app, !map_map.
  rewrite <- app_assoc. f_equal; [|f_equal].
  - apply map_ext. intro p. unfold up. cbn [fst snd]. unfold Nat.odd. rewrite Hm. reflexivity.
  - apply map_ext. intro p. unfold up. cbn [fst snd]. rewrite half_S_even by exact Hm.
    rewrite Nat.odd_succ, Hm. reflexivity.
  - rewrite <- half_SS. apply IH; [exact Hm|exact He].
Qed.

(* the places of the real leaves after j passes: leaf i is in tree i / 2^j, at the j low bits of i *)
Definition placed (n j : nat) (nodes : list tree) : Prop :=
  forall i, i < n -> nth_error (lpaths_from 0 nodes) i = Some (i / 2 ^ j, bin_path j i).

Lemma placed_app n j nodes extra : placed n j nodes -> placed n j (nodes ++ extra).
Proof.
  intros Hp i Hi. rewrite lpaths_from_app. rewrite nth_error_app1; [apply Hp; exact Hi|].
  apply nth_error_Some. rewrite (Hp i Hi). discriminate.
Qed.

Lemma placed_pairs n j nodes :
  Nat.even (List.length nodes) = true -> placed n j nodes -> placed n (S j) (pairs nodes).
Proof.
  intros He Hp i Hi. change 0 with (0 / 2) at 1. rewrite lpaths_pairs by (first [reflexivity|exact He]).
  rewrite nth_error_map, (Hp i Hi). cbn [option_map up fst snd bin_path]. unfold bit.
  rewrite Nat.pow_succ_r', (Nat.mul_comm 2), <- Nat.div_div by (try apply Nat.pow_nonzero; lia).
  reflexivity.
Qed.

Lemma lpaths_leaves ls : forall m i,
  i < List.length ls -> nth_error (lpaths_from m (map Leaf ls)) i = Some (m + i, []).
Proof.
  induction ls as [|s ls IH]; intros m i Hi; [simpl in Hi; lia|].
  cbn [map lpaths_from]. destruct i as [|i].
  - cbn. rewrite Nat.add_0_r. reflexivity.
  - cbn [leaf_paths leaf_paths_from map app nth_error]. rewrite IH by (simpl in Hi; lia). do 2 f_equal. lia.
Qed.

Lemma placed_leaves ls : placed (List.length ls) 0 (map Leaf ls).
Proof. intros i Hi. rewrite lpaths_leaves by exact Hi. cbn [Nat.pow bin_path Nat.add]. rewrite Nat.div_1_r. reflexivity. Qed.

Lemma placed_one n j t i : placed n j [t] -> i < n -> nth_error (leaf_paths t) i = Some (bin_path j i).
Proof.
  intros Hp Hi. specialize (Hp i Hi). cbn [lpaths_from] in Hp. rewrite app_nil_r, nth_error_map in Hp.
  destruct (nth_error (leaf_paths t) i) as [p|]; [|discriminate]. injection Hp as _ ->. reflexivity.
Qed.

Lemma levels_one fuel fill k t : levels fuel fill k [t] = Some t.
Proof. destruct fuel; reflexivity. Qed.

Lemma halvings_small fuel c : c <= 1 -> halvings fuel c = 0.
Proof. intro Hc. destruct fuel; cbn [halvings]; replace (c <=? 1) with true by (symmetry; apply Nat.leb_le; exact Hc); reflexivity. Qed.

Lemma halvings_step f c : 2 <= c -> halvings (S f) c = S (halvings f ((c + 1) / 2)).
Proof. intro Hc. cbn [halvings]. replace (c <=? 1) with false by (symmetry; apply Nat.leb_gt; lia). reflexivity. Qed.

Section Balanced.
Variable fill : nat -> bytes.
Variable ls : list bytes.

(* the invariant of the level loop after j passes in which k fillers were made: the input scripts are in their
   places, and in order the leaves are the input scripts followed by the fillers *)
Definition level_inv (j k : nat) (nodes : list tree) : Prop :=
  placed (List.length ls) j nodes /\ flat_map flatten nodes = ls ++ map fill (seq 0 k).

Lemma level_inv_leaves : level_inv 0 0 (map Leaf ls).
Proof.
  split; [apply placed_leaves|]. rewrite app_nil_r.
  induction ls as [|s l IH]; [reflexivity|]. cbn [map flat_map flatten app]. f_equal. exact IH.
Qed.

(* one pass, on the leaf level (x a filler leaf) or on a node level (x a filler node): pad an odd list with x,
   made of the next m fillers, and combine pairwise; the list halves, rounded up *)
Lemma level_inv_pass j k m x nodes :
  flatten x = map fill (seq k m) -> level_inv j k nodes ->
  let kl := if Nat.odd (List.length nodes) then (m + k, nodes ++ [x]) else (k, nodes) in
  level_inv (S j) (fst kl) (pairs (snd kl)) /\ List.length (pairs (snd kl)) = (List.length nodes + 1) / 2.
Proof.
  intros Hx [Hp Hfl]. cbv zeta. rewrite pairs_length.
  destruct (Nat.odd (List.length nodes)) eqn:E; cbn [fst snd].
  - assert (He : Nat.even (List.length (nodes ++ [x])) = true).
    { rewrite app_length, Nat.add_1_r, Nat.even_succ. exact E. }
    split; [split|rewrite app_length; reflexivity].
    + apply placed_pairs; [exact He|]. apply placed_app. exact Hp.
    + rewrite pairs_flatten, flat_map_app, Hfl by exact He. cbn [flat_map]. rewrite app_nil_r, Hx, <- app_assoc.
      rewrite <- map_app, (Nat.add_comm m k), seq_app. reflexivity.
  - assert (He : Nat.even (List.length nodes) = true) by (rewrite <- Nat.negb_odd, E; reflexivity).
    split; [split|rewrite Nat.add_1_r, half_S_even by exact He; reflexivity].
    + apply placed_pairs; assumption.
    + rewrite pairs_flatten by exact He. exact Hfl.
Qed.

Lemma levels_step f k nodes :
  2 <= List.length nodes ->
  levels (S f) fill k nodes = levels f fill (fst (pad_nodes fill k nodes)) (pairs (snd (pad_nodes fill k nodes))).
Proof.
  destruct nodes as [|t [|t' nodes]]; [simpl; lia|simpl; lia|]. intros _. cbn [levels]. rewrite pops_rev. reflexivity.
Qed.

(* the loop ends with one tree for which the invariant holds, after as many passes as the list needs halvings *)
Lemma levels_inv : forall fuel j k nodes,
  level_inv j k nodes -> 1 <= List.length nodes <= fuel ->
  exists t k', levels fuel fill k nodes = Some t /\ level_inv (j + halvings fuel (List.length nodes)) k' [t].
Proof.
  induction fuel as [|f IH]; intros j k nodes Hinv Hlen; [lia|].
  destruct (le_lt_dec (List.length nodes) 1) as [H1|H2].
  - destruct nodes as [|t [|t' nodes]]; [simpl in Hlen; lia| |simpl in H1; lia].
    exists t, k. rewrite halvings_small, Nat.add_0_r by exact H1. split; [reflexivity|exact Hinv].
  - destruct (level_inv_pass j k 2 (filler_node fill k) nodes eq_refl Hinv) as [Hinv' Hlen'].
    pose proof (div2_spec (List.length nodes + 1)) as Hd.
    destruct (IH _ _ _ Hinv') as (r & k' & Hr & Hinv''); [lia|].
    exists r, k'. rewrite levels_step, halvings_step by exact H2. split; [exact Hr|].
    rewrite Hlen' in Hinv''. rewrite Nat.add_succ_r. exact Hinv''.
Qed.

End Balanced.

Lemma bin_path_length d i : List.length (bin_path d i) = d.
Proof. induction d as [|d IH]; [reflexivity|]. cbn [bin_path List.length]. rewrite IH. reflexivity. Qed.

(* For every filler supply and every non-empty list of scripts: make_script_tree_balanced returns
   a tree whose in-order leaves are the input scripts followed by fillers only (fill 0, fill 1, ... in order);
   input script i is the leaf at the path "binary expansion of i on d digits" (0 = left), which is also the
   i-th path of _find_leaves; so ALL input scripts are at the same depth d = bal_depth n. *)
Theorem balanced_leaves fill ls :
  ls <> [] ->
  let n := List.length ls in
  let d := bal_depth n in
  exists t k,
    balanced fill ls = Some t /\
    flatten t = ls ++ map fill (seq 0 k) /\
    forall i, i < n ->
      nth_error (leaf_paths t) i = Some (bin_path d i) /\
      subtree t (bin_path d i) = Some (Leaf (nth i ls [])) /\
      List.length (bin_path d i) = d.
Proof.
  intros Hne n d.
  destruct (level_inv_pass fill ls 0 0 1 (Leaf (fill 0)) (map Leaf ls) eq_refl (level_inv_leaves fill ls))
    as [Hinv Hlen].
  set (nodes := pairs _) in *. rewrite map_length in Hlen. fold n in Hlen. pose proof (div2_spec (n + 1)) as Hd.
  assert (Hn : 1 <= n) by (unfold n; destruct ls; [congruence|simpl; lia]).
  destruct (levels_inv fill ls (List.length nodes) 1 _ _ Hinv) as (t & k & Ht & Hp & Hfl); [lia|].
  rewrite Hlen in Hp. change (placed n d [t]) in Hp. cbn [flat_map] in Hfl. rewrite app_nil_r in Hfl.
  exists t, k. split; [unfold balanced; rewrite pops_rev; exact Ht|]. split; [exact Hfl|]. intros i Hi.
  pose proof (placed_one _ _ _ _ Hp Hi) as Hpi.
  split; [exact Hpi|]. split; [|apply bin_path_length].
  rewrite (leaf_paths_subtree t i _ Hpi), Hfl, app_nth1 by exact Hi. reflexivity.
Qed.

Lemma balanced_nonempty fill ls t : balanced fill ls = Some t -> ls <> [].
Proof. intros Ht E. subst ls. discriminate. Qed.

(* the same, said of a tree that the builder has returned *)
Lemma balanced_spec fill ls t :
  balanced fill ls = Some t ->
  exists k, flatten t = ls ++ map fill (seq 0 k) /\
    forall i, i < List.length ls ->
      nth_error (leaf_paths t) i = Some (bin_path (bal_depth (List.length ls)) i) /\
      subtree t (bin_path (bal_depth (List.length ls)) i) = Some (Leaf (nth i ls [])).
Proof.
  intro Ht. destruct (balanced_leaves fill ls (balanced_nonempty _ _ _ Ht)) as (t' & k & Ht' & Hk & Hall).
  rewrite Ht in Ht'. injection Ht' as <-. exists k. split; [exact Hk|]. intros i Hi. split; apply (Hall i Hi).
Qed.

Corollary balanced_prefix fill ls t : balanced fill ls = Some t -> firstn (List.length ls) (flatten t) = ls.
Proof.
  intro Ht. destruct (balanced_spec _ _ _ Ht) as (k & -> & _).
  rewrite firstn_app, Nat.sub_diag, firstn_all. apply app_nil_r.
Qed.

Lemma balanced_node fill ls t : balanced fill ls = Some t -> exists l r, t = Node l r.
Proof.
  intro Ht. destruct (balanced_spec _ _ _ Ht) as (k & _ & Hall).
  assert (H0 : 0 < List.length ls) by (destruct ls; [discriminate|simpl; lia]).
  destruct (Hall 0 H0) as [_ Hsub]. destruct t as [s|l r]; [discriminate|eauto].
Qed.

Lemma firstn_nth_error_seq {A} (f : nat -> A) : forall n l,
  (forall i, i < n -> nth_error l i = Some (f i)) -> firstn n l = map f (seq 0 n).
Proof.
  intro n. revert f. induction n as [|n IH]; intros f l Hall; [reflexivity|].
  destruct l as [|x l]; [specialize (Hall 0 ltac:(lia)); discriminate|].
  cbn [firstn seq map]. f_equal.
  - specialize (Hall 0 ltac:(lia)). injection Hall as ->. reflexivity.
  - rewrite <- seq_shift, map_map. apply IH. intros i Hi. apply (Hall (S i)). lia.
Qed.

(* on the tree returned by the balanced builder: the first len(leaves) entries of _find_leaves are, in order, the input
   scripts 0 .. n-1 at their places bin_path d i *)
Theorem balanced_find_leaves fill ls t :
  balanced fill ls = Some t ->
  firstn (List.length ls) (leaf_paths t) = map (bin_path (bal_depth (List.length ls))) (seq 0 (List.length ls)).
Proof.
  intro Ht. destruct (balanced_spec _ _ _ Ht) as (k & _ & Hall).
  apply firstn_nth_error_seq. intros i Hi. apply (Hall i Hi).
Qed.

(* the depth: 1 for one script, ceil(log2 n) otherwise *)
Lemma log2_up_half c : 2 <= c -> Nat.log2_up c = S (Nat.log2_up ((c + 1) / 2)).
Proof.
  intro Hc. pose proof (div2_spec (c + 1)) as Hd. set (h := (c + 1) / 2) in *.
  destruct (Nat.eq_dec h 1) as [E|E].
  - assert (c = 2) by lia. subst c. rewrite E. reflexivity.
  - assert (Hh : 1 < h) by lia.
    pose proof (Nat.log2_up_spec h Hh) as [S1 S2]. pose proof (Nat.log2_up_pos h Hh) as Hpos.
    set (b := Nat.log2_up h) in *. apply Nat.log2_up_unique; [lia|].
    destruct b as [|b']; [lia|]. cbn [pred] in *. rewrite !Nat.pow_succ_r' in *. lia.
Qed.

Lemma halvings_log2_up : forall fuel c, c <= fuel -> halvings fuel c = Nat.log2_up c.
Proof.
  induction fuel as [|f IH]; intros c Hc.
  - assert (c = 0) by lia. subst c. reflexivity.
  - destruct (le_lt_dec c 1) as [Hs|Hb].
    + rewrite halvings_small by exact Hs. destruct c as [|[|c]]; [reflexivity|reflexivity|lia].
    + rewrite halvings_step by lia. rewrite log2_up_half by lia. f_equal. apply IH.
      pose proof (div2_spec (c + 1)). lia.
Qed.

Theorem bal_depth_log2_up n : 2 <= n -> bal_depth n = Nat.log2_up n.
Proof. intro Hn. unfold bal_depth. rewrite halvings_log2_up by lia. symmetry. apply log2_up_half. exact Hn. Qed.

Example bal_depth_1 : bal_depth 1 = 1.
Proof. reflexivity. Qed.
Example bal_depth_small : map bal_depth (seq 1 9) = [1; 1; 2; 2; 3; 3; 3; 3; 4].
Proof. vm_compute. reflexivity. Qed.

Lemma bit_testbit i j : bit i j = Nat.testbit i j.
Proof. unfold bit. rewrite Nat.testbit_odd, Nat.shiftr_div_pow2. reflexivity. Qed.

(* make_merklized_script_balanced returns the lock of the tree and exactly n unlocking
   scripts, the i-th one that of input script i *)
Theorem balanced_unlocks_spec H fill ls lk us :
  balanced_unlocks H fill ls = Some (lk, us) ->
  exists l r, balanced fill ls = Some (Node l r) /\ lk = lock H l r /\
    List.length us = List.length ls /\
    forall i, i < List.length ls ->
      exists w, nth_error us i = Some w /\
                unlock H (Node l r) (bin_path (bal_depth (List.length ls)) i) = Some w.
Proof.
  unfold balanced_unlocks. destruct (balanced fill ls) as [t|] eqn:Ht; [|discriminate]. intro E.
  destruct (merklized_spec _ _ _ _ _ E) as (l & r & -> & Hlk & _). exists l, r.
  split; [reflexivity|]. split; [exact Hlk|].
  pose proof (merklized_length _ _ _ _ _ E) as Hlen.
  rewrite (balanced_find_leaves _ _ _ Ht) in *. rewrite map_length, seq_length in Hlen.
  split; [exact Hlen|]. intros i Hi. apply (merklized_nth _ _ _ _ _ i _ E). apply nth_error_map_seq. exact Hi.
Qed.

Section Complete.
Variable orc : oracle.
Variable cfg : config.
Variable H : bytes -> bytes.
Hypothesis Horc : forall b, orc PSha256 [b] = OOk [H b].
Hypothesis Hlen : forall b, List.length (H b) = 32.

(* any builder whose result is (lock of t, unlocking scripts of the nodes at [paths]): the i-th script and
   the lock, through run_auth_scripts, run the script s of the leaf at the i-th path, d levels down:
   merkle_auth instantiated, with descend_spec's description of the start *)
Lemma merklized_complete t paths lk us i p s d vals f :
  merklized H t paths = Some (lk, us) -> nth_error paths i = Some p ->
  subtree t p = Some (Leaf s) -> List.length p = d ->
  no_eval_ban cfg -> (Z.of_nat d <= c_limit cfg)%Z ->
  fits cfg s -> 33 <= c_max_item_size cfg -> 2 * d + 2 <= c_max_items cfg ->
  exists w,
    nth_error us i = Some w /\ unlock H t p = Some w /\
    let st2 := lock_state cfg w vals (wstack H t p) lk in
    let tid' := fst (descend H t p 1 st2) in
    let st' := snd (descend H t p 1 st2) in
    run_auth_scripts orc cfg (2 * d + S f) [w; lk] vals =
      auth_finish (lock_result cfg 1 d (run_tape orc cfg (S (d + f)) tid' 0 st')) /\
    tdata st' tid' = s /\
    to_count (nth_tape st' tid') = Z.of_nat d /\
    st_stack st' = [] /\ st_cache st' = st_cache st2 /\ st_log st' = st_log st2.
Proof.
  intros E Hp Hsub <- Hfl Hc Hf Hsz Hsp.
  destruct (merklized_nth _ _ _ _ _ i p E Hp) as (w & Hw1 & Hw2).
  destruct (merklized_spec _ _ _ _ _ E) as (l & r & -> & -> & _).
  assert (Hne : p <> []) by (intros ->; discriminate).
  exists w. split; [exact Hw1|]. split; [exact Hw2|]. cbv zeta.
  split.
  - exact (merkle_auth orc cfg H Horc Hlen p l r (Leaf s) w vals f Hsub Hne Hw2 Hfl Hc Hf Hsz Hsp).
  - set (st2 := lock_state cfg w vals (wstack H (Node l r) p) (lock H l r)).
    assert (Hs2 : st_stack st2 = wstack H (Node l r) p ++ []) by (rewrite app_nil_r; reflexivity).
    assert (Hd2 : tdata st2 1 = tbytes H (Node l r)) by reflexivity.
    assert (Hlt2 : 1 < List.length (st_tapes st2)) by (simpl; lia).
    pose proof (descend_spec H p (Node l r) (Leaf s) 1 st2 [] Hsub Hs2 Hd2 Hlt2) as D. cbv zeta in D.
    destruct D as (A1 & A2 & A3 & A4 & A5 & A6 & _).
    repeat split; assumption.
Qed.

(* For every input script i: the i-th unlocking script returned by
   make_merklized_script_prioritized followed by the returned lock runs, through run_auth_scripts, exactly the
   bytes of script i (as a tape object with call count = depth, on the empty stack), where the depth is
   i+1 (n-1 for the last; 1 for a single script) *)
Theorem builders_complete_prioritized ls lk us i vals f :
  prioritized_unlocks H ls = Some (lk, us) -> i < List.length ls ->
  let dp := prio_depth (List.length ls) i in
  no_eval_ban cfg -> (Z.of_nat dp <= c_limit cfg)%Z ->
  fits cfg (nth i ls []) -> 33 <= c_max_item_size cfg -> 2 * dp + 2 <= c_max_items cfg ->
  exists t w,
    prioritized ls = Some t /\ nth_error us i = Some w /\
    let p := prio_path (List.length ls) i in
    let st2 := lock_state cfg w vals (wstack H t p) lk in
    let tid' := fst (descend H t p 1 st2) in
    let st' := snd (descend H t p 1 st2) in
    run_auth_scripts orc cfg (2 * dp + S f) [w; lk] vals =
      auth_finish (lock_result cfg 1 dp (run_tape orc cfg (S (dp + f)) tid' 0 st')) /\
    tdata st' tid' = nth i ls [] /\
    to_count (nth_tape st' tid') = Z.of_nat dp /\
    st_stack st' = [] /\ st_cache st' = st_cache st2 /\ st_log st' = st_log st2.
Proof.
  intros E Hi dp Hfl Hc Hf Hsz Hsp.
  destruct (prioritized_paths ls i Hi) as (t & Ht & Hsub).
  unfold prioritized_unlocks in E. rewrite Ht in E.
  destruct (merklized_complete t _ lk us i _ _ dp vals f E (prio_walk_nth ls t i Ht Hi) Hsub
              (prio_path_length _ _ Hi) Hfl Hc Hf Hsz Hsp) as (w & Hw & _ & Hrun).
  exists t, w. split; [exact Ht|]. split; [exact Hw|exact Hrun].
Qed.

(* For every input script i: the i-th unlocking script returned by
   make_merklized_script_balanced followed by the returned lock runs, through run_auth_scripts, exactly the
   bytes of script i, as a tape object with call count d on the empty stack, d = bal_depth n for every i *)
Theorem builders_complete_balanced fill ls lk us i vals f :
  balanced_unlocks H fill ls = Some (lk, us) -> i < List.length ls ->
  let d := bal_depth (List.length ls) in
  no_eval_ban cfg -> (Z.of_nat d <= c_limit cfg)%Z ->
  fits cfg (nth i ls []) -> 33 <= c_max_item_size cfg -> 2 * d + 2 <= c_max_items cfg ->
  exists t w,
    balanced fill ls = Some t /\ nth_error us i = Some w /\
    let p := bin_path d i in
    let st2 := lock_state cfg w vals (wstack H t p) lk in
    let tid' := fst (descend H t p 1 st2) in
    let st' := snd (descend H t p 1 st2) in
    run_auth_scripts orc cfg (2 * d + S f) [w; lk] vals =
      auth_finish (lock_result cfg 1 d (run_tape orc cfg (S (d + f)) tid' 0 st')) /\
    tdata st' tid' = nth i ls [] /\
    to_count (nth_tape st' tid') = Z.of_nat d /\
    st_stack st' = [] /\ st_cache st' = st_cache st2 /\ st_log st' = st_log st2.
Proof.
  intros E Hi d Hfl Hc Hf Hsz Hsp.
  unfold balanced_unlocks in E. destruct (balanced fill ls) as [t|] eqn:Ht; [|discriminate].
  destruct (balanced_spec _ _ _ Ht) as (k & _ & Hall). destruct (Hall i Hi) as [_ Hsub].
  rewrite (balanced_find_leaves _ _ _ Ht) in E.
  destruct (merklized_complete t _ lk us i _ _ d vals f E (nth_error_map_seq _ _ _ Hi) Hsub (bin_path_length _ _)
              Hfl Hc Hf Hsz Hsp) as (w & Hw & _ & Hrun).
  exists t, w. split; [reflexivity|]. split; [exact Hw|exact Hrun].
Qed.

(* make_merklized_script_prioritized([x]) returns TWO unlocking scripts; the second one unlocks the filler
   `false`, and on its own it is rejected: OP_FALSE leaves 00 as the only item *)
Theorem prioritized_filler_rejects x lk us vals f :
  prioritized_unlocks H [x] = Some (lk, us) ->
  no_eval_ban cfg -> (1 <= c_limit cfg)%Z -> 33 <= c_max_item_size cfg -> 4 <= c_max_items cfg ->
  exists w st,
    nth_error us 1 = Some w /\
    run_auth_scripts orc cfg (2 * 1 + S (S f)) [w; lk] vals = AuthVerdict false st.
Proof.
  intros E Hfl Hc Hsz Hsp. unfold prioritized_unlocks in E. rewrite prioritized_one in E.
  destruct (merklized_complete _ _ lk us 1 [R] filler_false 1 vals (S f) E eq_refl eq_refl eq_refl Hfl Hc)
    as (w & Hw1 & _ & Hrun); [unfold fits, filler_false; simpl; lia | lia | simpl; lia |].
  cbv zeta in Hrun. destruct Hrun as (Hrun & Hd & _ & Hs & _).
  exists w. eexists. split; [exact Hw1|]. rewrite Hrun.
  rewrite (runs_end (false_runs orc cfg _ _ [] Hs ltac:(unfold TimeSpec.room; simpl; lia)) (p := 0) Hd eq_refl) by lia.
  cbn [lock_result auth_finish Nat.iter nat_rect]. rewrite stack_eval_cache. reflexivity.
Qed.

End Complete.

(* non-vacuity: both builders on three scripts, with MerkleTreeProofs.Demo's oracle and configuration;
   script 1 = OP_TRUE is unlocked by the returned pair, through the theorems *)
Module BuildersDemo.
Import MerkleTreeProofs.Demo.
Definition scripts : list bytes := [[x00]; [x01]; [x00; x06; x01]].   (* false | true | false pop0 true *)
Definition fl (k : nat) : bytes := x03 :: x10 :: repeat x2a 16 ++ [x30].   (* push x2a..2a return *)

Example demo_prioritized : exists lk us w st,
  prioritized_unlocks H scripts = Some (lk, us) /\ nth_error us 1 = Some w /\
  run_auth_scripts orc cfg (2 * 2 + S 3) [w; lk] [] = AuthVerdict true st.
Proof.
  destruct (prioritized_unlocks H scripts) as [[lk us]|] eqn:E; [|vm_compute in E; discriminate].
  destruct (builders_complete_prioritized orc cfg H orc_H H_len scripts lk us 1 [] 3 E ltac:(simpl; lia)
              eq_refl ltac:(vm_compute; discriminate) ltac:(unfold fits; simpl; lia) ltac:(simpl; lia)
              ltac:(simpl; lia)) as (t & w & Ht & Hw & Hrun & _).
  exists lk, us, w. eexists. split; [reflexivity|]. split; [exact Hw|].
  change (prio_depth (List.length scripts) 1) with 2 in Hrun. rewrite Hrun. clear Hrun.
  vm_compute in E. injection E as <- <-. vm_compute in Ht. injection Ht as <-.
  vm_compute in Hw. injection Hw as <-. vm_compute. reflexivity.
Qed.

Example demo_balanced : exists lk us w st,
  balanced_unlocks H fl scripts = Some (lk, us) /\ nth_error us 1 = Some w /\
  run_auth_scripts orc cfg (2 * 2 + S 3) [w; lk] [] = AuthVerdict true st.
Proof.
  destruct (balanced_unlocks H fl scripts) as [[lk us]|] eqn:E; [|vm_compute in E; discriminate].
  destruct (builders_complete_balanced orc cfg H orc_H H_len fl scripts lk us 1 [] 3 E ltac:(simpl; lia)
              eq_refl ltac:(vm_compute; discriminate) ltac:(unfold fits; simpl; lia) ltac:(simpl; lia)
              ltac:(vm_compute; lia)) as (t & w & Ht & Hw & Hrun & _).
  exists lk, us, w. eexists. split; [reflexivity|]. split; [exact Hw|].
  change (bal_depth (List.length scripts)) with 2 in Hrun. rewrite Hrun. clear Hrun.
  vm_compute in E. injection E as <- <-. vm_compute in Ht. injection Ht as <-.
  vm_compute in Hw. injection Hw as <-. vm_compute. reflexivity.
Qed.

(* the filler leaves: the prioritized filler `false` and a balanced filler `push x.. return`, unlocked with the
   scripts the tree gives for them, are rejected *)
Example demo_filler_false : exists t w st,
  prioritized [[x01]] = Some t /\ unlock H t [R] = Some w /\
  match t with Node l r => run_auth_scripts orc cfg 9 [w; lock H l r] [] = AuthVerdict false st | _ => False end.
Proof. eexists _, _, _. split; [reflexivity|]. split; [vm_compute; reflexivity|]. vm_compute. reflexivity. Qed.

Example demo_filler_balanced : exists t w st,
  balanced fl scripts = Some t /\ subtree t [R; R] = Some (Leaf (fl 0)) /\ unlock H t [R; R] = Some w /\
  match t with Node l r => run_auth_scripts orc cfg 12 [w; lock H l r] [] = AuthVerdict false st | _ => False end.
Proof. eexists _, _, _. split; [reflexivity|]. split; [reflexivity|]. split; [vm_compute; reflexivity|]. vm_compute. reflexivity. Qed.
End BuildersDemo.

Print Assumptions prioritized_paths.
Print Assumptions prio_walk_spec.
Print Assumptions prioritized_unlocks_spec.
Print Assumptions builders_complete_prioritized.
Print Assumptions balanced_leaves.
Print Assumptions balanced_find_leaves.
Print Assumptions bal_depth_log2_up.
Print Assumptions balanced_unlocks_spec.
Print Assumptions builders_complete_balanced.
Print Assumptions prioritized_onto_old.
Print Assumptions prioritized_onto_new.
Print Assumptions prioritized_onto_flatten.
Print Assumptions prioritized_filler_rejects.
Print Assumptions BuildersDemo.demo_prioritized.
Print Assumptions BuildersDemo.demo_balanced.
