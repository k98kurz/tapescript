(* Adapter signatures (C17) and anonymous multi-hop locks (C18), proved for every
   commutative ring of scalars acting on an abelian group of points (a module), every base
   point G and every Fiat-Shamir challenge function.  No cryptographic hardness is assumed or
   used: every "sensitivity" statement is an exact iff-characterisation.

   Mirror of /repo/tapescript/functions.py (OP_MAKE_ADAPTER_SIG_PUBLIC, OP_MAKE_ADAPTER_SIG_PRIVATE,
   OP_CHECK_ADAPTER_SIG, OP_DECRYPT_ADAPTER_SIG), /repo/tapescript/AMHL.py and
   tools.release_left_amhl_lock. *)
From Coq Require Import ZArith List Lia Ring Ring_theory.
Import ListNotations.

Lemma last_nth {A} (l : list A) d : last l d = nth (length l - 1) l d.
Proof.
  induction l as [|a l IH]; [reflexivity|].
  destruct l as [|b l]; [reflexivity|].
  change (last (a :: b :: l) d) with (last (b :: l) d). rewrite IH.
  cbn [length]. replace (S (S (length l)) - 1) with (S (S (length l) - 1)) by lia.
  reflexivity.
Qed.

Section Alg.
  Variable scalar : Type.
  Variables (s0 s1 : scalar) (sadd smul ssub : scalar -> scalar -> scalar) (sopp : scalar -> scalar).
  Hypothesis scalar_ring : ring_theory s0 s1 sadd smul ssub sopp (@eq scalar).
  Add Ring scalar_ring_inst : scalar_ring.

  Variable point : Type.
  Variables (p0 : point) (padd psub : point -> point -> point) (popp : point -> point).
  (* abelian group *)
  Hypothesis padd_comm : forall P Q, padd P Q = padd Q P.
  Hypothesis padd_assoc : forall P Q R, padd P (padd Q R) = padd (padd P Q) R.
  Hypothesis padd_0_l : forall P, padd p0 P = P.
  Hypothesis padd_opp : forall P, padd P (popp P) = p0.
  Hypothesis psub_def : forall P Q, psub P Q = padd P (popp Q).
  (* scalar action *)
  Variable act : scalar -> point -> point.
  Hypothesis act_add_l : forall a b P, act (sadd a b) P = padd (act a P) (act b P).
  Hypothesis act_add_r : forall a P Q, act a (padd P Q) = padd (act a P) (act a Q).
  Hypothesis act_mul : forall a b P, act (smul a b) P = act a (act b P).
  Hypothesis act_1 : forall P, act s1 P = P.
  Variable G : point.
  Variable msg : Type.
  (* c(R', X, m) = clamp(H_small(R' || X || m)) — an arbitrary function here *)
  Variable chal : point -> point -> msg -> scalar.


  Lemma padd_0_r : forall P, padd P p0 = P.
  Proof. intro P. rewrite padd_comm. apply padd_0_l. Qed.

  Lemma padd_opp_l : forall P, padd (popp P) P = p0.
  Proof. intro P. rewrite padd_comm. apply padd_opp. Qed.

  Lemma padd_cancel_l : forall P Q R, padd P Q = padd P R -> Q = R.
  Proof.
    intros P Q R H.
    assert (E : forall Z, Z = padd (popp P) (padd P Z)).
    { intro Z. rewrite padd_assoc, padd_opp_l, padd_0_l. reflexivity. }
    rewrite (E Q), (E R), H. reflexivity.
  Qed.

  Lemma padd_cancel_l_iff : forall P Q R, padd P Q = padd P R <-> Q = R.
  Proof. intros P Q R. split; [apply padd_cancel_l | intros ->; reflexivity]. Qed.

  Lemma padd_cancel_r_iff : forall P Q R, padd Q P = padd R P <-> Q = R.
  Proof. intros P Q R. rewrite (padd_comm Q P), (padd_comm R P). apply padd_cancel_l_iff. Qed.

  Lemma padd_swap_r : forall A B C, padd (padd A B) C = padd (padd A C) B.
  Proof. intros A B C. rewrite <- !padd_assoc. rewrite (padd_comm B C). reflexivity. Qed.

  Lemma popp_unique : forall P Q, padd P Q = p0 -> Q = popp P.
  Proof. intros P Q H. apply (padd_cancel_l P). rewrite H, padd_opp. reflexivity. Qed.

  Lemma act_0 : forall P, act s0 P = p0.
  Proof.
    intro P. apply (padd_cancel_l (act s0 P)).
    rewrite <- act_add_l, padd_0_r.
    replace (sadd s0 s0) with s0 by ring. reflexivity.
  Qed.

  Lemma act_opp : forall a P, act (sopp a) P = popp (act a P).
  Proof.
    intros a P. apply popp_unique. rewrite <- act_add_l.
    replace (sadd a (sopp a)) with s0 by ring. apply act_0.
  Qed.

  Lemma act_sub : forall a b P, act (ssub a b) P = psub (act a P) (act b P).
  Proof.
    intros a b P. rewrite psub_def, <- act_opp, <- act_add_l.
    replace (ssub a b) with (sadd a (sopp b)) by ring. reflexivity.
  Qed.

  Lemma act_r_0 : forall a, act a p0 = p0.
  Proof.
    intro a. apply (padd_cancel_l (act a p0)).
    rewrite <- act_add_r, !padd_0_r. reflexivity.
  Qed.

  Lemma act_1_G : act s1 G = G.
  Proof. apply act_1. Qed.


  (* derive_point_from_scalar *)
  Definition pub (x : scalar) : point := act x G.

  (* ordinary signature verification for nonce point R and scalar s *)
  Definition sig_valid (X : point) (m : msg) (R : point) (s : scalar) : Prop :=
    act s G = padd R (act (chal R X m) X).

  (* OP_MAKE_ADAPTER_SIG_PUBLIC: result (R, sa) *)
  Definition make_adapter_public (x r : scalar) (T : point) (m : msg) : point * scalar :=
    (act r G, sadd r (smul (chal (padd (act r G) T) (pub x) m) x)).

  (* OP_CHECK_ADAPTER_SIG *)
  Definition check_adapter (X T : point) (m : msg) (R : point) (sa : scalar) : Prop :=
    act sa G = padd R (act (chal (padd R T) X m) X).

  (* OP_DECRYPT_ADAPTER_SIG: result (RT, s) *)
  Definition decrypt_adapter (t : scalar) (R : point) (sa : scalar) : point * scalar :=
    (padd R (act t G), sadd sa t).

  (* t = s - sa *)
  Definition recover (s sa : scalar) : scalar := ssub s sa.

  (* OP_MAKE_ADAPTER_SIG_PRIVATE, as written in the code: result (T, R, sa') with
     sa' = t + r + c(R, X, m) * x *)
  Definition make_adapter_private (x r t : scalar) (m : msg) : point * point * scalar :=
    (act t G, act r G, sadd (sadd t r) (smul (chal (act r G) (pub x) m) x)).

  (* AMHL.setup: Y_0 = y_0 G ; Y_i = Y_{i-1} + y_i G *)
  Fixpoint Y_from (prev : point) (ys : list scalar) : list point :=
    match ys with
    | [] => []
    | y :: ys' => padd prev (act y G) :: Y_from (padd prev (act y G)) ys'
    end.

  Definition Y_list (ys : list scalar) : list point :=
    match ys with
    | [] => []
    | y0 :: ys' => act y0 G :: Y_from (act y0 G) ys'
    end.

  (* AMHL.scalar_sum: sum = scalars[0]; then add the rest left to right *)
  Definition scalar_sum (ys : list scalar) : scalar :=
    match ys with
    | [] => s0
    | y :: r => fold_left sadd r y
    end.

  (* y_0 + ... + y_i *)
  Definition prefix_sum (ys : list scalar) (i : nat) : scalar := scalar_sum (firstn (S i) ys).

  (* AMHL.setup_for(s, n)[-1] *)
  Definition total (ys : list scalar) : scalar := scalar_sum ys.

  (* AMHL.check_setup for 0 < i < n on (Y_{i-1}, Y_i, y_i) *)
  Definition check_setup (Yl : point) (yi : scalar) (Yr : point) : Prop :=
    padd Yl (act yi G) = Yr.

  (* AMHL.release *)
  Definition release (k y : scalar) : scalar := ssub k y.

  (* AMHL.verify_lock_key *)
  Definition verify_lock_key (L : point) (k : scalar) : Prop := L = act k G.

  (* tools.release_left_amhl_lock: t = s - sa, then AMHL.release(t, y) *)
  Definition release_left (sa s y : scalar) : scalar := release (recover s sa) y.


  Lemma pub_1 : pub s1 = G.
  Proof. unfold pub. apply act_1. Qed.

  (* the equation satisfied by the honest adapter scalar *)
  Lemma adapter_scalar_eq : forall x r T m,
    act (snd (make_adapter_public x r T m)) G =
    padd (act r G) (act (chal (padd (act r G) T) (pub x) m) (pub x)).
  Proof.
    intros x r T m. unfold make_adapter_public, pub. simpl.
    rewrite act_add_l, act_mul. reflexivity.
  Qed.

  (* the honest adapter scalar against the nonce point and any challenge value c in place of the honest one *)
  Lemma honest_eq_iff : forall x r T m c,
    let ad := make_adapter_public x r T m in
    act (snd ad) G = padd (fst ad) (act c (pub x)) <->
    act (chal (padd (fst ad) T) (pub x) m) (pub x) = act c (pub x).
  Proof. intros x r T m c ad. unfold ad. rewrite adapter_scalar_eq. apply padd_cancel_l_iff. Qed.

  Theorem adapter_checks : forall x r T m,
    check_adapter (pub x) T m
      (fst (make_adapter_public x r T m)) (snd (make_adapter_public x r T m)).
  Proof.
    intros x r T m. unfold check_adapter. rewrite adapter_scalar_eq. reflexivity.
  Qed.

  Theorem adapter_decrypts : forall x r t m,
    let T := act t G in
    let ad := make_adapter_public x r T m in
    let dec := decrypt_adapter t (fst ad) (snd ad) in
    fst dec = padd (fst ad) T /\
    snd dec = sadd (snd ad) t /\
    sig_valid (pub x) m (fst dec) (snd dec).
  Proof.
    intros x r t m T ad dec. split; [reflexivity|]. split; [reflexivity|].
    unfold sig_valid, dec, decrypt_adapter. cbn [fst snd].
    rewrite act_add_l. unfold ad. rewrite adapter_scalar_eq. cbn [fst make_adapter_public].
    fold T. apply padd_swap_r.
  Qed.

  Theorem recover_decrypt : forall sa t, recover (sadd sa t) sa = t.
  Proof. intros sa t. unfold recover. ring. Qed.

  Theorem adapter_recovers : forall x r t m,
    let ad := make_adapter_public x r (act t G) m in
    let dec := decrypt_adapter t (fst ad) (snd ad) in
    recover (snd dec) (snd ad) = t.
  Proof. intros x r t m ad dec. apply recover_decrypt. Qed.

  (* OP_CHECK_ADAPTER_SIG pins down sa up to the kernel of (fun a => a G) *)
  Theorem check_sensitive_sa : forall x r T m sa2,
    let ad := make_adapter_public x r T m in
    check_adapter (pub x) T m (fst ad) sa2 <-> act sa2 G = act (snd ad) G.
  Proof.
    intros x r T m sa2 ad. unfold check_adapter, ad.
    rewrite adapter_scalar_eq. cbn [fst make_adapter_public]. reflexivity.
  Qed.

  (* honest adapter, only T changed *)
  Theorem check_sensitive_T : forall x r T m T2,
    let ad := make_adapter_public x r T m in
    let R := fst ad in let X := pub x in
    check_adapter X T2 m R (snd ad) <->
    act (chal (padd R T) X m) X = act (chal (padd R T2) X m) X.
  Proof.
    intros x r T m T2 ad R X. apply honest_eq_iff.
  Qed.

  (* honest adapter, only m changed *)
  Theorem check_sensitive_m : forall x r T m m2,
    let ad := make_adapter_public x r T m in
    let R := fst ad in let X := pub x in
    check_adapter X T m2 R (snd ad) <->
    act (chal (padd R T) X m) X = act (chal (padd R T) X m2) X.
  Proof.
    intros x r T m m2 ad R X. apply honest_eq_iff.
  Qed.

  (* the bare adapter is an ordinary signature exactly when the two challenges agree on X *)
  Theorem adapter_not_signature_iff : forall x r T m,
    let ad := make_adapter_public x r T m in
    let R := fst ad in let X := pub x in
    sig_valid X m R (snd ad) <->
    act (chal (padd R T) X m) X = act (chal R X m) X.
  Proof.
    intros x r T m ad R X. apply honest_eq_iff.
  Qed.

  (* decrypting with another scalar t2.  T is arbitrary here (not necessarily t G). *)
  Theorem wrong_scalar_iff : forall x r T m t2,
    let ad := make_adapter_public x r T m in
    let R := fst ad in let X := pub x in
    let dec := decrypt_adapter t2 R (snd ad) in
    sig_valid X m (fst dec) (snd dec) <->
    act (chal (padd R T) X m) X = act (chal (padd R (act t2 G)) X m) X.
  Proof.
    intros x r T m t2 ad R X dec. unfold sig_valid, dec, decrypt_adapter. cbn [fst snd].
    rewrite act_add_l. unfold ad. rewrite adapter_scalar_eq.
    subst R X ad. cbn [fst make_adapter_public].
    rewrite padd_swap_r. apply padd_cancel_l_iff.
  Qed.

  (* the decrypted scalar checked against the intended nonce R + T *)
  Theorem wrong_scalar_intended_nonce_iff : forall x r T m t2,
    let ad := make_adapter_public x r T m in
    let R := fst ad in let X := pub x in
    sig_valid X m (padd R T) (sadd (snd ad) t2) <-> act t2 G = T.
  Proof.
    intros x r T m t2 ad R X. unfold sig_valid.
    rewrite act_add_l. unfold ad. rewrite adapter_scalar_eq.
    subst R X ad. cbn [fst make_adapter_public].
    rewrite padd_swap_r. rewrite padd_cancel_r_iff. apply padd_cancel_l_iff.
  Qed.

  (* with injectivity of the three maps involved, only t itself decrypts *)
  Corollary wrong_scalar_injective : forall x r t m t2,
    (forall a b, act a (pub x) = act b (pub x) -> a = b) ->
    (forall a b, act a G = act b G -> a = b) ->
    (forall P Q, chal P (pub x) m = chal Q (pub x) m -> P = Q) ->
    let ad := make_adapter_public x r (act t G) m in
    let dec := decrypt_adapter t2 (fst ad) (snd ad) in
    sig_valid (pub x) m (fst dec) (snd dec) -> t2 = t.
  Proof.
    intros x r t m t2 HX HG Hc ad dec H.
    apply (wrong_scalar_iff x r (act t G) m t2) in H.
    apply HX in H. apply Hc in H. apply padd_cancel_l in H. apply HG in H. symmetry. exact H.
  Qed.

  (* OP_MAKE_ADAPTER_SIG_PRIVATE *)
  Lemma private_scalar_eq : forall x r t m,
    act (snd (make_adapter_private x r t m)) G =
    padd (act r G) (padd (act t G) (act (chal (act r G) (pub x) m) (pub x))).
  Proof.
    intros x r t m. unfold make_adapter_private, pub. cbn [snd].
    replace (sadd (sadd t r) (smul (chal (act r G) (act x G) m) x))
      with (sadd r (sadd t (smul (chal (act r G) (act x G) m) x))) by ring.
    rewrite !act_add_l, act_mul. reflexivity.
  Qed.

  Theorem private_variant_check_iff : forall x r t m,
    let R := act r G in let T := act t G in let X := pub x in
    let sa' := snd (make_adapter_private x r t m) in
    make_adapter_private x r t m = (T, R, sa') /\
    (check_adapter X T m R sa' <->
     padd T (act (chal R X m) X) = act (chal (padd R T) X m) X).
  Proof.
    intros x r t m R T X sa'. split; [reflexivity|].
    unfold check_adapter, sa'. rewrite private_scalar_eq. subst R T X.
    apply padd_cancel_l_iff.
  Qed.

  Theorem private_variant_decrypt_iff : forall x r t m,
    let R := act r G in let T := act t G in let X := pub x in
    let sa' := snd (make_adapter_private x r t m) in
    let dec := decrypt_adapter t R sa' in
    sig_valid X m (fst dec) (snd dec) <->
    padd T (act (chal R X m) X) = act (chal (padd R T) X m) X.
  Proof.
    intros x r t m R T X sa' dec. unfold sig_valid, dec, decrypt_adapter. cbn [fst snd].
    rewrite act_add_l. unfold sa'. rewrite private_scalar_eq. subst R T X.
    rewrite <- !padd_assoc. rewrite padd_cancel_l_iff.
    rewrite (padd_comm (act t G) (act (chal (padd (act r G) (act t G)) (pub x) m) (pub x))).
    rewrite padd_assoc. apply padd_cancel_r_iff.
  Qed.


  Lemma fold_firstn_step : forall (l : list scalar) n acc, n < length l ->
    fold_left sadd (firstn (S n) l) acc = sadd (fold_left sadd (firstn n l) acc) (nth n l s0).
  Proof.
    induction l as [|a l IH]; intros n acc Hn; simpl in Hn; [lia|].
    destruct n as [|n].
    - reflexivity.
    - change (firstn (S (S n)) (a :: l)) with (a :: firstn (S n) l).
      change (firstn (S n) (a :: l)) with (a :: firstn n l).
      cbn [fold_left nth]. apply IH. lia.
  Qed.

  Lemma prefix_sum_0 : forall y ys, prefix_sum (y :: ys) 0 = y.
  Proof. reflexivity. Qed.

  Lemma prefix_sum_step : forall ys i, 0 < i < length ys ->
    prefix_sum ys i = sadd (prefix_sum ys (i - 1)) (nth i ys s0).
  Proof.
    intros [|y0 ys] i Hi; simpl in Hi; [lia|].
    destruct i as [|j]; [lia|].
    replace (S j - 1) with j by lia.
    unfold prefix_sum.
    change (firstn (S (S j)) (y0 :: ys)) with (y0 :: firstn (S j) ys).
    change (firstn (S j) (y0 :: ys)) with (y0 :: firstn j ys).
    cbn [scalar_sum nth]. apply fold_firstn_step. lia.
  Qed.

  Lemma prefix_sum_last : forall ys, ys <> [] -> prefix_sum ys (length ys - 1) = total ys.
  Proof.
    intros ys Hne. unfold prefix_sum, total.
    replace (S (length ys - 1)) with (length ys).
    - rewrite firstn_all. reflexivity.
    - destruct ys; [congruence | simpl; lia].
  Qed.

  Lemma Y_from_length : forall ys prev, length (Y_from prev ys) = length ys.
  Proof. induction ys as [|y ys IH]; intro prev; simpl; [reflexivity | rewrite IH; reflexivity]. Qed.

  Lemma Y_list_length : forall ys, length (Y_list ys) = length ys.
  Proof. intros [|y ys]; simpl; [reflexivity | rewrite Y_from_length; reflexivity]. Qed.

  Lemma Y_from_nth : forall ys prev acc i, i < length ys -> prev = act acc G ->
    nth i (Y_from prev ys) p0 = act (fold_left sadd (firstn (S i) ys) acc) G.
  Proof.
    induction ys as [|y ys IH]; intros prev acc i Hi Hp; simpl in Hi; [lia|].
    destruct i as [|i].
    - cbn. rewrite act_add_l, Hp. reflexivity.
    - change (firstn (S (S i)) (y :: ys)) with (y :: firstn (S i) ys).
      cbn [Y_from nth fold_left]. apply IH; [lia|].
      rewrite act_add_l, Hp. reflexivity.
  Qed.

  Theorem amhl_points : forall ys i, i < length ys ->
    nth i (Y_list ys) p0 = act (prefix_sum ys i) G.
  Proof.
    intros [|y0 ys] i Hi; simpl in Hi; [lia|].
    destruct i as [|i].
    - reflexivity.
    - unfold prefix_sum.
      change (firstn (S (S i)) (y0 :: ys)) with (y0 :: firstn (S i) ys).
      cbn [Y_list nth scalar_sum]. apply Y_from_nth; [lia | reflexivity].
  Qed.

  Theorem amhl_check_setup : forall ys i, 0 < i < length ys ->
    check_setup (nth (i - 1) (Y_list ys) p0) (nth i ys s0) (nth i (Y_list ys) p0).
  Proof.
    intros ys i Hi. unfold check_setup.
    rewrite !amhl_points by lia. rewrite (prefix_sum_step ys i Hi), act_add_l. reflexivity.
  Qed.

  Theorem amhl_final_key : forall ys, ys <> [] ->
    verify_lock_key (last (Y_list ys) p0) (total ys).
  Proof.
    intros ys Hne. unfold verify_lock_key.
    assert (Hlen : length ys <> 0) by (destruct ys; [congruence | simpl; lia]).
    rewrite last_nth, Y_list_length, amhl_points by lia. rewrite prefix_sum_last by exact Hne. reflexivity.
  Qed.

  Theorem amhl_release : forall ys i, 0 < i < length ys ->
    release (prefix_sum ys i) (nth i ys s0) = prefix_sum ys (i - 1) /\
    verify_lock_key (nth (i - 1) (Y_list ys) p0) (release (prefix_sum ys i) (nth i ys s0)).
  Proof.
    intros ys i Hi.
    assert (E : release (prefix_sum ys i) (nth i ys s0) = prefix_sum ys (i - 1)).
    { rewrite (prefix_sum_step ys i Hi). unfold release. ring. }
    split; [exact E|]. rewrite E. unfold verify_lock_key. apply amhl_points. lia.
  Qed.

  (* The cascade.  Hop i's adapter (made for T_i = Y_i by signer x, nonce r, message m) is
     decrypted with the hop key prefix_sum i; from the published signature scalar the left
     neighbour computes release_left, which is prefix_sum (i-1), and that scalar decrypts hop
     (i-1)'s adapter (made for T_{i-1} by signer x', nonce r', message m') into a valid signature. *)
  Theorem amhl_cascade : forall ys i, 0 < i < length ys ->
    forall x r m x' r' m',
    let Ti := nth i (Y_list ys) p0 in
    let Tl := nth (i - 1) (Y_list ys) p0 in
    let ad_i := make_adapter_public x r Ti m in
    let dec_i := decrypt_adapter (prefix_sum ys i) (fst ad_i) (snd ad_i) in
    let k := release_left (snd ad_i) (snd dec_i) (nth i ys s0) in
    let ad_l := make_adapter_public x' r' Tl m' in
    let dec_l := decrypt_adapter k (fst ad_l) (snd ad_l) in
    sig_valid (pub x) m (fst dec_i) (snd dec_i) /\
    k = prefix_sum ys (i - 1) /\
    verify_lock_key Tl k /\
    sig_valid (pub x') m' (fst dec_l) (snd dec_l).
  Proof.
    intros ys i Hi x r m x' r' m' Ti Tl ad_i dec_i k ad_l dec_l.
    assert (HTi : Ti = act (prefix_sum ys i) G) by (apply amhl_points; lia).
    assert (HTl : Tl = act (prefix_sum ys (i - 1)) G) by (apply amhl_points; lia).
    assert (Hk : k = prefix_sum ys (i - 1)).
    { unfold k, release_left, dec_i, decrypt_adapter. cbn [snd].
      rewrite recover_decrypt. apply (amhl_release ys i Hi). }
    split.
    - unfold dec_i, ad_i. rewrite HTi.
      apply (adapter_decrypts x r (prefix_sum ys i) m).
    - split; [exact Hk|]. split.
      + unfold verify_lock_key. rewrite Hk. exact HTl.
      + unfold dec_l, ad_l. rewrite Hk, HTl.
        apply (adapter_decrypts x' r' (prefix_sum ys (i - 1)) m').
  Qed.

  Theorem amhl_wrong_hop_iff : forall ys i k, i < length ys ->
    verify_lock_key (nth i (Y_list ys) p0) k <-> act k G = act (prefix_sum ys i) G.
  Proof.
    intros ys i k Hi. unfold verify_lock_key. rewrite amhl_points by exact Hi.
    split; intro H; symmetry; exact H.
  Qed.

End Alg.

Arguments pub {scalar point} act G x.
Arguments sig_valid {scalar point} padd act G {msg} chal X m R s.
Arguments make_adapter_public {scalar} sadd smul {point} padd act G {msg} chal x r T m.
Arguments check_adapter {scalar point} padd act G {msg} chal X T m R sa.
Arguments decrypt_adapter {scalar} sadd {point} padd act G t R sa.
Arguments recover {scalar} ssub s sa.
Arguments make_adapter_private {scalar} sadd smul {point} act G {msg} chal x r t m.
Arguments Y_from {scalar point} padd act G prev ys.
Arguments Y_list {scalar point} padd act G ys.
Arguments scalar_sum {scalar} s0 sadd ys.
Arguments prefix_sum {scalar} s0 sadd ys i.
Arguments total {scalar} s0 sadd ys.
Arguments check_setup {scalar point} padd act G Yl yi Yr.
Arguments release {scalar} ssub k y.
Arguments verify_lock_key {scalar point} act G L k.
Arguments release_left {scalar} ssub sa s y.

(* Non-vacuity: the whole interface is inhabited by scalar = point = Z,
   a . P = a * P, G = 1, chal R X m = R + 2 X + m. *)

Local Open Scope Z_scope.

Definition Zchal (R X m : Z) : Z := R + 2 * X + m.

Lemma Z_scalar_ring : ring_theory 0 1 Z.add Z.mul Z.sub Z.opp (@eq Z).
Proof. exact Zth. Qed.
Lemma Z_padd_comm : forall P Q : Z, P + Q = Q + P.
Proof. intros; ring. Qed.
Lemma Z_padd_assoc : forall P Q R : Z, P + (Q + R) = (P + Q) + R.
Proof. intros; ring. Qed.
Lemma Z_padd_0_l : forall P : Z, 0 + P = P.
Proof. intros; ring. Qed.
Lemma Z_padd_opp : forall P : Z, P + - P = 0.
Proof. intros; ring. Qed.
Lemma Z_psub_def : forall P Q : Z, P - Q = P + - Q.
Proof. intros; ring. Qed.
Lemma Z_act_add_l : forall a b P : Z, (a + b) * P = a * P + b * P.
Proof. intros; ring. Qed.
Lemma Z_act_add_r : forall a P Q : Z, a * (P + Q) = a * P + a * Q.
Proof. intros; ring. Qed.
Lemma Z_act_mul : forall a b P : Z, (a * b) * P = a * (b * P).
Proof. intros; ring. Qed.
Lemma Z_act_1 : forall P : Z, 1 * P = P.
Proof. intros; ring. Qed.

Notation pubZ := (pub Z.mul 1).
Notation sig_validZ := (sig_valid Z.add Z.mul 1 Zchal).
Notation make_pubZ := (make_adapter_public Z.add Z.mul Z.add Z.mul 1 Zchal).
Notation make_prvZ := (make_adapter_private Z.add Z.mul Z.mul 1 Zchal).
Notation checkZ := (check_adapter Z.add Z.mul 1 Zchal).
Notation decryptZ := (decrypt_adapter Z.add Z.add Z.mul 1).
Notation Y_listZ := (Y_list Z.add Z.mul 1).
Notation prefix_sumZ := (prefix_sum 0 Z.add).
Notation totalZ := (total 0 Z.add).
Notation verify_lock_keyZ := (verify_lock_key Z.mul 1).

Example act_sub_Z : forall a b P : Z, (a - b) * P = a * P - b * P.
Proof. exact (act_sub Z 0 1 Z.add Z.mul Z.sub Z.opp Z_scalar_ring Z 0 Z.add Z.sub Z.opp Z_padd_comm Z_padd_assoc Z_padd_0_l Z_padd_opp Z_psub_def Z.mul Z_act_add_l). Qed.
Example act_r_0_Z : forall a : Z, a * 0 = 0.
Proof. exact (act_r_0 Z Z 0 Z.add Z.opp Z_padd_comm Z_padd_assoc Z_padd_0_l Z_padd_opp Z.mul Z_act_add_r). Qed.
Example pub_1_Z : pubZ 1 = 1.
Proof. exact (pub_1 Z 1 Z Z.mul Z_act_1 1). Qed.

Example adapter_checks_Z : forall x r T m : Z,
  checkZ (pubZ x) T m (fst (make_pubZ x r T m)) (snd (make_pubZ x r T m)).
Proof. exact (adapter_checks Z Z.add Z.mul Z Z.add Z.mul Z_act_add_l Z_act_mul 1 Z Zchal). Qed.

Example adapter_decrypts_Z : forall x r t m : Z,
  let T := t * 1 in
  let ad := make_pubZ x r T m in
  let dec := decryptZ t (fst ad) (snd ad) in
  fst dec = fst ad + T /\ snd dec = snd ad + t /\ sig_validZ (pubZ x) m (fst dec) (snd dec).
Proof. exact (adapter_decrypts Z Z.add Z.mul Z Z.add Z_padd_comm Z_padd_assoc Z.mul Z_act_add_l Z_act_mul 1 Z Zchal). Qed.

Example adapter_recovers_Z : forall x r t m : Z,
  let ad := make_pubZ x r (t * 1) m in
  let dec := decryptZ t (fst ad) (snd ad) in
  recover Z.sub (snd dec) (snd ad) = t.
Proof. exact (adapter_recovers Z 0 1 Z.add Z.mul Z.sub Z.opp Z_scalar_ring Z Z.add Z.mul 1 Z Zchal). Qed.

Example check_sensitive_sa_Z : forall x r T m sa2 : Z,
  let ad := make_pubZ x r T m in
  checkZ (pubZ x) T m (fst ad) sa2 <-> sa2 * 1 = snd ad * 1.
Proof. exact (check_sensitive_sa Z Z.add Z.mul Z Z.add Z.mul Z_act_add_l Z_act_mul 1 Z Zchal). Qed.

Example check_sensitive_T_Z : forall x r T m T2 : Z,
  let ad := make_pubZ x r T m in
  let R := fst ad in let X := pubZ x in
  checkZ X T2 m R (snd ad) <-> Zchal (R + T) X m * X = Zchal (R + T2) X m * X.
Proof. exact (check_sensitive_T Z Z.add Z.mul Z 0 Z.add Z.opp Z_padd_comm Z_padd_assoc Z_padd_0_l Z_padd_opp Z.mul Z_act_add_l Z_act_mul 1 Z Zchal). Qed.

Example check_sensitive_m_Z : forall x r T m m2 : Z,
  let ad := make_pubZ x r T m in
  let R := fst ad in let X := pubZ x in
  checkZ X T m2 R (snd ad) <-> Zchal (R + T) X m * X = Zchal (R + T) X m2 * X.
Proof. exact (check_sensitive_m Z Z.add Z.mul Z 0 Z.add Z.opp Z_padd_comm Z_padd_assoc Z_padd_0_l Z_padd_opp Z.mul Z_act_add_l Z_act_mul 1 Z Zchal). Qed.

Example adapter_not_signature_iff_Z : forall x r T m : Z,
  let ad := make_pubZ x r T m in
  let R := fst ad in let X := pubZ x in
  sig_validZ X m R (snd ad) <-> Zchal (R + T) X m * X = Zchal R X m * X.
Proof. exact (adapter_not_signature_iff Z Z.add Z.mul Z 0 Z.add Z.opp Z_padd_comm Z_padd_assoc Z_padd_0_l Z_padd_opp Z.mul Z_act_add_l Z_act_mul 1 Z Zchal). Qed.

Example wrong_scalar_iff_Z : forall x r T m t2 : Z,
  let ad := make_pubZ x r T m in
  let R := fst ad in let X := pubZ x in
  let dec := decryptZ t2 R (snd ad) in
  sig_validZ X m (fst dec) (snd dec) <->
  Zchal (R + T) X m * X = Zchal (R + t2 * 1) X m * X.
Proof. exact (wrong_scalar_iff Z Z.add Z.mul Z 0 Z.add Z.opp Z_padd_comm Z_padd_assoc Z_padd_0_l Z_padd_opp Z.mul Z_act_add_l Z_act_mul 1 Z Zchal). Qed.

Example wrong_scalar_intended_nonce_iff_Z : forall x r T m t2 : Z,
  let ad := make_pubZ x r T m in
  let R := fst ad in let X := pubZ x in
  sig_validZ X m (R + T) (snd ad + t2) <-> t2 * 1 = T.
Proof. exact (wrong_scalar_intended_nonce_iff Z Z.add Z.mul Z 0 Z.add Z.opp Z_padd_comm Z_padd_assoc Z_padd_0_l Z_padd_opp Z.mul Z_act_add_l Z_act_mul 1 Z Zchal). Qed.

(* the injectivity premises of the corollary are satisfiable: here they hold whenever x <> 0 *)
Example wrong_scalar_injective_Z : forall x r t m t2 : Z, x <> 0 ->
  let ad := make_pubZ x r (t * 1) m in
  let dec := decryptZ t2 (fst ad) (snd ad) in
  sig_validZ (pubZ x) m (fst dec) (snd dec) -> t2 = t.
Proof.
  intros x r t m t2 Hx.
  apply (wrong_scalar_injective Z Z.add Z.mul Z 0 Z.add Z.opp Z_padd_comm Z_padd_assoc Z_padd_0_l Z_padd_opp Z.mul Z_act_add_l Z_act_mul 1 Z Zchal).
  - intros a b H. unfold pub in H. apply Z.mul_reg_r in H; [exact H | lia].
  - intros a b H. lia.
  - intros P Q H. unfold Zchal in H. lia.
Qed.

Example private_variant_check_iff_Z : forall x r t m : Z,
  let R := r * 1 in let T := t * 1 in let X := pubZ x in
  let sa' := snd (make_prvZ x r t m) in
  make_prvZ x r t m = (T, R, sa') /\
  (checkZ X T m R sa' <-> T + Zchal R X m * X = Zchal (R + T) X m * X).
Proof. exact (private_variant_check_iff Z 0 1 Z.add Z.mul Z.sub Z.opp Z_scalar_ring Z 0 Z.add Z.opp Z_padd_comm Z_padd_assoc Z_padd_0_l Z_padd_opp Z.mul Z_act_add_l Z_act_mul 1 Z Zchal). Qed.

Example private_variant_decrypt_iff_Z : forall x r t m : Z,
  let R := r * 1 in let T := t * 1 in let X := pubZ x in
  let sa' := snd (make_prvZ x r t m) in
  let dec := decryptZ t R sa' in
  sig_validZ X m (fst dec) (snd dec) <-> T + Zchal R X m * X = Zchal (R + T) X m * X.
Proof. exact (private_variant_decrypt_iff Z 0 1 Z.add Z.mul Z.sub Z.opp Z_scalar_ring Z 0 Z.add Z.opp Z_padd_comm Z_padd_assoc Z_padd_0_l Z_padd_opp Z.mul Z_act_add_l Z_act_mul 1 Z Zchal). Qed.

(* concrete numbers: x = 2, r = 1, t = 1, m = 0.  The PUBLIC adapter passes the check and
   decrypts to a valid signature; the PRIVATE variant's adapter fails the check and its
   decryption is not a valid signature. *)
Example public_variant_concrete_Z :
  let ad := make_pubZ 2 1 (1 * 1) 0 in
  let dec := decryptZ 1 (fst ad) (snd ad) in
  ad = (1, 13) /\ checkZ (pubZ 2) 1 0 (fst ad) (snd ad) /\
  dec = (2, 14) /\ sig_validZ (pubZ 2) 0 (fst dec) (snd dec).
Proof. vm_compute. repeat split. Qed.

Example private_variant_refuted_Z :
  make_prvZ 2 1 1 0 = (1, 1, 12) /\
  ~ checkZ (pubZ 2) 1 0 1 12 /\
  decryptZ 1 1 12 = (2, 13) /\
  ~ sig_validZ (pubZ 2) 0 2 13.
Proof.
  split; [reflexivity|]. split; [vm_compute; discriminate|].
  split; [reflexivity|]. vm_compute; discriminate.
Qed.

Example amhl_points_Z : forall (ys : list Z) (i : nat), (i < length ys)%nat ->
  nth i (Y_listZ ys) 0 = prefix_sumZ ys i * 1.
Proof. exact (amhl_points Z 0 Z.add Z 0 Z.add Z.mul Z_act_add_l 1). Qed.

Example amhl_check_setup_Z : forall (ys : list Z) (i : nat), (0 < i < length ys)%nat ->
  check_setup Z.add Z.mul 1 (nth (i - 1) (Y_listZ ys) 0) (nth i ys 0) (nth i (Y_listZ ys) 0).
Proof. exact (amhl_check_setup Z 0 Z.add Z 0 Z.add Z.mul Z_act_add_l 1). Qed.

Example amhl_final_key_Z : forall ys : list Z, ys <> [] ->
  verify_lock_keyZ (last (Y_listZ ys) 0) (totalZ ys).
Proof. exact (amhl_final_key Z 0 Z.add Z 0 Z.add Z.mul Z_act_add_l 1). Qed.

Example amhl_release_Z : forall (ys : list Z) (i : nat), (0 < i < length ys)%nat ->
  release Z.sub (prefix_sumZ ys i) (nth i ys 0) = prefix_sumZ ys (i - 1) /\
  verify_lock_keyZ (nth (i - 1) (Y_listZ ys) 0) (release Z.sub (prefix_sumZ ys i) (nth i ys 0)).
Proof. exact (amhl_release Z 0 1 Z.add Z.mul Z.sub Z.opp Z_scalar_ring Z 0 Z.add Z.mul Z_act_add_l 1). Qed.

Example amhl_cascade_Z : forall (ys : list Z) (i : nat), (0 < i < length ys)%nat ->
  forall x r m x' r' m' : Z,
  let Ti := nth i (Y_listZ ys) 0 in
  let Tl := nth (i - 1) (Y_listZ ys) 0 in
  let ad_i := make_pubZ x r Ti m in
  let dec_i := decryptZ (prefix_sumZ ys i) (fst ad_i) (snd ad_i) in
  let k := release_left Z.sub (snd ad_i) (snd dec_i) (nth i ys 0) in
  let ad_l := make_pubZ x' r' Tl m' in
  let dec_l := decryptZ k (fst ad_l) (snd ad_l) in
  sig_validZ (pubZ x) m (fst dec_i) (snd dec_i) /\
  k = prefix_sumZ ys (i - 1) /\
  verify_lock_keyZ Tl k /\
  sig_validZ (pubZ x') m' (fst dec_l) (snd dec_l).
Proof. exact (amhl_cascade Z 0 1 Z.add Z.mul Z.sub Z.opp Z_scalar_ring Z 0 Z.add Z_padd_comm Z_padd_assoc Z.mul Z_act_add_l Z_act_mul 1 Z Zchal). Qed.

Example amhl_wrong_hop_iff_Z : forall (ys : list Z) (i : nat) (k : Z), (i < length ys)%nat ->
  verify_lock_keyZ (nth i (Y_listZ ys) 0) k <-> k * 1 = prefix_sumZ ys i * 1.
Proof. exact (amhl_wrong_hop_iff Z 0 Z.add Z 0 Z.add Z.mul Z_act_add_l 1). Qed.

(* a concrete three-hop chain, computed *)
Example amhl_concrete_Z :
  Y_listZ [3; 4; 5] = [3; 7; 12] /\ totalZ [3; 4; 5] = 12 /\
  release Z.sub (prefix_sumZ [3; 4; 5] 2) 5 = 7 /\ verify_lock_keyZ 7 7 /\ ~ verify_lock_keyZ 7 12.
Proof. vm_compute. repeat split. discriminate. Qed.
