(* Running bytecode on a tape with symbolic operands.
   [runs n tid code st st']: wherever the bytes [code] stand on tape [tid], [n] instructions take the machine
   from the first of them to the byte behind the last and the state from [st] to [st']; [raises n tid code st]:
   from the first of them the machine raises.  An opcode treated here has its instruction-level lemma [X_exec] (any
   runner, any frame; the pointer stands behind the opcode, [data_at fr st = operands ++ rest]); one that always
   completes has [X_runs], one that may raise has [X_step], the equation for [run_tape] at a pointer [p] with
   [skipn p data = opcode :: operands ++ rest] (VERIFY, EQUAL_VERIFY and CHECK_TIMESTAMP_VERIFY also have [X_runs] /
   [X_raises] for their two cases).  A stretch of code is proved instruction by instruction ([eapply runs_step; [apply X_runs; ..|]],
   closed by [runs_nil] or [runs_eq]); stretches compose with [runs_app] / [runs_raises]; a segment is used at a
   pointer with [runs_at] / [runs1_at] / [raises_at] (premises [tdata st tid = data], [skipn p data = code ++ rest])
   and up to the end of the tape with [runs_end].  Capacity premises are [fits] (item size), [space] (one more
   item), [room] (one more one-byte item).  The cache instructions, SPLIT and CHECK_SIG_STACK are in BuilderSpecC14; an
   instruction that only one family of locks uses has its lemmas in the file of that family. *)
From Coq Require Import ZArith List Bool Lia.
From Coq.Strings Require Import Byte String.
From TS Require Import Bytes State Prog Ops Interp StateLemmas InterpLemmas NopSpec StackLemmas BytesLemmas
  TimeSpec Asm.
Import ListNotations.
Local Open Scope nat_scope.

(* lia, insensitive to the spelling [bytes] / [list byte] of the type argument of [length] *)
Ltac blia := unfold bytes in *; lia.

Lemma b2z_z2b_small n : (0 <= n < 256)%Z -> b2z (z2b n) = n.
Proof. intro H. rewrite b2z_z2b. apply Z.mod_small. exact H. Qed.

Lemma be1 b : be_to_Z [b] = b2z b.
Proof. unfold be_to_Z. cbn [be_acc]. rewrite Z.shiftl_0_l. reflexivity. Qed.

Lemma be_len2 (b : bytes) : (blen b < 65536)%Z -> be_to_Z (len2 b) = blen b.
Proof.
  intro H. unfold len2. rewrite be_to_Z_Z_to_be. apply Z.mod_small.
  split; [apply blen_nonneg|exact H].
Qed.

Lemma length_len2 (b : bytes) : List.length (len2 b) = 2.
Proof. apply length_Z_to_be. Qed.

Lemma bytes_to_bool_boolb v : bytes_to_bool (boolb v) = v.
Proof. destruct v; reflexivity. Qed.

Lemma boolb_is_true v : bytes_eqb (boolb v) [xff] = v.
Proof. destruct v; reflexivity. Qed.

Lemma not_boolb v : map byte_not (boolb v) = boolb (negb v).
Proof. destruct v; reflexivity. Qed.

Section Exec.
Variable orc : oracle.
Variable cfg : config.
Variable run : nat -> state -> outcome unit.

Notation fits := (fits cfg).
Notation space := (space cfg).
Notation room := (room cfg).
Notation interp := (Interp.interp orc cfg run).

Lemma data_at_adv fr st pre rest :
  data_at fr st = pre ++ rest -> data_at (adv fr (List.length pre)) st = rest.
Proof. unfold data_at, adv, cur. cbn [fr_tid fr_ptr]. apply skipn_app_r. Qed.

Lemma data_at_adv1 fr st b rest : data_at fr st = b :: rest -> data_at (adv fr 1) st = rest.
Proof. exact (data_at_adv fr st [b] rest). Qed.

Lemma adv_adv fr n m : adv (adv fr n) m = adv fr (n + m).
Proof. unfold adv. cbn [fr_tid fr_ptr]. f_equal. lia. Qed.

(* a read of the next bytes; n = 0 is allowed, so the pointer must be known to stand inside the tape *)
Lemma read_exec A (k : bytes -> prog A) fr st (v rest : bytes) n :
  data_at fr st = v ++ rest -> Z.to_nat n = List.length v ->
  fr_ptr fr <= List.length (to_data (cur fr st)) ->
  interp (Act (ARead n) k) fr st = interp (k v) (adv fr (List.length v)) st.
Proof.
  intros H Hn Hp. cbn [Interp.interp step]. unfold data_at in H. rewrite Hn.
  assert (Hl : List.length (skipn (fr_ptr fr) (to_data (cur fr st))) = List.length v + List.length rest)
    by (rewrite H; apply app_length).
  rewrite skipn_length in Hl.
  destruct (_ <? _) eqn:E; [apply Nat.ltb_lt in E; lia|].
  rewrite H, firstn_after. reflexivity.
Qed.

Lemma data_at_inside fr st (pre rest : bytes) :
  data_at fr st = pre ++ rest -> 0 < List.length pre ->
  fr_ptr fr + List.length pre <= List.length (to_data (cur fr st)).
Proof.
  unfold data_at. intros H Hp. apply (f_equal (@List.length byte)) in H.
  rewrite skipn_length, app_length in H. lia.
Qed.

(* a block with its two-byte length in front, as read by IF, IF_ELSE, EVAL-like instructions *)
Lemma read_block A (k : bytes -> prog A) fr st (b rest : bytes) :
  data_at fr st = len2 b ++ b ++ rest -> (blen b < 65536)%Z ->
  interp (n <- read_u16 ;; d <- read n ;; k d) fr st = interp (k b) (adv fr (List.length (len2 b ++ b))) st.
Proof.
  intros Hd Hb. pose proof (data_at_inside fr st (len2 b) (b ++ rest) Hd) as Hin.
  rewrite length_len2 in Hin. specialize (Hin (Nat.lt_0_succ 1)).
  unfold read_u16, read, act. cbn [bind].
  rewrite (read_exec _ _ fr st (len2 b) (b ++ rest) 2 Hd); [|rewrite length_len2; reflexivity|lia].
  cbn [bind]. rewrite (be_len2 b Hb).
  rewrite (read_exec _ _ _ st b rest (blen b) (data_at_adv _ _ _ _ Hd)).
  - rewrite adv_adv, app_length. reflexivity.
  - apply Nat2Z.id.
  - unfold adv. cbn [fr_ptr]. change (cur _ st) with (cur fr st). rewrite length_len2. lia.
Qed.

Lemma data_at_block fr st (b rest : bytes) :
  data_at fr st = len2 b ++ b ++ rest -> data_at (adv fr (List.length (len2 b ++ b))) st = rest.
Proof. intro H. apply data_at_adv. rewrite <- app_assoc. exact H. Qed.

Lemma read_u8_exec A (k : Z -> prog A) fr st b rest :
  data_at fr st = b :: rest -> interp (n <- read_u8 ;; k n) fr st = interp (k (b2z b)) (adv fr 1) st.
Proof.
  intro Hd. unfold read_u8, read, act. cbn [bind].
  rewrite (read1 orc cfg run fr st b rest) by exact Hd. cbn [bind]. rewrite be1. reflexivity.
Qed.

Lemma put_exec fr st b s :
  st_stack st = s -> fits b -> space s -> interp (put b) fr st = Done tt fr (with_stack st (b :: s)).
Proof. exact (put_step orc cfg run _ _ fr st b s). Qed.

Lemma push0_exec fr st b rest (s : list bytes) :
  data_at fr st = b :: rest -> st_stack st = s -> fits [b] -> space s ->
  interp OP_PUSH0 fr st = Done tt (adv fr 1) (with_stack st ([b] :: s)).
Proof.
  intros Hd Hs Hf Hsp. unfold OP_PUSH0, read, put, act. cbn [bind].
  rewrite (read1 orc cfg run fr st b rest) by exact Hd. cbn [bind].
  rewrite (put_step orc cfg run) with (s := s) by assumption.
  reflexivity.
Qed.

(* PUSH1 <len> v, the pointer standing at the length byte *)
Lemma push1_exec fr st (v rest : bytes) (s : list bytes) :
  data_at fr st = z2b (blen v) :: v ++ rest -> List.length v < 256 -> st_stack st = s ->
  fits v -> space s ->
  interp OP_PUSH1 fr st = Done tt (adv fr (1 + List.length v)) (with_stack st (v :: s)).
Proof.
  intros Hd Hl Hs Hf Hsp.
  unfold OP_PUSH1. rewrite (read_u8_exec _ _ fr st _ _ Hd), b2z_z2b_small by (unfold blen; lia).
  unfold read, act. cbn [bind].
  rewrite (read_exec _ _ _ st v rest (blen v) (data_at_adv1 _ _ _ _ Hd)).
  - rewrite (put_exec _ st v s Hs Hf Hsp), adv_adv. reflexivity.
  - apply Nat2Z.id.
  - unfold data_at in Hd. destruct (nth_of_skipn x00 _ _ _ _ Hd) as [_ H].
    unfold adv. cbn [fr_ptr]. change (cur _ st) with (cur fr st). lia.
Qed.

(* PUSH2 <len:2> v, the pointer standing at the length *)
Lemma push2_exec fr st (v rest : bytes) (s : list bytes) :
  data_at fr st = len2 v ++ v ++ rest -> (blen v < 65536)%Z -> st_stack st = s -> fits v -> space s ->
  interp OP_PUSH2 fr st = Done tt (adv fr (2 + List.length v)) (with_stack st (v :: s)).
Proof.
  intros Hd Hl Hs Hf Hsp. unfold OP_PUSH2.
  rewrite (read_block _ _ fr st v rest Hd Hl), (put_exec _ st v s Hs Hf Hsp), app_length, length_len2.
  reflexivity.
Qed.

Lemma put_boolb fr st rest v A (k : unit -> prog A) :
  st_stack st = rest -> room rest ->
  interp (Act (APut (boolb v)) k) fr st = interp (k tt) fr (with_stack st (boolb v :: rest)).
Proof. destruct v; apply put1. Qed.

Lemma true_exec fr st s :
  st_stack st = s -> room s -> interp OP_TRUE fr st = Done tt fr (with_stack st (boolb true :: s)).
Proof. exact (put_boolb fr st s true _ _). Qed.

Lemma false_exec fr st s :
  st_stack st = s -> room s -> interp OP_FALSE fr st = Done tt fr (with_stack st (boolb false :: s)).
Proof. exact (put_boolb fr st s false _ _). Qed.

Lemma dup_exec fr st (x : bytes) (s : list bytes) :
  st_stack st = x :: s -> fits x -> S (List.length s) < c_max_items cfg ->
  interp OP_DUP fr st = Done tt fr (with_stack st (x :: x :: s)).
Proof.
  intros Hs Fx Hsp. unfold OP_DUP, get, put, act. cbn [bind].
  erewrite get_step by exact Hs. cbn [bind].
  erewrite put_step; [|reflexivity|exact Fx|unfold StackLemmas.space; simpl; lia]. cbn [bind].
  erewrite put_step; [|reflexivity|exact Fx|unfold StackLemmas.space; simpl; lia].
  reflexivity.
Qed.

Lemma swap2_exec fr st (a b : bytes) (s : list bytes) :
  st_stack st = a :: b :: s -> fits a -> fits b -> S (List.length s) < c_max_items cfg ->
  interp OP_SWAP2 fr st = Done tt fr (with_stack st (b :: a :: s)).
Proof.
  intros Hs Fa Fb Hsp. unfold OP_SWAP2, get, put, act. cbn [bind].
  erewrite get_step by exact Hs. cbn [bind].
  erewrite get_step by reflexivity. cbn [bind].
  erewrite put_step; [|reflexivity|exact Fa|unfold StackLemmas.space; simpl; lia]. cbn [bind].
  erewrite put_step; [|reflexivity|exact Fb|unfold StackLemmas.space; simpl; lia].
  reflexivity.
Qed.

Lemma swap_core_exec fr st i j :
  (i =? j)%Z = false -> (0 <= i)%Z -> (0 <= j)%Z ->
  Z.to_nat i < List.length (st_stack st) -> Z.to_nat j < List.length (st_stack st) ->
  interp (swap_core i j) fr st = Done tt fr (with_stack st (swap_nth (st_stack st) (Z.to_nat i) (Z.to_nat j))).
Proof.
  intros Hne Hi Hj Li Lj. unfold swap_core. rewrite Hne. unfold act, sert. cbn [bind]. rewrite depth_step.
  replace (Z.max i j <? Z.of_nat (List.length (st_stack st)))%Z with true by (symmetry; apply Z.ltb_lt; lia).
  cbn [bind]. rewrite swap_step by assumption. reflexivity.
Qed.

(* SWAP 1 2 on a stack of at least three items (index 0 is the top) *)
Lemma swap12_exec fr st a b c s :
  st_stack st = a :: b :: c :: s -> interp (swap_core 1 2) fr st = Done tt fr (with_stack st (a :: c :: b :: s)).
Proof.
  intro Hs. rewrite swap_core_exec; [rewrite Hs; reflexivity|reflexivity|lia|lia|..]; rewrite Hs; simpl; lia.
Qed.

Lemma swap_exec fr st i j rest :
  data_at fr st = i :: j :: rest -> (b2z i =? b2z j)%Z = false ->
  Z.to_nat (b2z i) < List.length (st_stack st) -> Z.to_nat (b2z j) < List.length (st_stack st) ->
  interp OP_SWAP fr st =
    Done tt (adv fr 2) (with_stack st (swap_nth (st_stack st) (Z.to_nat (b2z i)) (Z.to_nat (b2z j)))).
Proof.
  intros Hd Hne Hi Hj. unfold OP_SWAP.
  rewrite (read_u8_exec _ _ fr st i (j :: rest) Hd), (read_u8_exec _ _ _ st j rest (data_at_adv1 _ _ _ _ Hd)), adv_adv.
  apply swap_core_exec; [exact Hne|apply b2z_range|apply b2z_range|exact Hi|exact Hj].
Qed.

Lemma size_exec fr st x s b :
  st_stack st = x :: s -> i2b (blen x) = Ret b -> fits b -> space s ->
  interp OP_SIZE fr st = Done tt fr (with_stack st (b :: s)).
Proof.
  intros Hs Hi Hf Hsp. unfold OP_SIZE, get, put, act. cbn [bind].
  rewrite (get_step orc cfg run _ _ fr st x s Hs). rewrite Hi. cbn [bind].
  rewrite (put_step orc cfg run _ _ _ _ b s); [reflexivity|reflexivity|exact Hf|exact Hsp].
Qed.

Lemma concat_exec fr st a b s :
  st_stack st = a :: b :: s -> fits (b ++ a) -> space s ->
  interp OP_CONCAT fr st = Done tt fr (with_stack st ((b ++ a) :: s)).
Proof.
  intros Hs Hf Hsp. unfold OP_CONCAT, get, put, act. cbn [bind].
  rewrite (get_step orc cfg run _ _ fr st a (b :: s) Hs).
  rewrite (get_step orc cfg run _ _ fr (with_stack st (b :: s)) b s eq_refl).
  rewrite (put_step orc cfg run _ _ _ _ (b ++ a) s); [reflexivity|reflexivity|exact Hf|exact Hsp].
Qed.

Lemma xor_exec fr st a b s :
  st_stack st = a :: b :: s -> fits (zip_pad byte_xor a b) -> space s ->
  interp OP_XOR fr st = Done tt fr (with_stack st (zip_pad byte_xor a b :: s)).
Proof.
  intros Hs Fx Hsp. unfold OP_XOR, get, act. cbn [bind].
  rewrite (get_step orc cfg run _ _ fr st a (b :: s) Hs), (get_step orc cfg run _ _ fr (with_stack st (b :: s)) b s eq_refl).
  exact (put_step orc cfg run _ _ fr (with_stack st s) _ s eq_refl Fx Hsp).
Qed.

(* OP_NOT on a canonical boolean: [xff] <-> [x00] *)
Lemma not_exec fr st v s :
  st_stack st = boolb v :: s -> room s ->
  interp OP_NOT fr st = Done tt fr (with_stack st (boolb (negb v) :: s)).
Proof.
  intros Hs Hr. unfold OP_NOT, get, put, act. cbn [bind].
  erewrite get_step by exact Hs. rewrite not_boolb.
  rewrite put_boolb with (rest := s); [reflexivity|reflexivity|exact Hr].
Qed.

Lemma verify_exec fr st x s :
  st_stack st = x :: s ->
  interp OP_VERIFY fr st =
    if bytes_to_bool x then Done tt fr (with_stack st s)
    else Raised ScriptExecutionError fr (with_stack st s).
Proof.
  intro Hs. unfold OP_VERIFY, get, sert, act. cbn [bind].
  erewrite get_step by exact Hs. destruct (bytes_to_bool x); reflexivity.
Qed.

Lemma equal_exec fr st a b s :
  st_stack st = a :: b :: s -> room s ->
  interp OP_EQUAL fr st = Done tt fr (with_stack st (boolb (bytes_eqb a b) :: s)).
Proof.
  intros Hs Hr. unfold OP_EQUAL, put_bool, get, put, act. cbn [bind].
  erewrite get_step by exact Hs. cbn [bind]. erewrite get_step by reflexivity.
  fold (boolb (bytes_eqb a b)). rewrite put_boolb with (rest := s); [reflexivity|reflexivity|exact Hr].
Qed.

Lemma equal_verify_exec fr st a b s :
  st_stack st = a :: b :: s -> room s ->
  interp OP_EQUAL_VERIFY fr st =
    if bytes_eqb a b then Done tt fr (with_stack st s)
    else Raised ScriptExecutionError fr (with_stack st s).
Proof.
  intros Hs Hr. unfold OP_EQUAL_VERIFY. rewrite interp_bind, (equal_exec fr st a b s Hs Hr).
  rewrite (verify_exec fr _ (boolb (bytes_eqb a b)) s) by reflexivity.
  rewrite bytes_to_bool_boolb. reflexivity.
Qed.

Lemma shake_exec fr st n tail x s :
  data_at fr st = n :: tail -> st_stack st = x :: s -> space s ->
  interp OP_SHAKE256 fr st =
    match orc PShake256 [x; [n]] with
    | OOk [d] =>
      if c_max_item_size cfg <? List.length d
      then Raised ScriptExecutionError (adv fr 1) (with_stack st s)
      else Done tt (adv fr 1) (with_stack st (d :: s))
    | OOk _ => Unmodelled "oracle arity"
    | OErr e => Raised e (adv fr 1) (with_stack st s)
    end.
Proof.
  intros Hd Hs Hsp. unfold OP_SHAKE256, read_u8, read, get, put, prim1, prim_list, act. cbn [bind].
  rewrite (read1 orc cfg run fr st n tail _ _ Hd). cbn [bind].
  rewrite (get_step orc cfg run _ _ _ st x s Hs). cbn [bind].
  rewrite prim_act_step. rewrite be1, z2b_b2z.
  destruct (orc PShake256 [x; [n]]) as [[|d [|d' l]]|e]; cbn [bind Interp.interp]; try reflexivity.
  cbn [Interp.interp step st_stack with_stack].
  destruct (c_max_item_size cfg <? List.length d); [reflexivity|].
  unfold StackLemmas.space in Hsp. replace (c_max_items cfg <=? List.length s) with false
    by (symmetry; apply Nat.leb_gt; lia).
  reflexivity.
Qed.

Lemma sha256_exec fr st x s h :
  st_stack st = x :: s -> orc PSha256 [x] = OOk [h] -> fits h -> space s ->
  interp OP_SHA256 fr st = Done tt fr (with_stack st (h :: s)).
Proof.
  intros Hs Ho Hf Hsp. unfold OP_SHA256, get, put, act. cbn [bind].
  rewrite (get_step orc cfg run _ _ fr st x s Hs).
  rewrite (prim1_step orc cfg run _ _ PSha256 [x] h _ _ Ho).
  rewrite (put_step orc cfg run _ _ _ _ h s); [reflexivity|reflexivity|exact Hf|exact Hsp].
Qed.

Lemma shake_exec_ok fr st n tail x s h :
  data_at fr st = n :: tail -> st_stack st = x :: s -> orc PShake256 [x; [n]] = OOk [h] -> fits h -> space s ->
  interp OP_SHAKE256 fr st = Done tt (adv fr 1) (with_stack st (h :: s)).
Proof.
  intros Hd Hs Ho Hf Hsp. rewrite (shake_exec fr st n tail x s Hd Hs Hsp), Ho.
  unfold StackLemmas.fits in Hf. apply Nat.ltb_ge in Hf. rewrite Hf. reflexivity.
Qed.

Lemma add_points2_exec fr st rest p q s agg :
  data_at fr st = x02 :: rest ->
  st_stack st = p :: q :: s ->
  orc PValidPoint [p] = OOk [[x01]] -> orc PValidPoint [q] = OOk [[x01]] ->
  orc PPointAdd [p; q] = OOk [agg] -> fits agg -> space s ->
  interp OP_ADD_POINTS fr st = Done tt (adv fr 1) (with_stack st (agg :: s)).
Proof.
  intros Hd Hs O1 O2 O3 Hf Hsp. unfold OP_ADD_POINTS, read_u8, read, get, put, act. cbn [bind].
  rewrite (read1 orc cfg run fr st x02 rest) by exact Hd.
  cbn [bind]. rewrite be1. change (nat_of (b2z x02)) with 2.
  cbn [repeat_get]. unfold get, act. cbn [bind].
  rewrite (get_step orc cfg run _ _ _ st p (q :: s) Hs).
  rewrite (get_step orc cfg run _ _ _ (with_stack st (q :: s)) q s eq_refl).
  unfold aggregate_points. cbn [check_points sum_with]. unfold prim_bool, prim1, prim_list, vert, act. cbn [bind].
  assert (Hb : bytes_to_bool [x01] = true) by reflexivity.
  rewrite prim_act_step, O1. cbn [bind]. rewrite Hb. cbn [bind].
  rewrite prim_act_step, O2. cbn [bind]. rewrite Hb. cbn [bind].
  rewrite prim_act_step, O1. cbn [bind]. rewrite Hb. cbn [bind].
  rewrite prim_act_step, O2. cbn [bind]. rewrite Hb. cbn [bind].
  rewrite prim_act_step, O3. cbn [bind].
  rewrite with_stack_twice.
  rewrite (put_step orc cfg run _ _ _ _ agg s); [|reflexivity|exact Hf|exact Hsp].
  rewrite with_stack_twice. reflexivity.
Qed.

End Exec.

Section TL.
Variable orc : oracle.
Variable cfg : config.

Definition tdata (st : state) (tid : nat) : bytes := to_data (nth_tape st tid).

Lemma tdata_old st st' l t :
  st_tapes st' = st_tapes st ++ l -> t < List.length (st_tapes st) -> tdata st' t = tdata st t.
Proof. intros E H. unfold tdata. rewrite (nth_tape_old st st' l t E H). reflexivity. Qed.

Lemma tdata_new st st' o :
  st_tapes st' = st_tapes st ++ [o] -> tdata st' (List.length (st_tapes st)) = to_data o.
Proof. intro E. unfold tdata. rewrite (nth_tape_new st st' o E). reflexivity. Qed.

Lemma tdata_set_count st t c t' : tdata (set_count st t c) t' = tdata st t'.
Proof. exact (data_set_count st t c t'). Qed.

Notation sub f := (fun t s => run_tape orc cfg f t 0 s).
Notation op c := (dispatch (N.to_nat (Byte.to_N c))).
Notation at_ tid p := {| fr_tid := tid; fr_ptr := p |}.

(* fetch: the byte at the pointer selects the instruction, which runs with the pointer behind the opcode *)
Lemma run_tape_fetch_at f tid p st data c tail :
  tdata st tid = data -> skipn p data = c :: tail ->
  run_tape orc cfg (S f) tid p st =
    match interp orc cfg (sub f) (op c) (at_ tid (S p)) st with
    | Done _ fr' st' => run_tape orc cfg f tid (fr_ptr fr') st'
    | Raised e fr' st' => Raised e fr' st'
    | OutOfFuel => OutOfFuel
    | Unmodelled w => Unmodelled w
    end.
Proof.
  intros Hd Hs. cbn [run_tape]. unfold tdata in Hd. rewrite Hd.
  destruct (nth_of_skipn x00 p data c tail Hs) as [Hn Hl].
  destruct (List.length data <=? p) eqn:E; [apply Nat.leb_le in E; lia|].
  rewrite Hn. reflexivity.
Qed.

Lemma data_at_next tid p st data c tail :
  tdata st tid = data -> skipn p data = c :: tail -> data_at (at_ tid (S p)) st = tail.
Proof.
  intros Hd Hs. unfold data_at, cur. cbn [fr_tid fr_ptr]. unfold tdata in Hd. rewrite Hd.
  exact (skipn_S_of data p c tail Hs).
Qed.

Lemma data_at_pfx tid ptr st (pfx rest : bytes) :
  tdata st tid = pfx ++ rest -> ptr = List.length pfx -> data_at (at_ tid ptr) st = rest.
Proof.
  intros Hd ->. unfold data_at, cur. cbn [fr_tid fr_ptr]. unfold tdata in Hd. rewrite Hd. apply skipn_after.
Qed.

Lemma run_tape_step f tid p st data c tail fr' st' :
  tdata st tid = data -> skipn p data = c :: tail ->
  (data_at (at_ tid (S p)) st = tail -> interp orc cfg (sub f) (op c) (at_ tid (S p)) st = Done tt fr' st') ->
  run_tape orc cfg (S f) tid p st = run_tape orc cfg f tid (fr_ptr fr') st'.
Proof.
  intros Hd Hs Hi. rewrite (run_tape_fetch_at f tid p st data c tail Hd Hs).
  rewrite (Hi (data_at_next tid p st data c tail Hd Hs)). reflexivity.
Qed.

Lemma run_tape_end f tid st ptr :
  List.length (tdata st tid) <= ptr ->
  run_tape orc cfg (S f) tid ptr st = Done tt (at_ tid ptr) st.
Proof. intro H. cbn [run_tape]. unfold tdata in H. apply Nat.leb_le in H. rewrite H. reflexivity. Qed.

Lemma run_tape_end_at f tid st p data :
  tdata st tid = data -> skipn p data = [] -> run_tape orc cfg (S f) tid p st = Done tt (at_ tid p) st.
Proof.
  intros Hd Hs. apply run_tape_end. rewrite Hd.
  apply (f_equal (@List.length byte)) in Hs. rewrite skipn_length in Hs. simpl in Hs. lia.
Qed.

Definition runs (n tid : nat) (code : bytes) (st st' : state) : Prop :=
  tdata st' tid = tdata st tid /\
  forall f p rest, skipn p (tdata st tid) = code ++ rest ->
    run_tape orc cfg (n + f) tid p st = run_tape orc cfg f tid (p + List.length code) st'.

(* [rewrite (runs_at (f := fuel left) H Hd Hp) by reflexivity]: the fuel F is the one that stands in the goal *)
Lemma runs_at n tid code st st' f p data rest :
  runs n tid code st st' -> tdata st tid = data -> skipn p data = code ++ rest ->
  forall F, F = n + f ->
  run_tape orc cfg F tid p st = run_tape orc cfg f tid (p + List.length code) st'.
Proof. intros [_ H] <- Hs F ->. exact (H f p rest Hs). Qed.

Lemma runs1_at tid code st st' f p data rest :
  runs 1 tid code st st' -> tdata st tid = data -> skipn p data = code ++ rest ->
  run_tape orc cfg (S f) tid p st = run_tape orc cfg f tid (p + List.length code) st'.
Proof. intros H Hd Hs. exact (runs_at 1 tid code st st' f p data rest H Hd Hs (S f) eq_refl). Qed.

Lemma runs_data n tid code st st' : runs n tid code st st' -> tdata st' tid = tdata st tid.
Proof. intros [H _]. exact H. Qed.

Lemma runs_nil tid st : runs 0 tid [] st st.
Proof. split; [reflexivity|]. intros f p rest _. rewrite Nat.add_0_r. reflexivity. Qed.

Lemma runs_app n m tid a b st st1 st2 :
  runs n tid a st st1 -> runs m tid b st1 st2 -> runs (n + m) tid (a ++ b) st st2.
Proof.
  intros [D1 H1] [D2 H2]. split; [rewrite D2; exact D1|].
  intros f p rest Hs. rewrite <- app_assoc in Hs.
  rewrite <- Nat.add_assoc, (H1 _ p _ Hs), (H2 f (p + List.length a) rest).
  - rewrite app_length, Nat.add_assoc. reflexivity.
  - rewrite D1. exact (skipn_app_r p _ a _ Hs).
Qed.

(* instruction by instruction: [eapply (runs_step (a := bytes of the instruction)); [its X_runs|]] *)
Lemma runs_step m tid a b st st1 st2 :
  runs 1 tid a st st1 -> runs m tid b st1 st2 -> runs (S m) tid (a ++ b) st st2.
Proof. exact (runs_app 1 m tid a b st st1 st2). Qed.

(* the last step of a segment whose end state is given in another (convertible) form: unification of nested
   [with_stack] / [with_cache] terms fails where conversion succeeds *)
Lemma runs_eq n tid code st st1 st2 : runs n tid code st st1 -> st1 = st2 -> runs n tid code st st2.
Proof. intros H <-. exact H. Qed.

Lemma runs_end n tid code st st' F p data :
  runs n tid code st st' -> tdata st tid = data -> skipn p data = code -> n < F ->
  run_tape orc cfg F tid p st = Done tt (at_ tid (p + List.length code)) st'.
Proof.
  intros H Hd Hs HF. rewrite <- (app_nil_r code) in Hs.
  rewrite (runs_at n tid code st st' (S (F - n - 1)) p data [] H Hd Hs F) by lia.
  apply run_tape_end_at with data; [rewrite (runs_data _ _ _ _ _ H); exact Hd|].
  exact (skipn_app_r p data code [] Hs).
Qed.

(* an instruction whose effect does not depend on where it stands *)
Lemma runs_op tid c (operands : bytes) st st' :
  tdata st' tid = tdata st tid ->
  (forall f p rest, data_at (at_ tid p) st = operands ++ rest ->
     interp orc cfg (sub f) (op c) (at_ tid p) st = Done tt (at_ tid (p + List.length operands)) st') ->
  runs 1 tid (c :: operands) st st'.
Proof.
  intros D H. split; [exact D|]. intros f p rest Hs. change (1 + f) with (S f).
  rewrite (run_tape_step f tid p st _ c (operands ++ rest) _ st' eq_refl Hs (H f (S p) rest)).
  cbn [fr_ptr List.length]. rewrite Nat.add_succ_r. reflexivity.
Qed.

(* an instruction without operand whose effect depends neither on the pointer nor on the sub-tape runner *)
Lemma runs_op0 tid c st st' :
  tdata st' tid = tdata st tid ->
  (forall run fr, interp orc cfg run (op c) fr st = Done tt fr st') ->
  runs 1 tid [c] st st'.
Proof.
  intros D H. apply (runs_op tid c []); [exact D|]. intros f p rest _. rewrite Nat.add_0_r. apply H.
Qed.

Lemma push0_runs tid st b (s : list bytes) :
  st_stack st = s -> fits cfg [b] -> space cfg s -> runs 1 tid [x02; b] st (with_stack st ([b] :: s)).
Proof.
  intros Hs Hf Hsp. apply (runs_op tid x02 [b]); [reflexivity|]. intros f p rest Hd.
  change (op x02) with OP_PUSH0. exact (push0_exec orc cfg _ _ st b rest s Hd Hs Hf Hsp).
Qed.

Lemma push1_runs tid st (v : bytes) (s : list bytes) :
  List.length v < 256 -> st_stack st = s -> fits cfg v -> space cfg s ->
  runs 1 tid (x03 :: z2b (blen v) :: v) st (with_stack st (v :: s)).
Proof.
  intros Hl Hs Hf Hsp. apply (runs_op tid x03 (z2b (blen v) :: v)); [reflexivity|]. intros f p rest Hd.
  change (op x03) with OP_PUSH1. exact (push1_exec orc cfg _ _ st v rest s Hd Hl Hs Hf Hsp).
Qed.

Lemma push2_runs tid st (v : bytes) (s : list bytes) :
  (blen v < 65536)%Z -> st_stack st = s -> fits cfg v -> space cfg s ->
  runs 1 tid (x04 :: len2 v ++ v) st (with_stack st (v :: s)).
Proof.
  intros Hl Hs Hf Hsp. apply (runs_op tid x04 (len2 v ++ v)); [reflexivity|]. intros f p rest Hd.
  change (op x04) with OP_PUSH2. rewrite <- app_assoc in Hd.
  rewrite (push2_exec orc cfg _ _ st v rest s Hd Hl Hs Hf Hsp), app_length, length_len2. reflexivity.
Qed.

Lemma true_runs tid st s : st_stack st = s -> room cfg s -> runs 1 tid [x01] st (with_stack st (boolb true :: s)).
Proof.
  intros Hs Hr. apply runs_op0; [reflexivity|]. intros run fr.
  change (op x01) with OP_TRUE. exact (true_exec orc cfg run fr st s Hs Hr).
Qed.

Lemma false_runs tid st s : st_stack st = s -> room cfg s -> runs 1 tid [x00] st (with_stack st (boolb false :: s)).
Proof.
  intros Hs Hr. apply runs_op0; [reflexivity|]. intros run fr.
  change (op x00) with OP_FALSE. exact (false_exec orc cfg run fr st s Hs Hr).
Qed.

Lemma dup_runs tid st (x : bytes) (s : list bytes) :
  st_stack st = x :: s -> fits cfg x -> S (List.length s) < c_max_items cfg ->
  runs 1 tid [x1d] st (with_stack st (x :: x :: s)).
Proof.
  intros Hs Hf Hsp. apply runs_op0; [reflexivity|]. intros run fr.
  change (op x1d) with OP_DUP. exact (dup_exec orc cfg run fr st x s Hs Hf Hsp).
Qed.

Lemma not_runs tid st v s :
  st_stack st = boolb v :: s -> room cfg s -> runs 1 tid [x2e] st (with_stack st (boolb (negb v) :: s)).
Proof.
  intros Hs Hr. apply runs_op0; [reflexivity|]. intros run fr.
  change (op x2e) with OP_NOT. exact (not_exec orc cfg run fr st v s Hs Hr).
Qed.

Lemma check_timestamp_runs tid st c s ts thr :
  st_stack st = c :: s -> c <> [] ->
  cache_get (st_cache st) ts_key = Some (VOne (AInt ts)) ->
  flag_get (c_flags cfg) thr_key = Some (FVInt thr) -> room cfg s ->
  runs 1 tid [x25] st (with_stack st (boolb (ts_verdict cfg (be_to_Z c) ts thr) :: s)).
Proof.
  intros Hs Hc Ht Hf Hr. apply runs_op0; [reflexivity|]. intros run fr.
  change (op x25) with OP_CHECK_TIMESTAMP.
  exact (check_timestamp_spec orc cfg run fr st c s ts thr Hs Hc Ht Hf Hr).
Qed.

Lemma swap2_runs tid st (a b : bytes) (s : list bytes) :
  st_stack st = a :: b :: s -> fits cfg a -> fits cfg b -> S (List.length s) < c_max_items cfg ->
  runs 1 tid [x35] st (with_stack st (b :: a :: s)).
Proof.
  intros Hs Fa Fb Hsp. apply runs_op0; [reflexivity|]. intros run fr.
  change (op x35) with OP_SWAP2. exact (swap2_exec orc cfg run fr st a b s Hs Fa Fb Hsp).
Qed.

Lemma swap_runs tid st i j :
  (b2z i =? b2z j)%Z = false ->
  Z.to_nat (b2z i) < List.length (st_stack st) -> Z.to_nat (b2z j) < List.length (st_stack st) ->
  runs 1 tid [x34; i; j] st (with_stack st (swap_nth (st_stack st) (Z.to_nat (b2z i)) (Z.to_nat (b2z j)))).
Proof.
  intros Hne Hi Hj. apply (runs_op tid x34 [i; j]); [reflexivity|]. intros f p rest Hd.
  change (op x34) with OP_SWAP. exact (swap_exec orc cfg _ _ st i j rest Hd Hne Hi Hj).
Qed.

Lemma swap12_runs tid st (a b c : bytes) (s : list bytes) :
  st_stack st = a :: b :: c :: s -> runs 1 tid [x34; x01; x02] st (with_stack st (a :: c :: b :: s)).
Proof.
  intro Hs. eapply runs_eq; [apply swap_runs; [reflexivity|rewrite Hs; simpl; lia..]|rewrite Hs; reflexivity].
Qed.

Lemma size_runs tid st x s b :
  st_stack st = x :: s -> i2b (blen x) = Ret b -> fits cfg b -> space cfg s ->
  runs 1 tid [x08] st (with_stack st (b :: s)).
Proof.
  intros Hs Hi Hf Hsp. apply runs_op0; [reflexivity|]. intros run fr.
  change (op x08) with OP_SIZE. exact (size_exec orc cfg run fr st x s b Hs Hi Hf Hsp).
Qed.

Lemma concat_runs tid st a b s :
  st_stack st = a :: b :: s -> fits cfg (b ++ a) -> space cfg s ->
  runs 1 tid [x37] st (with_stack st ((b ++ a) :: s)).
Proof.
  intros Hs Hf Hsp. apply runs_op0; [reflexivity|]. intros run fr.
  change (op x37) with OP_CONCAT. exact (concat_exec orc cfg run fr st a b s Hs Hf Hsp).
Qed.

Lemma equal_runs tid st (a b : bytes) (s : list bytes) :
  st_stack st = a :: b :: s -> room cfg s -> runs 1 tid [x21] st (with_stack st (boolb (bytes_eqb a b) :: s)).
Proof.
  intros Hs Hr. apply runs_op0; [reflexivity|]. intros run fr.
  change (op x21) with OP_EQUAL. exact (equal_exec orc cfg run fr st a b s Hs Hr).
Qed.

Lemma sha256_runs tid st (x h : bytes) (s : list bytes) :
  st_stack st = x :: s -> orc PSha256 [x] = OOk [h] -> fits cfg h -> space cfg s ->
  runs 1 tid [x1e] st (with_stack st (h :: s)).
Proof.
  intros Hs Ho Hf Hsp. apply runs_op0; [reflexivity|]. intros run fr.
  change (op x1e) with OP_SHA256. exact (sha256_exec orc cfg run fr st x s h Hs Ho Hf Hsp).
Qed.

Lemma shake_runs tid st n (x h : bytes) (s : list bytes) :
  st_stack st = x :: s -> orc PShake256 [x; [n]] = OOk [h] -> fits cfg h -> space cfg s ->
  runs 1 tid [x1f; n] st (with_stack st (h :: s)).
Proof.
  intros Hs Ho Hf Hsp. apply (runs_op tid x1f [n]); [reflexivity|]. intros f p rest Hd.
  change (op x1f) with OP_SHAKE256. exact (shake_exec_ok orc cfg _ _ st n rest x s h Hd Hs Ho Hf Hsp).
Qed.

Lemma verify_step f tid p st data rest x s :
  tdata st tid = data -> skipn p data = x20 :: rest -> st_stack st = x :: s ->
  run_tape orc cfg (S f) tid p st =
    if bytes_to_bool x then run_tape orc cfg f tid (p + 1) (with_stack st s)
    else Raised ScriptExecutionError (at_ tid (S p)) (with_stack st s).
Proof.
  intros Hd Hp Hs. rewrite (run_tape_fetch_at f tid p st data x20 rest Hd Hp).
  change (op x20) with OP_VERIFY. rewrite (verify_exec orc cfg _ _ st x s Hs).
  destruct (bytes_to_bool x); [|reflexivity]. cbn [fr_ptr]. rewrite Nat.add_1_r. reflexivity.
Qed.

Lemma equal_verify_step f tid p st data rest a b s :
  tdata st tid = data -> skipn p data = x22 :: rest -> st_stack st = a :: b :: s -> room cfg s ->
  run_tape orc cfg (S f) tid p st =
    if bytes_eqb a b then run_tape orc cfg f tid (p + 1) (with_stack st s)
    else Raised ScriptExecutionError (at_ tid (S p)) (with_stack st s).
Proof.
  intros Hd Hp Hs Hr. rewrite (run_tape_fetch_at f tid p st data x22 rest Hd Hp).
  change (op x22) with OP_EQUAL_VERIFY. rewrite (equal_verify_exec orc cfg _ _ st a b s Hs Hr).
  destruct (bytes_eqb a b); [|reflexivity]. cbn [fr_ptr]. rewrite Nat.add_1_r. reflexivity.
Qed.

Lemma check_timestamp_verify_step f tid p st data rest c s ts thr :
  tdata st tid = data -> skipn p data = x26 :: rest ->
  st_stack st = c :: s -> c <> [] ->
  cache_get (st_cache st) ts_key = Some (VOne (AInt ts)) ->
  flag_get (c_flags cfg) thr_key = Some (FVInt thr) -> room cfg s ->
  run_tape orc cfg (S f) tid p st =
    if ts_verdict cfg (be_to_Z c) ts thr then run_tape orc cfg f tid (p + 1) (with_stack st s)
    else Raised ScriptExecutionError (at_ tid (S p)) (with_stack st s).
Proof.
  intros Hd Hp Hs Hc Ht Hf Hr. rewrite (run_tape_fetch_at f tid p st data x26 rest Hd Hp).
  change (op x26) with OP_CHECK_TIMESTAMP_VERIFY.
  rewrite (check_timestamp_verify_spec orc cfg _ _ st c s ts thr Hs Hc Ht Hf Hr).
  destruct (ts_verdict cfg (be_to_Z c) ts thr); [|reflexivity]. cbn [fr_ptr]. rewrite Nat.add_1_r. reflexivity.
Qed.

Lemma shake_step f tid p st data rest n x s :
  tdata st tid = data -> skipn p data = x1f :: n :: rest -> st_stack st = x :: s -> space cfg s ->
  run_tape orc cfg (S f) tid p st =
    match orc PShake256 [x; [n]] with
    | OOk [d] =>
      if c_max_item_size cfg <? List.length d
      then Raised ScriptExecutionError (at_ tid (S p + 1)) (with_stack st s)
      else run_tape orc cfg f tid (p + 2) (with_stack st (d :: s))
    | OOk _ => Unmodelled "oracle arity"
    | OErr e => Raised e (at_ tid (S p + 1)) (with_stack st s)
    end.
Proof.
  intros Hd Hp Hs Hsp. rewrite (run_tape_fetch_at f tid p st data x1f (n :: rest) Hd Hp).
  change (op x1f) with OP_SHAKE256.
  rewrite (shake_exec orc cfg _ _ st n rest x s (data_at_next tid p st data x1f _ Hd Hp) Hs Hsp).
  destruct (orc PShake256 [x; [n]]) as [[|d [|d' l]]|e]; try reflexivity.
  destruct (c_max_item_size cfg <? List.length d); [reflexivity|].
  unfold adv. cbn [fr_tid fr_ptr]. f_equal. lia.
Qed.

(* wherever [code] stands on tape [tid], the machine started at its first byte with at least [n] units of fuel
   raises: a stretch with VERIFY instructions inside is stated once, [if ok then runs .. else raises ..] *)
Definition raises (n tid : nat) (code : bytes) (st : state) : Prop :=
  forall F p rest, n <= F -> skipn p (tdata st tid) = code ++ rest ->
    exists e fr st', run_tape orc cfg F tid p st = Raised e fr st'.

Lemma raises_at n tid code st F p data rest :
  raises n tid code st -> tdata st tid = data -> skipn p data = code ++ rest -> n <= F ->
  exists e fr st', run_tape orc cfg F tid p st = Raised e fr st'.
Proof. intros H <- Hs HF. exact (H F p rest HF Hs). Qed.

Lemma raises_app n tid a b st : raises n tid a st -> raises n tid (a ++ b) st.
Proof. intros H F p rest HF Hs. rewrite <- app_assoc in Hs. exact (H F p _ HF Hs). Qed.

Lemma raises_le n m tid code st : n <= m -> raises n tid code st -> raises m tid code st.
Proof. intros Hnm H F p rest HF Hs. apply (H F p rest); [lia|exact Hs]. Qed.

Lemma runs_raises n m tid a b st st1 :
  runs n tid a st st1 -> raises m tid b st1 -> raises (n + m) tid (a ++ b) st.
Proof.
  intros [D1 H1] H2 F p rest HF Hs. rewrite <- app_assoc in Hs.
  replace F with (n + (F - n)) by lia. rewrite (H1 _ p _ Hs).
  apply (H2 _ _ rest); [lia|]. rewrite D1. exact (skipn_app_r p _ a _ Hs).
Qed.

Lemma verify_runs tid st x s :
  st_stack st = x :: s -> bytes_to_bool x = true -> runs 1 tid [x20] st (with_stack st s).
Proof.
  intros Hs Hx. split; [reflexivity|]. intros f p rest Hp. change (1 + f) with (S f).
  rewrite (verify_step f tid p st _ rest x s eq_refl Hp Hs), Hx. reflexivity.
Qed.

Lemma verify_raises tid st x s :
  st_stack st = x :: s -> bytes_to_bool x = false -> raises 1 tid [x20] st.
Proof.
  intros Hs Hx F p rest HF Hp. destruct F as [|f]; [lia|].
  rewrite (verify_step f tid p st _ rest x s eq_refl Hp Hs), Hx. eexists _, _, _. reflexivity.
Qed.

Lemma check_timestamp_verify_runs tid st c s ts thr :
  st_stack st = c :: s -> c <> [] ->
  cache_get (st_cache st) ts_key = Some (VOne (AInt ts)) ->
  flag_get (c_flags cfg) thr_key = Some (FVInt thr) -> room cfg s ->
  ts_verdict cfg (be_to_Z c) ts thr = true -> runs 1 tid [x26] st (with_stack st s).
Proof.
  intros Hs Hc Ht Hthr Hr Hv. split; [reflexivity|]. intros f p rest Hp. change (1 + f) with (S f).
  rewrite (check_timestamp_verify_step f tid p st _ rest c s ts thr eq_refl Hp Hs Hc Ht Hthr Hr), Hv.
  reflexivity.
Qed.

Lemma check_timestamp_verify_raises tid st c s ts thr :
  st_stack st = c :: s -> c <> [] ->
  cache_get (st_cache st) ts_key = Some (VOne (AInt ts)) ->
  flag_get (c_flags cfg) thr_key = Some (FVInt thr) -> room cfg s ->
  ts_verdict cfg (be_to_Z c) ts thr = false -> raises 1 tid [x26] st.
Proof.
  intros Hs Hc Ht Hthr Hr Hv F p rest HF Hp. destruct F as [|f]; [lia|].
  rewrite (check_timestamp_verify_step f tid p st _ rest c s ts thr eq_refl Hp Hs Hc Ht Hthr Hr), Hv.
  eexists _, _, _. reflexivity.
Qed.

Lemma add_points2_runs tid st p q s agg :
  st_stack st = p :: q :: s ->
  orc PValidPoint [p] = OOk [[x01]] -> orc PValidPoint [q] = OOk [[x01]] ->
  orc PPointAdd [p; q] = OOk [agg] -> fits cfg agg -> space cfg s ->
  runs 1 tid [x1b; x02] st (with_stack st (agg :: s)).
Proof.
  intros Hs O1 O2 O3 Hf Hsp. apply (runs_op tid x1b [x02]); [reflexivity|]. intros f p' rest Hd.
  change (op x1b) with OP_ADD_POINTS.
  exact (add_points2_exec orc cfg _ _ st rest p q s agg Hd Hs O1 O2 O3 Hf Hsp).
Qed.

End TL.

Arguments runs_at {orc cfg n tid code st st' f p data rest}.
Arguments runs1_at {orc cfg tid code st st' f p data rest}.
Arguments runs_data {orc cfg n tid code st st'}.
Arguments runs_app {orc cfg n m tid a b st st1 st2}.
Arguments runs_step {orc cfg m tid a b st st1 st2}.
Arguments runs_end {orc cfg n tid code st st' F p data}.
Arguments runs_eq {orc cfg n tid code st st1 st2}.
Arguments raises_le {orc cfg} n {m tid code st}.
Arguments raises_app {orc cfg n tid a b st}.
Arguments runs_raises {orc cfg n m tid a b st st1}.
