(* Single-step lemmas for symbolic execution: get / put / read with known stack and tape contents. *)
From Coq Require Import ZArith List Bool Lia.
From Coq.Strings Require Import Byte String.
From TS Require Import Bytes State Prog Interp.
Import ListNotations.
Local Open Scope nat_scope.

Section SL.
Variable orc : oracle.
Variable cfg : config.
Variable run : nat -> state -> outcome unit.

Definition fits (b : bytes) : Prop := List.length b <= c_max_item_size cfg.
Definition space (s : list bytes) : Prop := List.length s < c_max_items cfg.

Lemma get_step A (k : bytes -> prog A) fr st x s :
  st_stack st = x :: s ->
  interp orc cfg run (Act AGet k) fr st = interp orc cfg run (k x) fr (with_stack st s).
Proof. intro H. cbn [interp step]. rewrite H. reflexivity. Qed.

Lemma put_step A (k : unit -> prog A) fr st b s :
  st_stack st = s -> fits b -> space s ->
  interp orc cfg run (Act (APut b) k) fr st = interp orc cfg run (k tt) fr (with_stack st (b :: s)).
Proof.
  intros H H1 H2. cbn [interp step]. rewrite H. unfold fits, space in *.
  destruct (c_max_item_size cfg <? List.length b) eqn:E1; [apply Nat.ltb_lt in E1; lia|].
  destruct (c_max_items cfg <=? List.length s) eqn:E2; [apply Nat.leb_le in E2; lia|].
  reflexivity.
Qed.

Lemma prim1_step A (k : bytes -> prog A) p args r fr st :
  orc p args = OOk [r] ->
  interp orc cfg run (bind (prim1 p args) k) fr st = interp orc cfg run (k r) fr st.
Proof. intro H. unfold prim1, prim_list, act. cbn [bind interp step]. rewrite H. reflexivity. Qed.

Lemma prim_act_step A (k : ores -> prog A) p args fr st :
  interp orc cfg run (Act (APrim p args) k) fr st = interp orc cfg run (k (orc p args)) fr st.
Proof. reflexivity. Qed.

Lemma config_step A (k : config -> prog A) fr st :
  interp orc cfg run (Act AConfig k) fr st = interp orc cfg run (k cfg) fr st.
Proof. reflexivity. Qed.

Lemma peek_step A (k : bytes -> prog A) fr st x s :
  st_stack st = x :: s ->
  interp orc cfg run (Act APeek k) fr st = interp orc cfg run (k x) fr st.
Proof. intro H. cbn [interp step]. rewrite H. reflexivity. Qed.

Lemma depth_step A (k : Z -> prog A) fr st :
  interp orc cfg run (Act ADepth k) fr st = interp orc cfg run (k (Z.of_nat (List.length (st_stack st)))) fr st.
Proof. reflexivity. Qed.

Lemma swap_step A (k : unit -> prog A) fr st i j :
  (Z.to_nat i < List.length (st_stack st)) -> (Z.to_nat j < List.length (st_stack st)) ->
  interp orc cfg run (Act (ASwapIdx i j) k) fr st =
    interp orc cfg run (k tt) fr (with_stack st (swap_nth (st_stack st) (Z.to_nat i) (Z.to_nat j))).
Proof.
  intros H1 H2. cbn [interp step].
  apply Nat.ltb_lt in H1. apply Nat.ltb_lt in H2. rewrite H1, H2. reflexivity.
Qed.

End SL.
