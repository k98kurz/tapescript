(* The lock / witness builders of tapescript/tools.py produce source text and compile it:
   model/BuilderSources.v gives the texts, model/Builders.v the bytes.  For all arguments, compile_text of
   the text is the byte string of model/Builders.v.  A template is cut into pieces (statements, comments,
   run-time blocks); a list of pieces compiles to the concatenation of their codes, because every
   statement piece is a [stmt] of the spelling relation and the symbols of a piece are what the loop of
   get_symbols makes of its tokens whatever follows ([gs_app]).  The model texts are those of the real
   builders on sample arguments (the Examples ex_..., generated by running the real builders). *)
From Coq Require Import ZArith List Bool Lia NArith String Ascii.
From Coq.Strings Require Import Byte.
From TS Require Import Bytes Codec Ops Names Asm BytesLemmas AsmProofs Tokenizer Assembler AssemblerProofs
  TokenizerProofs Builders BuilderSources.
From TS Require MerkleTree.
Import ListNotations.
Open Scope string_scope.
Open Scope list_scope.

(* a token: no whitespace, ASCII *)
Definition goodtok (t : string) : Prop := tokenb t = true /\ all_ascii t = true.

Definition good_c (c : ascii) : bool := negb (is_ws c) && (N_of_ascii c <? 128)%N.
Definition goodb (t : string) : bool := nonempty t && sall good_c t.

Lemma goodb_goodtok : forall t, goodb t = true -> goodtok t.
Proof.
  intros t H. apply andb_prop in H as [N H]. unfold goodtok, tokenb, all_ascii. rewrite N.
  split; apply (sall_imp good_c); try exact H; intros c Hc; apply andb_prop in Hc; apply Hc.
Qed.
Lemma goodb_all : forall l, forallb goodb l = true -> Forall goodtok l.
Proof. intros l H. apply Forall_forall. intros t I. apply goodb_goodtok. apply (proj1 (forallb_forall _ _) H t I). Qed.

Lemma good_hexlow : forall c, is_hexlow c = true -> good_c c = true.
Proof. intros c. destruct c as [[] [] [] [] [] [] [] []]; intros H; try discriminate H; reflexivity. Qed.
(* the characters above the blank and the control characters *)
Lemma good_between : forall lo hi c, asc_between lo hi c = true -> (33 <= lo)%N -> (hi < 128)%N -> good_c c = true.
Proof.
  intros lo hi c H L U. unfold asc_between in H. unfold good_c, is_ws. cbv zeta in *.
  apply andb_prop in H as [A B]. apply N.leb_le in A, B.
  rewrite (proj2 (N.eqb_neq _ 32)), (proj2 (N.leb_gt _ 13)), (proj2 (N.leb_gt _ 31)), !andb_false_r,
    (proj2 (N.ltb_lt _ 128)) by lia.
  reflexivity.
Qed.
Lemma good_digit : forall c, is_digit c = true -> good_c c = true.
Proof. intros c H. apply (good_between _ _ c H); lia. Qed.
Lemma good_alnum : forall c, is_alnum_c c = true -> good_c c = true.
Proof.
  intros c H. unfold is_alnum_c in H. apply orb_prop in H as [H|H]; [apply orb_prop in H as [H|H]|];
    apply (good_between _ _ c H); lia.
Qed.

(* unhex (hexs b) = b, also through the case-insensitive reader of the assembler *)
Lemma unhex_hexs : forall v, unhex (hexs v) = Some v.
Proof. apply unhex_hex. Qed.
Lemma unhex_ci_hexs : forall v, unhex_ci (hexs v) = Some v.
Proof. intros v. apply sp_hex_unhex. apply sp_hex_hex. Qed.
Lemma hexs_app : forall a b, hexs (a ++ b) = (hexs a ++ hexs b)%string.
Proof.
  induction a as [|x a IH]; intros b; [reflexivity|]. cbn [app hex].
  destruct (Byte.to_bits x) as (b0 & b1 & b2 & b3 & b4 & b5 & b6 & b7). cbn [append]. rewrite IH. reflexivity.
Qed.
Lemma hexs_length : forall v, String.length (hexs v) = (2 * List.length v)%nat.
Proof. apply length_hex. Qed.

Lemma undec_dec : forall z, undec (dec z) = Some z.
Proof. exact AsmProofs.undec_dec. Qed.

Lemma goodtok_X : forall v, goodtok (X v).
Proof.
  intros v. apply goodb_goodtok. unfold X, goodb. cbn [nonempty sall]. apply (sall_imp is_hexlow _ good_hexlow), hex_hexlow.
Qed.
Lemma goodtok_D : forall z, goodtok (D z).
Proof.
  intros z. apply goodb_goodtok. unfold D, goodb. cbn [nonempty sall].
  assert (K : forall n, (0 <= n)%Z -> sall good_c (dec n) = true).
  { intros n H. apply (sall_imp is_digit); [|apply dec_digits; exact H]. intros c Hc. apply good_digit, Hc. }
  destruct (Z.ltb_spec z 0) as [H|H]; [rewrite (dec_neg z H); cbn [sall]|]; apply K; lia.
Qed.

(* what get_symbols makes of them: x<hex> is kept; d<decimal> is kept when the integer is not negative,
   and upper-cased when it is (d-5 becomes D-5: "-5" is not numeric) *)
Definition Dsym (z : Z) : string := if (z <? 0)%Z then String "D" (dec z) else D z.

Lemma plain_D : forall z, plain_tok (D z).
Proof.
  intros z. unfold D. pose proof (nonempty_dec z) as N. split; [|split].
  - destruct (dec z); reflexivity.
  - destruct (dec z) as [|c r]; [discriminate N|]. unfold takes_next. rewrite !prefix2. reflexivity.
  - destruct (dec z); [discriminate N|reflexivity].
Qed.
Lemma norm_D : forall z, norm_token (D z) = Dsym z.
Proof.
  intros z. unfold D, Dsym, norm_token. change (Ascii.eqb "d" "d") with true. cbv iota.
  destruct (Z.ltb_spec z 0) as [H|H].
  - rewrite (dec_neg z H). unfold isnumeric. cbn [nonempty sall andb].
    change (is_digit "-") with false. cbn [andb]. unfold upper_s. cbn [smap]. fold (upper_s (dec (- z))).
    rewrite upper_digits by (apply dec_digits; lia). reflexivity.
  - unfold isnumeric. rewrite nonempty_dec, dec_digits by exact H. reflexivity.
Qed.
Lemma Dsym_nonneg : forall z, (0 <= z)%Z -> Dsym z = D z.
Proof. intros z H. unfold Dsym. rewrite (proj2 (Z.ltb_ge _ _)) by exact H. reflexivity. Qed.

Lemma rend_toks : forall toks, Forall goodtok toks -> rend toks (text_of toks) /\ all_ascii (text_of toks) = true.
Proof.
  intros toks F. unfold text_of. change (unwords toks) with (join_spaces toks). split.
  - apply rend_join. revert F. apply Forall_impl. intros t H. apply H.
  - apply all_ascii_join_spaces. revert F. apply Forall_impl. intros t H. apply H.
Qed.

Theorem compile_toks : forall fl2 ct p syms toks,
  spells fl2 p syms -> wf_prog p = true -> posts toks syms -> Forall goodtok toks ->
  compile_text fl2 ct (text_of toks) = Ok (encode p).
Proof.
  intros fl2 ct p syms toks S Wf P F. destruct (rend_toks toks F) as [R A].
  apply (compile_spells fl2 ct p syms toks); assumption.
Qed.
(* with comments between the top-level statements *)
Theorem compile_toks_tops : forall fl2 ct p syms toks,
  tops fl2 p syms -> wf_prog p = true -> posts toks syms -> Forall goodtok toks ->
  compile_text fl2 ct (text_of toks) = Ok (encode p).
Proof.
  intros fl2 ct p syms toks S Wf P F. destruct (rend_toks toks F) as [R A].
  apply (compile_tops fl2 ct p syms toks); assumption.
Qed.

Theorem split_text_of : forall toks, Forall goodtok toks -> split_py (text_of toks) = toks.
Proof. intros toks F. apply split_rend. apply (rend_toks toks F). Qed.

Lemma symbols_text_of : forall toks, Forall goodtok toks -> get_symbols (text_of toks) = gs_loop GNormal toks.
Proof.
  intros toks F. destruct (rend_toks toks F) as [R A]. unfold get_symbols. rewrite A, (split_rend toks _ R). reflexivity.
Qed.

(* the loop reads its tokens from left to right: after a list on which it succeeds it is in its normal
   state again, so what it makes of a piece of text does not depend on what follows *)
Lemma gs_app : forall a st sa, gs_loop st a = Ok sa ->
  forall b, gs_loop st (a ++ b) = rbind (gs_loop GNormal b) (fun l => Ok (sa ++ l)).
Proof.
  induction a as [|t a IH]; intros st sa H b.
  - destruct st; try discriminate H. injection H as <-. cbn [app]. destruct (gs_loop GNormal b); reflexivity.
  - assert (K : forall st' h, rbind (gs_loop st' a) (fun l => Ok (h :: l)) = Ok sa ->
                rbind (gs_loop st' (a ++ b)) (fun l => Ok (h :: l)) = rbind (gs_loop GNormal b) (fun l => Ok (sa ++ l))).
    { intros st' h K. destruct (gs_loop st' a) as [sa'| |] eqn:E; try discriminate K. injection K as <-.
      rewrite (IH _ _ E b). destruct (gs_loop GNormal b); reflexivity. }
    cbn [app gs_loop] in *. destruct st as [|q acc|].
    + destruct (str_start t) as [q|].
      * destruct (has_char q (sdrop 3 t)); [apply K|apply IH]; exact H.
      * destruct (takes_next t); [apply K; exact H|].
        destruct (ordinary t); try discriminate H. cbn [rbind] in *. apply K. exact H.
    + destruct (has_char q t); [apply K|apply IH]; exact H.
    + apply K. exact H.
Qed.
Lemma gs_X : forall v, gs_loop GNormal [X v] = Ok [X v].
Proof. intros v. apply gs_posts, posts_stable, ps_nil. apply stable_x, is_hex_hex. Qed.
Lemma gs_D : forall z, gs_loop GNormal [D z] = Ok [Dsym z].
Proof. intros z. apply gs_posts. rewrite <- norm_D. apply ps_tok; [apply plain_D|apply ps_nil]. Qed.

(* the sizes for which "push x<v>" is OP_PUSH1 *)
Definition p1_ok (v : bytes) : Prop := (2 <= List.length v <= 255)%nat.

Lemma push_instr_p1 : forall v, p1_ok v -> push_instr v = Some (P1 v).
Proof. intros v H. apply push_instr_by_length. unfold blen, p1_ok in *. lia. Qed.
Lemma push_instr_wf : forall v i, push_instr v = Some i -> wf i = true.
Proof. intros v i H. apply (push_minimal v i H). Qed.
Lemma p1_wf : forall v, p1_ok v -> wf (P1 v) = true.
Proof. intros v H. apply (push_instr_wf v), push_instr_p1, H. Qed.

Lemma fits2_len : forall e, (Z.of_nat (List.length e) < 65536)%Z -> fits2 e = true.
Proof. intros e H. unfold fits2, blen. apply Z.ltb_lt. exact H. Qed.

(* a piece of a template: the instructions it stands for, its tokens in the text, its symbols *)
Record piece := mk_piece { pi : list instr; pt : list string; ps : list string }.
Definition cat_i (l : list piece) : list instr := flat_map pi l.
Definition cat_t (l : list piece) : list string := flat_map pt l.
Definition cat_s (l : list piece) : list string := flat_map ps l.

Lemma cat_i_app : forall l l', cat_i (l ++ l') = cat_i l ++ cat_i l'.
Proof. intros. apply flat_map_app. Qed.
Lemma cat_t_app : forall l l', cat_t (l ++ l') = cat_t l ++ cat_t l'.
Proof. intros. apply flat_map_app. Qed.
Lemma cat_s_app : forall l l', cat_s (l ++ l') = cat_s l ++ cat_s l'.
Proof. intros. apply flat_map_app. Qed.

(* the tokens are tokens, and get_symbols turns them into the symbols (whatever follows: gs_app) *)
Definition oktoks (x : piece) : Prop := gs_loop GNormal (pt x) = Ok (ps x) /\ Forall goodtok (pt x).

Lemma toks_syms : forall l, Forall oktoks l -> gs_loop GNormal (cat_t l) = Ok (cat_s l).
Proof.
  induction 1 as [|x l [Hx _] _ IH]; [reflexivity|].
  unfold cat_t, cat_s in *. cbn [flat_map]. rewrite (gs_app _ _ _ Hx), IH. reflexivity.
Qed.
Lemma toks_good : forall l, Forall oktoks l -> Forall goodtok (cat_t l).
Proof.
  induction 1 as [|x l [_ Hx] _ IH]; [apply Forall_nil|].
  unfold cat_t. cbn [flat_map]. apply Forall_app. split; assumption.
Qed.
Lemma oktoks_cat : forall l i, Forall oktoks l -> oktoks (mk_piece i (cat_t l) (cat_s l)).
Proof. intros l i H. split; [apply toks_syms|apply toks_good]; exact H. Qed.
(* a piece without parameters: by evaluation *)
Lemma oktoks_closed : forall x, gs_loop GNormal (pt x) = Ok (ps x) -> forallb goodb (pt x) = true -> oktoks x.
Proof. intros x H G. split; [exact H|apply goodb_all; exact G]. Qed.

(* tokens / symbols that are not a statement by themselves *)
Definition pc_raw (toks syms : list string) : piece := mk_piece [] toks syms.

Section Pieces.
  Variable fl2 : Z -> Z.
  Variable ct : bytes -> res (option bytes).

  (* a statement, in every context and whatever follows *)
  Definition okstmt (x : piece) : Prop := (forall c nx, stmt fl2 c nx (pi x) (ps x)) /\ oktoks x.

  Lemma stmts_seq : forall l, Forall okstmt l -> forall c nx, seq fl2 c nx (cat_i l) (cat_s l).
  Proof.
    induction 1 as [|x l [Hx _] _ IH]; intros c nx; [apply sq_nil|].
    unfold cat_i, cat_s. cbn [flat_map]. apply sq_cons; [apply Hx|apply IH].
  Qed.
  Lemma stmt_toks : forall x, okstmt x -> oktoks x.
  Proof. intros x H. apply H. Qed.
  Lemma stmts_toks : forall l, Forall okstmt l -> Forall oktoks l.
  Proof. apply Forall_impl, stmt_toks. Qed.

  (* a top-level statement or comment, by what parse_next does on it *)
  Definition sem_top (x : piece) : Prop :=
    wf_prog (pi x) = true ->
    existsb bad_symbol (ps x) = false /\
    forall m f r, (List.length (ps x) <= f)%nat ->
      exists h t, ps x = h :: t /\ pn_at fl2 ct f m h (ps x ++ r) = Ok (List.length (ps x), encode (pi x)).
  Definition okpiece (x : piece) : Prop := sem_top x /\ oktoks x.

  Lemma ok_of_stmt : forall x, okstmt x -> okpiece x.
  Proof.
    intros x [S T]. split; [|exact T]. intros W. split.
    - destruct (good_stmt fl2 _ _ _ _ (S Top None) W) as (_ & _ & U & _). exact U.
    - intros m f r L.
      destruct (proj1 (spells_correct fl2 ct m) Top (hd_error r) _ _ (S Top (hd_error r)) W f r L eq_refl)
        as (h & t & E & _ & P).
      exists h, t. split; [exact E|exact P].
  Qed.

  (* a comment: the symbol q, symbols other than q, q again *)
  Lemma sem_comment : forall q body, is_comment q = true -> mem q body = false ->
    existsb bad_symbol body = false -> forall t, sem_top (mk_piece [] t (q :: body ++ [q])).
  Proof.
    intros q body Q M U t0 _. cbn [ps pi]. split.
    - cbn [existsb]. rewrite (proj2 (comment_head q Q)), existsb_app, U. cbn [existsb].
      rewrite (proj2 (comment_head q Q)). reflexivity.
    - intros m f r L. exists q, (body ++ [q]). split; [reflexivity|].
      destruct f as [|f']; [cbn [List.length] in L; lia|].
      cbn [app]. rewrite <- app_assoc. cbn [app]. rewrite (pn_comment fl2 ct m f' q body r Q M).
      cbn [List.length]. rewrite app_length. cbn [List.length]. do 2 f_equal. lia.
  Qed.

  Lemma pieces_bad : forall l, Forall okpiece l -> wf_prog (cat_i l) = true ->
    existsb bad_symbol (cat_s l) = false.
  Proof.
    induction 1 as [|x l [Hx _] _ IH]; intros W; [reflexivity|].
    unfold cat_i in W. cbn [flat_map] in W. rewrite wf_prog_app in W. apply andb_prop in W as [W1 W2].
    unfold cat_s. cbn [flat_map]. rewrite existsb_app. rewrite (proj1 (Hx W1)). apply IH. exact W2.
  Qed.

  Lemma pieces_loop : forall l, Forall okpiece l -> wf_prog (cat_i l) = true ->
    forall m f n, (List.length (cat_s l) <= f)%nat -> (List.length (cat_s l) <= n)%nat ->
    asm_loop (pn_at fl2 ct f m) n (cat_s l) = Ok (encode (cat_i l)).
  Proof.
    induction 1 as [|x l [Hx _] _ IH]; intros W m f n Lf Ln; [destruct n; reflexivity|].
    unfold cat_i in W. cbn [flat_map] in W. rewrite wf_prog_app in W. apply andb_prop in W as [W1 W2].
    unfold cat_i, cat_s in *. cbn [flat_map] in *. rewrite app_length in Lf, Ln.
    destruct (Hx W1) as [_ P]. destruct (P m f (flat_map ps l) ltac:(lia)) as (h & t & E & R).
    rewrite E in *. cbn [List.length] in Lf, Ln. destruct n as [|n']; [lia|].
    cbn [app asm_loop]. cbn [app] in R. rewrite R. cbn [rbind]. cbn [List.length]. rewrite skipn_stmt.
    rewrite (IH W2 m f n') by lia. cbn [rbind]. rewrite encode_app. reflexivity.
  Qed.

  Theorem assemble_pieces : forall l, Forall okpiece l -> wf_prog (cat_i l) = true ->
    assemble_r fl2 ct (cat_s l) = Ok (encode (cat_i l)).
  Proof.
    intros l H W. apply (comptime_run_rewrite fl2 ct _ _ _ (cs_plain fl2 ct _ (pieces_bad l H W))).
    apply (pieces_loop l H W).
  Qed.

  Lemma pieces_toks : forall l, Forall okpiece l -> Forall oktoks l.
  Proof. apply Forall_impl. intros x H. apply H. Qed.

  Theorem compile_pieces : forall l, Forall okpiece l -> wf_prog (cat_i l) = true ->
    compile_text fl2 ct (text_of (cat_t l)) = Ok (encode (cat_i l)).
  Proof.
    intros l H W. pose proof (pieces_toks l H) as T.
    unfold compile_text. rewrite (symbols_text_of _ (toks_good l T)), (toks_syms l T). cbn [rbind].
    apply assemble_pieces; assumption.
  Qed.

  Theorem compile_as : forall l p, Forall okpiece l -> cat_i l = p -> wf_prog p = true ->
    compile_text fl2 ct (text_of (cat_t l)) = Ok (encode p).
  Proof. intros l p H <- W. apply compile_pieces; assumption. Qed.

  Hypothesis F : fl2_small fl2.

  (* the tokens of the pieces: single tokens, put together by oktoks_cat *)
  Lemma oktoks_as : forall l x, Forall oktoks l -> pt x = cat_t l -> ps x = cat_s l -> oktoks x.
  Proof. intros l [i t s] H E1 E2. cbn [pt ps] in *. subst t s. apply oktoks_cat. exact H. Qed.
  (* a name token: l in the text, u after get_symbols *)
  Lemma tok_name : forall l u, gs_loop GNormal [l] = Ok [u] -> goodb l = true -> oktoks (pc_raw [l] [u]).
  Proof. intros l u H G. apply oktoks_closed; [exact H|]. cbn [pt pc_raw forallb]. rewrite G. reflexivity. Qed.
  Lemma tok_X : forall v, oktoks (pc_raw [X v] [X v]).
  Proof. intros v. split; [apply gs_X|apply Forall_cons; [apply goodtok_X|apply Forall_nil]]. Qed.
  Lemma tok_D : forall z, oktoks (pc_raw [D z] [Dsym z]).
  Proof. intros z. split; [apply gs_D|apply Forall_cons; [apply goodtok_D|apply Forall_nil]]. Qed.
  Lemma tok_Db : forall b, oktoks (pc_raw [D (b2z b)] [D (b2z b)]).
  Proof. intros b. rewrite <- (Dsym_nonneg (b2z b)) at 2 by apply b2z_nonneg. apply tok_D. Qed.

  (* push x<v> *)
  Definition pc_pushx (v : bytes) (i : instr) : piece := mk_piece [i] ["push"; X v] ["PUSH"; X v].
  Lemma ok_pushx : forall v i, push_instr v = Some i -> okstmt (pc_pushx v i).
  Proof.
    intros v i H. split.
    - intros c nx. apply (st_pushp fl2 c nx "PUSH" v (X v) i); [left; reflexivity| |exact H].
      unfold X. apply sp_x; [left; reflexivity|apply sp_hex_hex].
    - apply (oktoks_cat [pc_raw ["push"] ["PUSH"]; pc_raw [X v] [X v]]).
      apply Forall_cons; [apply oktoks_closed; reflexivity|]. apply Forall_cons; [apply tok_X|apply Forall_nil].
  Qed.

  (* push d<z> *)
  Definition pc_pushd (z : Z) (i : instr) : piece := mk_piece [i] ["push"; D z] ["PUSH"; Dsym z].
  Lemma ok_pushd : forall z v i, int_to_bytes fl2 z = Some v -> push_instr v = Some i -> okstmt (pc_pushd z i).
  Proof.
    intros z v i E H. split.
    - intros c nx. apply (st_pushp fl2 c nx "PUSH" v (Dsym z) i); [left; reflexivity| |exact H].
      unfold Dsym. destruct (Z.ltb_spec z 0) as [N|N].
      + rewrite (dec_neg z N). apply (sp_dm fl2 v "D" (dec (- z)) z); [right; reflexivity| |exact E].
        apply num_dec. lia.
      + unfold D. apply (sp_d fl2 v "d" (dec z) z); [left; reflexivity| |exact E]. apply num_dec. exact N.
    - apply (oktoks_cat [pc_raw ["push"] ["PUSH"]; pc_raw [D z] [Dsym z]]).
      apply Forall_cons; [apply oktoks_closed; reflexivity|]. apply Forall_cons; [apply tok_D|apply Forall_nil].
  Qed.
  Lemma ok_pushd1 : forall z v, int_to_bytes fl2 z = Some v -> p1_ok v -> okstmt (pc_pushd z (P1 v)).
  Proof. intros z v E H. apply (ok_pushd z v); [exact E|apply push_instr_p1; exact H]. Qed.
  (* push d<n>, n a small constant: OP_PUSH0 *)
  Lemma s8_small : forall b, (b2z b < 128)%Z -> s8 b = b2z b.
  Proof. intros b H. unfold s8. rewrite (proj2 (Z.ltb_lt _ _)) by exact H. reflexivity. Qed.
  Lemma ok_pushd0 : forall b, (b2z b <? 128)%Z = true -> okstmt (pc_pushd (b2z b) (P0 b)).
  Proof.
    intros b H. apply Z.ltb_lt in H. apply (ok_pushd (b2z b) [b]); [|reflexivity].
    rewrite <- (s8_small b H). apply (i2b_s8 fl2 F b).
  Qed.

  (* an instruction without operand *)
  Definition pc_op0 (o : opcode) (l u : string) : piece := mk_piece [IOp0 o] [l] [u].
  Lemma ok_op0 : forall o l u, alias_of u = Some (opcode_name o) -> shape_of o = ShNone ->
    gs_loop GNormal [l] = Ok [u] -> goodb l = true -> okstmt (pc_op0 o l u).
  Proof.
    intros o l u A S N G. split; [|apply (tok_name l u N G)].
    intros c nx. apply st_op0; [apply alias_name; exact A|exact S].
  Qed.

  (* name x<byte> and name d<n> *)
  Definition pc_op1x (o : opcode) (l u : string) (b : byte) : piece := mk_piece [IOp1 o b] [l; X [b]] [u; X [b]].
  Lemma ok_op1x : forall o l u b, alias_of u = Some (opcode_name o) -> is_sh1 (shape_of o) = true ->
    gs_loop GNormal [l] = Ok [u] -> goodb l = true -> okstmt (pc_op1x o l u b).
  Proof.
    intros o l u b A S N G. split.
    - intros c nx. apply st_op1; [apply alias_name; exact A|exact S|].
      unfold X. apply sb_x; [left; reflexivity|apply sp_hex_hex].
    - apply (oktoks_cat [pc_raw [l] [u]; pc_raw [X [b]] [X [b]]]).
      apply Forall_cons; [apply tok_name; assumption|]. apply Forall_cons; [apply tok_X|apply Forall_nil].
  Qed.
  Definition pc_op1d (o : opcode) (l u : string) (b : byte) : piece :=
    mk_piece [IOp1 o b] [l; D (b2z b)] [u; D (b2z b)].
  Lemma ok_op1d : forall o l u b, alias_of u = Some (opcode_name o) -> is_sh1 (shape_of o) = true ->
    gs_loop GNormal [l] = Ok [u] -> goodb l = true -> (b2z b < 128)%Z -> okstmt (pc_op1d o l u b).
  Proof.
    intros o l u b A S N G H. split.
    - intros c nx. apply st_op1; [apply alias_name; exact A|exact S|].
      rewrite <- (s8_small b H). apply (sp_byte_tok_d fl2 F b).
    - apply (oktoks_cat [pc_raw [l] [u]; pc_raw [D (b2z b)] [D (b2z b)]]).
      apply Forall_cons; [apply tok_name; assumption|]. apply Forall_cons; [apply tok_Db|apply Forall_nil].
  Qed.

  (* OP_MERKLEVAL x<32 bytes> *)
  Definition pc_fix (o : opcode) (n : string) (v : bytes) : piece := mk_piece [IFix o v] [n; X v] [n; X v].
  Lemma ok_fix : forall o n v, n = opcode_name o -> gs_loop GNormal [n] = Ok [n] -> goodb n = true ->
    okstmt (pc_fix o n v).
  Proof.
    intros o n v E N G. split.
    - intros c nx. apply st_fix; [left; exact E|]. unfold X. apply sx_x; [left; reflexivity|apply sp_hex_hex].
    - apply (oktoks_cat [pc_raw [n] [n]; pc_raw [X v] [X v]]).
      apply Forall_cons; [apply tok_name; assumption|]. apply Forall_cons; [apply tok_X|apply Forall_nil].
  Qed.

  (* check_multisig x<flag> d<m> d<n> *)
  Definition pc_ms (fl m n : byte) : piece :=
    mk_piece [IMultisig O_CHECK_MULTISIG fl m n] ["check_multisig"; X [fl]; D (b2z m); D (b2z n)]
             ["CHECK_MULTISIG"; X [fl]; D (b2z m); D (b2z n)].
  Lemma ok_ms : forall fl m n, okstmt (pc_ms fl m n).
  Proof.
    intros fl m n. split.
    - intros c nx. apply st_ms; [apply alias_name; reflexivity| | |].
      + unfold X. apply si_x; [left; reflexivity|apply sp_hex_hex].
      + unfold D. apply si_d; [left; reflexivity|apply num_dec; apply b2z_nonneg].
      + unfold D. apply si_d; [left; reflexivity|apply num_dec; apply b2z_nonneg].
    - apply (oktoks_cat [pc_raw ["check_multisig"] ["CHECK_MULTISIG"]; pc_raw [X [fl]] [X [fl]];
                         pc_raw [D (b2z m)] [D (b2z m)]; pc_raw [D (b2z n)] [D (b2z n)]]).
      apply Forall_cons; [apply oktoks_closed; reflexivity|]. apply Forall_cons; [apply tok_X|].
      apply Forall_cons; [apply tok_Db|]. apply Forall_cons; [apply tok_Db|apply Forall_nil].
  Qed.

  (* @= k 1   and   @k *)
  Definition pc_setvar (k : string) : piece := mk_piece [IWriteCache (str k) x01] ["@="; k; "1"] ["@="; k; "1"].
  Lemma good_key : forall k, isalnum k = true -> goodb k = true.
  Proof.
    intros k A. apply andb_prop in A as [N A]. unfold goodb. rewrite N. apply (sall_imp is_alnum_c _ good_alnum), A.
  Qed.
  Lemma ok_setvar : forall k, isalnum k = true -> okstmt (pc_setvar k).
  Proof.
    intros k A. split.
    - intros c nx. apply st_setvar; [exact A|]. apply (num_dec 1). discriminate.
    - apply oktoks_closed; [reflexivity|]. cbn [pt pc_setvar forallb]. rewrite (good_key k A). reflexivity.
  Qed.
  Definition pc_loadvar (k : string) : piece :=
    mk_piece [IVar1 O_READ_CACHE (str k)] [String "@" k] [String "@" k].
  Lemma ok_loadvar : forall k, isalnum k = true -> okstmt (pc_loadvar k).
  Proof.
    intros k A. split; [intros c nx; apply st_loadvar; exact A|]. apply oktoks_closed.
    - apply gs_posts, posts_stable, ps_nil. apply stable_at; [left; reflexivity|].
      destruct k as [|e k']; [exact I|]. destruct (Ascii.eqb_spec e "=") as [->|]; [discriminate A|reflexivity].
    - cbn [pt pc_loadvar forallb]. pose proof (good_key k A) as G. unfold goodb in *. cbn [nonempty sall].
      apply andb_prop in G as [_ G]. rewrite G. reflexivity.
  Qed.

  (* swap d<a> d<b> *)
  Definition pc_swap (a b : byte) : piece :=
    mk_piece [ISwap a b] ["swap"; D (b2z a); D (b2z b)] ["SWAP"; D (b2z a); D (b2z b)].
  Lemma ok_swap : forall a b, okstmt (pc_swap a b).
  Proof.
    intros a b. split.
    - intros c nx. apply st_swap; [apply alias_name; reflexivity| |];
        unfold D; apply si_d; try (left; reflexivity); apply num_dec; apply b2z_nonneg.
    - apply (oktoks_cat [pc_raw ["swap"] ["SWAP"]; pc_raw [D (b2z a)] [D (b2z a)]; pc_raw [D (b2z b)] [D (b2z b)]]).
      apply Forall_cons; [apply oktoks_closed; reflexivity|].
      apply Forall_cons; [apply tok_Db|]. apply Forall_cons; [apply tok_Db|apply Forall_nil].
  Qed.

  (* { ... } else { ... } *)
  Definition arms (l1 l2 : list piece) : list piece :=
    pc_raw ["{"] ["{"] :: l1 ++ pc_raw ["}"; "else"; "{"] ["}"; "ELSE"; "{"] :: l2 ++ [pc_raw ["}"] ["}"]].
  Lemma arms_toks : forall l1 l2, Forall oktoks l1 -> Forall oktoks l2 -> Forall oktoks (arms l1 l2).
  Proof.
    intros l1 l2 H1 H2.
    apply Forall_cons; [apply oktoks_closed; reflexivity|]. apply Forall_app. split; [exact H1|].
    apply Forall_cons; [apply oktoks_closed; reflexivity|]. apply Forall_app. split; [exact H2|].
    apply Forall_cons; [apply oktoks_closed; reflexivity|apply Forall_nil].
  Qed.
  Lemma arms_t : forall l1 l2, cat_t (arms l1 l2) = "{" :: cat_t l1 ++ "}" :: "else" :: "{" :: cat_t l2 ++ ["}"].
  Proof.
    intros l1 l2. unfold arms. change (cat_t (?x :: ?l)) with (pt x ++ cat_t l). rewrite cat_t_app.
    change (cat_t (?x :: ?l)) with (pt x ++ cat_t l). rewrite cat_t_app. reflexivity.
  Qed.
  Lemma arms_s : forall l1 l2, cat_s (arms l1 l2) = braces (cat_s l1) ++ "ELSE" :: braces (cat_s l2).
  Proof.
    intros l1 l2. unfold arms. change (cat_s (?x :: ?l)) with (ps x ++ cat_s l). rewrite cat_s_app.
    change (cat_s (?x :: ?l)) with (ps x ++ cat_s l). rewrite cat_s_app.
    unfold braces. cbn [ps pc_raw cat_s flat_map app]. rewrite <- !app_assoc. reflexivity.
  Qed.

  (* if { ... } else { ... } *)
  Definition pc_ifelse (l1 l2 : list piece) : piece :=
    mk_piece [IIfElse (cat_i l1) (cat_i l2)]
             ("if" :: "{" :: cat_t l1 ++ "}" :: "else" :: "{" :: cat_t l2 ++ ["}"])
             ("IF" :: braces (cat_s l1) ++ "ELSE" :: braces (cat_s l2)).
  Lemma ifelse_toks : forall l1 l2, Forall oktoks l1 -> Forall oktoks l2 -> oktoks (pc_ifelse l1 l2).
  Proof.
    intros l1 l2 H1 H2. apply (oktoks_as (pc_raw ["if"] ["IF"] :: arms l1 l2)).
    - apply Forall_cons; [apply oktoks_closed; reflexivity|apply arms_toks; assumption].
    - change (cat_t (?x :: ?l)) with (pt x ++ cat_t l). rewrite arms_t. reflexivity.
    - change (cat_s (?x :: ?l)) with (ps x ++ cat_s l). rewrite arms_s. reflexivity.
  Qed.
  Lemma ok_ifelse : forall l1 l2, Forall okstmt l1 -> Forall okstmt l2 -> okstmt (pc_ifelse l1 l2).
  Proof.
    intros l1 l2 H1 H2. split.
    - intros c nx. cbn [pi ps pc_ifelse]. apply st_if; [apply alias_name; reflexivity|].
      apply ite_bb; apply stmts_seq; assumption.
    - apply ifelse_toks; apply stmts_toks; assumption.
  Qed.

  (* if ( cond ) { ... } else { ... } : the condition is compiled in front of the OP_IF_ELSE *)
  Definition pc_ifh (cond l1 l2 : list piece) : piece :=
    mk_piece (cat_i cond ++ [IIfElse (cat_i l1) (cat_i l2)])
             ("if" :: "(" :: cat_t cond ++ ")" :: "{" :: cat_t l1 ++ "}" :: "else" :: "{" :: cat_t l2 ++ ["}"])
             ("IF" :: "(" :: cat_s cond ++ ")" :: braces (cat_s l1) ++ "ELSE" :: braces (cat_s l2)).
  Lemma ifh_toks : forall cond l1 l2, Forall oktoks cond -> Forall oktoks l1 -> Forall oktoks l2 ->
    oktoks (pc_ifh cond l1 l2).
  Proof.
    intros cond l1 l2 H0 H1 H2.
    apply (oktoks_as (pc_raw ["if"; "("] ["IF"; "("] :: cond ++ pc_raw [")"] [")"] :: arms l1 l2)).
    - apply Forall_cons; [apply oktoks_closed; reflexivity|]. apply Forall_app. split; [exact H0|].
      apply Forall_cons; [apply oktoks_closed; reflexivity|apply arms_toks; assumption].
    - change (cat_t (?x :: ?l)) with (pt x ++ cat_t l). rewrite cat_t_app.
      change (cat_t (?x :: ?l)) with (pt x ++ cat_t l). rewrite arms_t. reflexivity.
    - change (cat_s (?x :: ?l)) with (ps x ++ cat_s l). rewrite cat_s_app.
      change (cat_s (?x :: ?l)) with (ps x ++ cat_s l). rewrite arms_s. reflexivity.
  Qed.
  Lemma ok_ifh : forall cond l1 l2, Forall okstmt cond -> Forall okstmt l1 -> Forall okstmt l2 ->
    okstmt (pc_ifh cond l1 l2).
  Proof.
    intros cond l1 l2 H0 H1 H2. split.
    - intros c nx. cbn [pi ps pc_ifh]. apply st_ifh; [apply alias_name; reflexivity|apply stmts_seq; exact H0|].
      apply ite_bb; apply stmts_seq; assumption.
    - apply ifh_toks; apply stmts_toks; assumption.
  Qed.

  (* def <h> { ... } *)
  Definition pc_def (h : byte) (hs : string) (l : list piece) : piece :=
    mk_piece [IDef h (cat_i l)] ("def" :: hs :: "{" :: cat_t l ++ ["}"]) ("DEF" :: hs :: braces (cat_s l)).
  Lemma def_toks : forall h hs l, gs_loop GNormal [hs] = Ok [hs] -> goodb hs = true -> Forall oktoks l ->
    oktoks (pc_def h hs l).
  Proof.
    intros h hs l N G H.
    apply (oktoks_as (pc_raw ["def"] ["DEF"] :: pc_raw [hs] [hs] :: pc_raw ["{"] ["{"] :: l ++ [pc_raw ["}"] ["}"]])).
    - apply Forall_cons; [apply oktoks_closed; reflexivity|]. apply Forall_cons; [apply tok_name; assumption|].
      apply Forall_cons; [apply oktoks_closed; reflexivity|]. apply Forall_app. split; [exact H|].
      apply Forall_cons; [apply oktoks_closed; reflexivity|apply Forall_nil].
    - change (cat_t (?x :: ?y :: ?z :: ?l)) with (pt x ++ pt y ++ pt z ++ cat_t l). rewrite cat_t_app. reflexivity.
    - change (cat_s (?x :: ?y :: ?z :: ?l)) with (ps x ++ ps y ++ ps z ++ cat_s l). rewrite cat_s_app. reflexivity.
  Qed.

  (* # ... # *)
  Definition pc_comment (bt bs : list string) : piece := mk_piece [] ("#" :: bt ++ ["#"]) ("#" :: bs ++ ["#"]).
End Pieces.

(* comments inside blocks (the bodies of IF / ELSE and of DEF), which [spells] and [tops] do not have *)
Section RunC.
  Variable pn : string -> list string -> res (nat * bytes).

  (* statements (AssemblerProofs.run) and comments, one after the other *)
  Inductive runc (c : ctx) : list string -> list string -> bytes -> nat -> Prop :=
  | rc_nil : forall r, runc c r r [] 0
  | rc_run : forall l mid r code1 k1 code2 k2, run pn c l mid code1 k1 -> runc c mid r code2 k2 ->
      runc c l r (code1 ++ code2) (k1 + k2)
  | rc_comment : forall q body l r code k, is_comment q = true -> mem q body = false ->
      (c <> DefDirect -> pn q (q :: body ++ q :: l) = Ok ((List.length body + 2)%nat, [])) ->
      runc c l r code k -> runc c (q :: body ++ q :: l) r code (List.length body + 2 + k).

  Lemma runc_length : forall c l r code k, runc c l r code k -> List.length l = (k + List.length r)%nat.
  Proof.
    induction 1 as [r|l mid r c1 k1 c2 k2 R _ IH|q body l r code k _ _ _ _ IH]; [reflexivity| |].
    - rewrite (run_length pn _ _ _ _ _ R), IH. lia.
    - cbn [List.length]. rewrite app_length. cbn [List.length]. rewrite IH. lia.
  Qed.

  Lemma steps_comment : forall X loop pre ok q body l r code k,
    turn X loop pre ok (q :: body ++ [q]) l [] -> steps X loop pre ok l r code k ->
    steps X loop pre ok (q :: body ++ q :: l) r code (List.length body + 2 + k).
  Proof.
    intros X loop pre ok q body l r code k T S.
    replace (List.length body + 2)%nat with (List.length (q :: body ++ [q]))
      by (cbn [List.length]; rewrite app_length; cbn [List.length]; lia).
    change (q :: body ++ q :: l) with (q :: body ++ [q] ++ l). rewrite app_assoc. exact (steps_cons _ T S).
  Qed.

  (* outside a DEF body these are turns of every loop that hands its symbols to parse_next;
     directly in a DEF body, of the loop of parse_def, which skips the comments itself *)
  Lemma runc_steps : forall X loop pre, hands_over pn X loop pre -> forall c l r code k,
    runc c l r code k -> c <> DefDirect -> steps X loop pre always l r code k.
  Proof.
    intros X loop pre H c l r code k R C.
    induction R as [r|l mid r c1 k1 c2 k2 R1 _ IH|q body l r code k Q M P _ IH]; [apply steps_nil| |].
    - exact (steps_trans _ _ _ _ _ _ _ _ _ _ _ (run_steps H R1 C) IH).
    - apply steps_comment; [|exact IH]. apply (pn_turn H); [apply (comment_head q Q)|].
      cbn [app]. rewrite <- app_assoc. cbn [app]. rewrite (P C), app_length. cbn [List.length]. do 2 f_equal. lia.
  Qed.
  Lemma runc_def_steps : forall sidx l r code k, runc DefDirect l r code k ->
    steps bytes (fun n idx => def_loop pn n idx sidx) (@app byte) (upto sidx) l r code k.
  Proof.
    intros sidx l r code k R.
    induction R as [r|l mid r c1 k1 c2 k2 R1 _ IH|q body l r code k Q M _ _ IH]; [apply steps_nil| |].
    - exact (steps_trans _ _ _ _ _ _ _ _ _ _ _ (def_run_steps sidx R1) IH).
    - apply steps_comment; [apply def_comment_turn; assumption|exact IH].
  Qed.
End RunC.

Section Bodies.
  Variable fl2 : Z -> Z.
  Variable ct : bytes -> res (option bytes).

  (* a piece inside a block: a statement or a comment *)
  Definition is_cmt (x : piece) : Prop :=
    pi x = [] /\ exists q body, ps x = q :: body ++ [q] /\ is_comment q = true /\ mem q body = false /\
                               existsb bad_symbol body = false.
  Definition okbody (x : piece) : Prop := (okstmt fl2 x \/ is_cmt x) /\ oktoks x.

  Lemma okbody_stmt : forall x, okstmt fl2 x -> okbody x.
  Proof. intros x H. split; [left; exact H|apply H]. Qed.
  Lemma okbody_comment : forall bt bs, mem "#" bs = false -> existsb bad_symbol bs = false ->
    oktoks (pc_comment bt bs) -> okbody (pc_comment bt bs).
  Proof.
    intros bt bs M U T. split; [right|exact T]. split; [reflexivity|]. exists "#", bs. repeat split; assumption.
  Qed.
  Lemma ok_of_body : forall x, okbody x -> okpiece fl2 ct x.
  Proof.
    intros x [[H|H] T]; [apply ok_of_stmt; exact H|]. split; [|exact T].
    destruct x as [i t s]. destruct H as (Ei & q & body & Es & Q & M & U). cbn [pi ps] in Ei, Es. subst i s.
    apply sem_comment; assumption.
  Qed.
  Lemma bodies_toks : forall l, Forall okbody l -> Forall oktoks l.
  Proof. apply Forall_impl. intros x H. apply H. Qed.

  Lemma bodies_bad : forall l, Forall okbody l -> wf_prog (cat_i l) = true -> existsb bad_symbol (cat_s l) = false.
  Proof.
    induction 1 as [|x l [[Hx|Hx] _] _ IH]; intros W; [reflexivity| |];
      unfold cat_i in W; cbn [flat_map] in W; rewrite wf_prog_app in W; apply andb_prop in W as [W1 W2];
      unfold cat_s; cbn [flat_map]; rewrite existsb_app; fold (cat_s l); rewrite (IH W2), orb_false_r.
    - destruct Hx as [S _]. destruct (good_stmt fl2 _ _ _ _ (S Top None) W1) as (_ & _ & U & _). exact U.
    - destruct Hx as (_ & q & body & -> & Q & _ & U). cbn [existsb]. rewrite (proj2 (comment_head q Q)), existsb_app, U.
      cbn [existsb]. rewrite (proj2 (comment_head q Q)). reflexivity.
  Qed.

  Lemma bodies_runc : forall l, Forall okbody l -> wf_prog (cat_i l) = true ->
    forall m c f r, (List.length (cat_s l) <= f)%nat ->
    runc (pn_at fl2 ct f m) c (cat_s l ++ r) r (encode (cat_i l)) (List.length (cat_s l)).
  Proof.
    induction 1 as [|x l [[Hx|Hx] _] _ IH]; intros W m c f r L; [apply rc_nil| |];
      unfold cat_i in W; cbn [flat_map] in W; rewrite wf_prog_app in W; apply andb_prop in W as [W1 W2];
      unfold cat_i, cat_s in *; cbn [flat_map] in *; rewrite app_length in L; rewrite <- app_assoc, app_length.
    - destruct Hx as [St _]. rewrite encode_app.
      destruct (proj1 (spells_correct fl2 ct m) c (hd_error (flat_map ps l ++ r)) _ _ (St c _) W1 f (flat_map ps l ++ r)
                  ltac:(lia) eq_refl) as (h & t & E & Hh & P).
      apply (rc_run _ c _ (flat_map ps l ++ r)); [|apply IH; [exact W2|lia]].
      rewrite E in *. rewrite <- (app_nil_r (encode (pi x))). cbn [List.length].
      replace (S (List.length t)) with (S (List.length t) + 0)%nat by lia.
      apply (run_step _ c h t _ _ (encode (pi x)) [] 0%nat Hh P). apply run_nil.
    - destruct Hx as (Ei & q & body & Es & Q & M & U). rewrite Ei, Es in *. cbn [app]. rewrite <- app_assoc. cbn [app].
      cbn [List.length]. rewrite app_length. cbn [List.length].
      replace (S (List.length body + 1) + List.length (flat_map ps l))%nat
        with (List.length body + 2 + List.length (flat_map ps l))%nat by lia.
      cbn [List.length] in L. rewrite app_length in L. cbn [List.length] in L.
      apply rc_comment; [exact Q|exact M| |apply IH; [exact W2|lia]].
      intros _. destruct f as [|f']; [lia|]. apply pn_comment; assumption.
  Qed.

  (* IF ... with comments in both bodies (at top level) *)
  Lemma LI_bb_c : forall m nx l1 l2, Forall okbody l1 -> Forall okbody l2 ->
    P_iftail fl2 ct m Top nx (IIfElse (cat_i l1) (cat_i l2)) (braces (cat_s l1) ++ "ELSE" :: braces (cat_s l2)).
  Proof.
    intros m nx l1 l2 H1 H2 W f r h hc kw L Hr. cbn [wf] in W.
    apply andb_prop in W as [W Fi2]. apply andb_prop in W as [W W2]. apply andb_prop in W as [W1 Fi1].
    rewrite app_length in L. cbn [List.length] in L. rewrite !length_braces in L.
    rewrite <- app_assoc. cbn [app]. rewrite !braces_app. split; [eauto|].
    assert (C : Top <> DefDirect) by discriminate.
    pose proof (runc_steps _ _ _ _ (if_hands_over _) _ _ _ _ _
                  (bodies_runc l1 H1 W1 m Top f ("}" :: "ELSE" :: "{" :: cat_s l2 ++ "}" :: r) ltac:(lia)) C) as R1.
    pose proof (runc_steps _ _ _ _ (body_hands_over _ _ _ tsets_else) _ _ _ _ _
                  (bodies_runc l2 H2 W2 m Top f ("}" :: r) ltac:(lia)) C) as R2.
    pose proof (ifelse_blk _ h hc kw true _ _ _ _ _ R1 Fi1 ltac:(discriminate)
                  (clause_blk _ ["END_IF"] _ _ true "END_IF" _ r _ R2 eq_refl eq_refl eq_refl Fi2 "ELSE")) as E.
    cbn [opn cls after app List.length] in E. rewrite E, enc_ifelse. cbn [List.length]. rewrite app_length.
    cbn [List.length]. rewrite length_braces. do 2 f_equal. lia.
  Qed.

  Lemma ok_ifh_c : forall cond l1 l2, Forall (okstmt fl2) cond -> Forall okbody l1 -> Forall okbody l2 ->
    okpiece fl2 ct (pc_ifh cond l1 l2).
  Proof.
    intros cond l1 l2 H0 H1 H2. split.
    - intros W. cbn [pi ps pc_ifh] in *. split.
      + rewrite wf_prog_app in W. apply andb_prop in W as [W0 W]. cbn [wf_prog forallb wf] in W.
        rewrite andb_true_r in W.
        apply andb_prop in W as [W Fi2]. apply andb_prop in W as [W W2]. apply andb_prop in W as [W1 Fi1].
        destruct (good_seq fl2 _ _ _ _ (stmts_seq fl2 cond H0 Top None) W0) as (_ & _ & U0 & _).
        unfold braces. repeat first [rewrite existsb_app | progress cbn [existsb app]].
        rewrite U0, (bodies_bad l1 H1 W1), (bodies_bad l2 H2 W2). reflexivity.
      + intros m f r L.
        pose proof (L_ifh fl2 ct m Top (hd_error r) "IF" (cat_i cond) (cat_s cond) _ _
                      (alias_name Top "IF" O_IF eq_refl) (stmts_seq fl2 cond H0 Top None)
                      (proj2 (proj2 (spells_correct fl2 ct m)) _ _ _ _ (stmts_seq fl2 cond H0 Top None))
                      (LI_bb_c m (hd_error r) l1 l2 H1 H2)) as P.
        destruct (P W f r L eq_refl) as (h & t & E & _ & R). exists h, t. split; [exact E|exact R].
    - apply ifh_toks; [apply (stmts_toks fl2); exact H0|apply bodies_toks; exact H1|apply bodies_toks; exact H2].
  Qed.

  (* DEF ... with comments in the body (at top level) *)
  Lemma ok_def_c : forall h hs l, def_handle hs = Ok h -> gs_loop GNormal [hs] = Ok [hs] -> goodb hs = true ->
    bad_symbol hs = false ->
    Forall okbody l -> (forall k, scan "{" "}" (cat_s l) k = Some k) -> okpiece fl2 ct (pc_def h hs l).
  Proof.
    intros h hs l Hh N G Uh H B. split; [|apply def_toks; [exact N|exact G|apply bodies_toks; exact H]].
    intros W. cbn [pi ps pc_def] in *. cbn [wf_prog forallb wf] in W. rewrite andb_true_r in W.
    apply andb_prop in W as [W Fi]. split.
    - unfold braces. repeat first [rewrite existsb_app | progress cbn [existsb app]].
      rewrite Uh, (bodies_bad l H W). reflexivity.
    - intros m f r L. exists "DEF", (hs :: braces (cat_s l)). split; [reflexivity|].
      cbn [List.length] in L. rewrite length_braces in L. destruct f as [|f']; [lia|].
      pose proof (bodies_runc l H W m DefDirect f' ("}" :: r) ltac:(lia)) as R.
      rewrite (PN_S fl2 ct m).
      rewrite (pn_def_kw fl2 _ _ _ _ Top "DEF" _ (alias_name Top "DEF" O_DEF eq_refl)). cbn [app].
      rewrite (def_braces _ "DEF" hs h (cat_s l) r (encode (cat_i l)) Hh B (fun sidx => runc_def_steps _ sidx _ _ _ _ R) Fi).
      rewrite encode_one, enc_def. cbn [List.length]. rewrite length_braces. f_equal. f_equal. lia.
  Qed.
End Bodies.

(* the words of the templates *)
Definition PX (v : bytes) : piece := pc_pushx v (P1 v).
Definition PD (b : byte) : piece := pc_pushd (b2z b) (P0 b).
Definition DUP := pc_op0 O_DUP "dup" "DUP".
Definition EQUAL := pc_op0 O_EQUAL "equal" "EQUAL".
Definition EQV := pc_op0 O_EQUAL_VERIFY "equal_verify" "EQUAL_VERIFY".
Definition CT := pc_op0 O_CHECK_TIMESTAMP "check_timestamp" "CHECK_TIMESTAMP".
Definition CTV := pc_op0 O_CHECK_TIMESTAMP_VERIFY "check_timestamp_verify" "CHECK_TIMESTAMP_VERIFY".
Definition NOT := pc_op0 O_NOT "not" "NOT".
Definition VERIFY := pc_op0 O_VERIFY "verify" "VERIFY".
Definition SPLIT := pc_op0 O_SPLIT "split" "SPLIT".
Definition TRUE := pc_op0 O_TRUE "true" "TRUE".
Definition FALSE := pc_op0 O_FALSE "false" "FALSE".
Definition SHA256 := pc_op0 O_SHA256 "sha256" "SHA256".
Definition EVAL := pc_op0 O_EVAL "eval" "EVAL".
Definition CSS := pc_op0 O_CHECK_SIG_STACK "check_sig_stack" "CHECK_SIG_STACK".
Definition SWAP2 := pc_op0 O_SWAP2 "swap2" "SWAP2".
Definition CS (fl : byte) : piece := pc_op1x O_CHECK_SIG "check_sig" "CHECK_SIG" fl.
Definition SHAKE (n : byte) : piece := pc_op1d O_SHAKE256 "shake256" "SHAKE256" n.
Definition CALL0 := pc_op1d O_CALL "call" "CALL" x00.

Section Words.
  Variable fl2 : Z -> Z.
  Variable ct : bytes -> res (option bytes).
  Hypothesis F : fl2_small fl2.

  Lemma ok_DUP : okstmt fl2 DUP. Proof. apply ok_op0; reflexivity. Qed.
  Lemma ok_EQUAL : okstmt fl2 EQUAL. Proof. apply ok_op0; reflexivity. Qed.
  Lemma ok_EQV : okstmt fl2 EQV. Proof. apply ok_op0; reflexivity. Qed.
  Lemma ok_CT : okstmt fl2 CT. Proof. apply ok_op0; reflexivity. Qed.
  Lemma ok_CTV : okstmt fl2 CTV. Proof. apply ok_op0; reflexivity. Qed.
  Lemma ok_NOT : okstmt fl2 NOT. Proof. apply ok_op0; reflexivity. Qed.
  Lemma ok_VERIFY : okstmt fl2 VERIFY. Proof. apply ok_op0; reflexivity. Qed.
  Lemma ok_SPLIT : okstmt fl2 SPLIT. Proof. apply ok_op0; reflexivity. Qed.
  Lemma ok_TRUE : okstmt fl2 TRUE. Proof. apply ok_op0; reflexivity. Qed.
  Lemma ok_FALSE : okstmt fl2 FALSE. Proof. apply ok_op0; reflexivity. Qed.
  Lemma ok_SHA256 : okstmt fl2 SHA256. Proof. apply ok_op0; reflexivity. Qed.
  Lemma ok_EVAL : okstmt fl2 EVAL. Proof. apply ok_op0; reflexivity. Qed.
  Lemma ok_CSS : okstmt fl2 CSS. Proof. apply ok_op0; reflexivity. Qed.
  Lemma ok_SWAP2 : okstmt fl2 SWAP2. Proof. apply ok_op0; reflexivity. Qed.
  Lemma ok_CS : forall fl, okstmt fl2 (CS fl).
  Proof. intros fl. apply ok_op1x; reflexivity. Qed.
  Lemma ok_SHAKE : forall n, (b2z n < 128)%Z -> okstmt fl2 (SHAKE n).
  Proof. intros n L. apply (ok_op1d _ F); [reflexivity..|exact L]. Qed.
  Lemma ok_CALL0 : okstmt fl2 CALL0.
  Proof. apply (ok_op1d _ F); reflexivity. Qed.
  Lemma ok_PX : forall v, p1_ok v -> okstmt fl2 (PX v).
  Proof. intros v H. apply ok_pushx, push_instr_p1, H. Qed.
  Lemma ok_PD : forall b, (b2z b <? 128)%Z = true -> okstmt fl2 (PD b).
  Proof. apply (ok_pushd0 _ F). Qed.
End Words.

(* The pieces of a template are checked one after the other: the words above by their lemmas, the other
   pieces by the lemma of their form, whose conditions on the constant parts are closed and hold by evaluation *)
Create HintDb pieces discriminated.
#[global] Hint Constants Opaque : pieces.
#[global] Hint Resolve ok_DUP ok_EQUAL ok_EQV ok_CT ok_CTV ok_NOT ok_VERIFY ok_SPLIT ok_TRUE ok_FALSE ok_SHA256 ok_EVAL
  ok_CSS ok_SWAP2 ok_CS ok_SHAKE ok_CALL0 ok_PX ok_PD ok_pushx ok_pushd1 ok_op0 ok_op1x ok_op1d ok_fix ok_ms ok_swap
  ok_setvar ok_loadvar ok_ifelse ok_ifh ok_of_body okbody_stmt okbody_comment ok_ifh_c ok_def_c
  oktoks_closed Forall_nil : pieces.
#[global] Hint Extern 1 (_ = _) => reflexivity : pieces.
#[global] Hint Extern 1 (_ < _)%Z => reflexivity : pieces.
Ltac pieces := repeat (apply Forall_cons; [solve [auto with pieces]|]); apply Forall_nil.
#[global] Hint Extern 1 (Forall _ (_ :: _)) => pieces : pieces.

(* lengths of encoded pieces *)
Ltac len_tac :=
  unfold p1_ok in *; repeat (progress (unfold encode, P1, P0, RC, WC, refund_arm; cbn [flat_map encode1 app List.length]));
  unfold len2; repeat (rewrite app_length; cbn [List.length]); rewrite ?length_Z_to_be; cbn [List.length]; lia.
(* well-formedness of an explicit program *)
Lemma wf_ifelse : forall b1 b2, wf_prog b1 = true -> wf_prog b2 = true ->
  (Z.of_nat (List.length (encode b1)) < 65536)%Z -> (Z.of_nat (List.length (encode b2)) < 65536)%Z ->
  wf (IIfElse b1 b2) = true.
Proof.
  intros b1 b2 W1 W2 L1 L2. cbn [wf]. fold (wf_prog b1) (wf_prog b2) (encode b1) (encode b2).
  rewrite W1, W2, (fits2_len _ L1), (fits2_len _ L2). reflexivity.
Qed.
Lemma wf_def : forall h b, wf_prog b = true -> (Z.of_nat (List.length (encode b)) < 65536)%Z -> wf (IDef h b) = true.
Proof. intros h b W L. cbn [wf]. fold (wf_prog b) (encode b). rewrite W, (fits2_len _ L). reflexivity. Qed.
Lemma wf_all : forall p, Forall (fun i => wf i = true) p -> wf_prog p = true.
Proof. intros p H. apply forallb_forall. apply Forall_forall. exact H. Qed.
Create HintDb wf discriminated.
#[global] Hint Constants Opaque : wf.
#[global] Hint Resolve p1_wf wf_ifelse wf_def : wf.
#[global] Hint Extern 2 (wf _ = true) => reflexivity : wf.
#[global] Hint Extern 3 (wf _ = true) => eapply push_instr_wf; eassumption : wf.
#[global] Hint Extern 3 (Z.of_nat _ < _)%Z => len_tac : wf.
Ltac wfp := apply wf_all; repeat (apply Forall_cons; [solve [auto with wf]|]); apply Forall_nil.
#[global] Hint Extern 1 (wf_prog _ = true) => wfp : wf.

(* state the goal on a list of pieces *)
Ltac by_pieces L :=
  lazymatch goal with
  | |- compile_text ?f ?c _ = Ok ?b =>
    let b' := lazymatch b with encode _ => b | _ => eval red in b end in
    lazymatch b' with
    | encode ?p => change (compile_text f c (text_of (cat_t L)) = Ok (encode p)); apply (compile_as f c L p); [pieces|reflexivity|wfp]
    end
  end.

Section Builders.
  Variable fl2 : Z -> Z.
  Variable ct : bytes -> res (option bytes).
  Hypothesis F : fl2_small fl2.

  Theorem single_sig_lock_compiles : forall pk fl, p1_ok pk ->
    compile_text fl2 ct (single_sig_lock_src pk fl) = Ok (single_sig_lock pk fl).
  Proof. intros pk fl H. by_pieces [PX pk; CS fl]. Qed.

  (* make_single_sig_lock2 after comptime: h = shake256(pubkey, 20) *)
  Theorem single_sig_lock2_ct_compiles : forall h fl, p1_ok h ->
    compile_text fl2 ct (single_sig_lock2_ct_src h fl) = Ok (single_sig_lock2 h fl).
  Proof. intros h fl H. by_pieces [DUP; SHAKE x14; PX h; EQV; CS fl]. Qed.

  (* texts made by a loop over a list *)
  Lemma loop_pieces : forall (A : Type) (f : A -> list piece) vs,
    Forall (fun a => Forall (okpiece fl2 ct) (f a) /\ wf_prog (cat_i (f a)) = true) vs ->
    Forall (okpiece fl2 ct) (flat_map f vs) /\ wf_prog (cat_i (flat_map f vs)) = true /\
    cat_t (flat_map f vs) = flat_map (fun a => cat_t (f a)) vs /\
    cat_i (flat_map f vs) = flat_map (fun a => cat_i (f a)) vs.
  Proof.
    induction 1 as [|a vs [H W] _ (A1 & A2 & A3 & A4)]; [repeat split; apply Forall_nil|]. cbn [flat_map].
    rewrite cat_t_app, cat_i_app, wf_prog_app, W, A2, A3, A4. repeat split. apply Forall_app. split; assumption.
  Qed.
  Lemma flat_map_one : forall (A B : Type) (g : A -> B) l, flat_map (fun a => [g a]) l = map g l.
  Proof. intros A B g l. induction l as [|a l IH]; [reflexivity|]. cbn [flat_map map app]. rewrite IH. reflexivity. Qed.

  Lemma pushes_pieces : forall vs is, Forall2 (fun v i => push_instr v = Some i) vs is ->
    exists l, Forall (okpiece fl2 ct) l /\ cat_t l = flat_map push_toks vs /\ cat_i l = is /\ wf_prog is = true.
  Proof.
    induction 1 as [|v i vs is H _ (l & A & B & C & W)].
    - exists []. repeat split. apply Forall_nil.
    - exists (pc_pushx v i :: l). split; [|split; [|split]].
      + apply Forall_cons; [apply ok_of_stmt; apply ok_pushx; exact H|exact A].
      + unfold cat_t in *. cbn [flat_map pt pc_pushx]. rewrite B. reflexivity.
      + unfold cat_i in *. cbn [flat_map pi pc_pushx app]. rewrite C. reflexivity.
      + rewrite wf_prog_cons, W, (push_instr_wf v i H). reflexivity.
  Qed.
  Theorem pushes_compile : forall vs is, Forall2 (fun v i => push_instr v = Some i) vs is ->
    compile_text fl2 ct (text_of (flat_map push_toks vs)) = Ok (encode is).
  Proof.
    intros vs is H. destruct (pushes_pieces vs is H) as (l & A & B & C & W).
    rewrite <- B. apply compile_as; assumption.
  Qed.

  Theorem single_sig_witness_compiles : forall sig, p1_ok sig ->
    compile_text fl2 ct (single_sig_witness_src sig) = Ok (single_sig_witness sig).
  Proof.
    intros sig H. apply (pushes_compile [sig] [P1 sig]). repeat constructor. apply push_instr_p1; exact H.
  Qed.
  Theorem single_sig_witness2_compiles : forall sig pk, p1_ok sig -> p1_ok pk ->
    compile_text fl2 ct (single_sig_witness2_src sig pk) = Ok (single_sig_witness2 sig pk).
  Proof.
    intros sig pk H1 H2. apply (pushes_compile [sig; pk] [P1 sig; P1 pk]).
    repeat constructor; apply push_instr_p1; assumption.
  Qed.
  Theorem delegate_key_witness_compiles : forall sig cert, p1_ok sig -> p1_ok cert ->
    compile_text fl2 ct (delegate_key_witness_src sig cert) = Ok (delegate_key_witness sig cert).
  Proof.
    intros sig cert H1 H2. apply (pushes_compile [sig; cert] [P1 sig; P1 cert]).
    repeat constructor; apply push_instr_p1; assumption.
  Qed.
  Theorem scripthash_witness_compiles : forall script, p1_ok script ->
    compile_text fl2 ct (scripthash_witness_src script) = Ok (encode [scripthash_witness script]).
  Proof.
    intros script H. apply (pushes_compile [script] [P1 script]). repeat constructor. apply push_instr_p1; exact H.
  Qed.
  (* values of any size (OP_PUSH0 for one byte, OP_PUSH2 from 256 bytes on): a 1-byte preimage, a long script *)
  Theorem htlc_witness_compiles : forall sig pre ip, p1_ok sig -> push_instr pre = Some ip ->
    compile_text fl2 ct (htlc_witness_src sig pre) = Ok (encode [P1 sig; ip]).
  Proof.
    intros sig pre ip H1 H2. apply (pushes_compile [sig; pre] [P1 sig; ip]).
    repeat constructor; [apply push_instr_p1|]; assumption.
  Qed.
  Theorem htlc2_witness_compiles : forall sig pk pre ip, p1_ok sig -> p1_ok pk -> push_instr pre = Some ip ->
    compile_text fl2 ct (htlc2_witness_src sig pk pre) = Ok (encode [P1 sig; P1 pk; ip]).
  Proof.
    intros sig pk pre ip H1 H2 H3. apply (pushes_compile [sig; pk; pre] [P1 sig; P1 pk; ip]).
    repeat constructor; try apply push_instr_p1; assumption.
  Qed.
  Theorem taproot_witness_scriptspend_compiles : forall script pk is, push_instr script = Some is -> p1_ok pk ->
    compile_text fl2 ct (taproot_witness_scriptspend_src script pk) = Ok (encode [is; P1 pk]).
  Proof.
    intros script pk is H1 H2. apply (pushes_compile [script; pk] [is; P1 pk]).
    repeat constructor; [|apply push_instr_p1]; assumption.
  Qed.
  Theorem adapter_witness_compiles : forall sa R, p1_ok sa -> p1_ok R ->
    compile_text fl2 ct (adapter_witness_src sa R) = Ok (encode [P1 sa; P1 R]).
  Proof.
    intros sa R H1 H2. apply (pushes_compile [sa; R] [P1 sa; P1 R]).
    repeat constructor; apply push_instr_p1; assumption.
  Qed.
  (* ScriptLeaf / ScriptNode.unlocking_script, one level: MerkleTree.push_bytes is encode1 of push_instr *)
  Theorem unlock_piece_compiles : forall commitment script cb sb,
    MerkleTree.push_bytes commitment = Some cb -> MerkleTree.push_bytes script = Some sb ->
    compile_text fl2 ct (unlock_piece_src commitment script) = Ok (cb ++ sb).
  Proof.
    intros cm sc cb sb H1 H2. unfold MerkleTree.push_bytes in *.
    destruct (push_instr cm) as [ic|] eqn:E1; [|discriminate H1].
    destruct (push_instr sc) as [isc|] eqn:E2; [|discriminate H2].
    injection H1 as <-. injection H2 as <-.
    replace (encode1 ic ++ encode1 isc) with (encode [ic; isc]) by (unfold encode; cbn [flat_map]; rewrite app_nil_r; reflexivity).
    apply (pushes_compile [cm; sc] [ic; isc]). repeat constructor; assumption.
  Qed.

  (* make_single_sig_witness(...) + Script.from_src('true' / 'false'):
     make_ptlc_witness (true), make_ptlc_refund_witness and make_graftroot_witness_keyspend (false) *)
  Theorem sig_then_compiles : forall sig flag, p1_ok sig ->
    compile_text fl2 ct (sig_then_src sig flag) = Ok (encode [P1 sig; IOp0 (if flag then O_TRUE else O_FALSE)]).
  Proof. intros sig [|] H; [by_pieces [PX sig; TRUE]|by_pieces [PX sig; FALSE]]. Qed.
  (* make_ptlc_witness with a tweak: push x{sig}{sigflags} true *)
  Theorem ptlc_witness_tweak_compiles : forall sig fl, p1_ok (sig ++ [fl]) ->
    compile_text fl2 ct (ptlc_witness_tweak_src sig fl) = Ok (encode [P1 (sig ++ [fl]); IOp0 O_TRUE]).
  Proof.
    intros sig fl H. unfold ptlc_witness_tweak_src. rewrite <- hexs_app. fold (X (sig ++ [fl])).
    by_pieces [PX (sig ++ [fl]); TRUE].
  Qed.

  (* timestamps: c = int_to_bytes(ts), of 2..255 bytes *)
  Theorem ts_after_lock_compiles : forall ts c ver, int_to_bytes fl2 ts = Some c -> p1_ok c ->
    compile_text fl2 ct (ts_after_lock_src ts ver) = Ok (ts_after_lock c ver).
  Proof.
    intros ts c [|] E H; [by_pieces [pc_pushd ts (P1 c); CTV]|by_pieces [pc_pushd ts (P1 c); CT]].
  Qed.
  Theorem ts_before_lock_compiles : forall ts c ver, int_to_bytes fl2 ts = Some c -> p1_ok c ->
    compile_text fl2 ct (ts_before_lock_src ts ver) = Ok (ts_before_lock c ver).
  Proof.
    intros ts c [|] E H; [by_pieces [pc_pushd ts (P1 c); CT; NOT; VERIFY]|by_pieces [pc_pushd ts (P1 c); CT; NOT]].
  Qed.
  (* the joined text of make_timestamp_between_lock compiles to the joined bytes *)
  Theorem ts_between_lock_compiles : forall t1 t2 c1 c2 ver,
    int_to_bytes fl2 t1 = Some c1 -> p1_ok c1 -> int_to_bytes fl2 t2 = Some c2 -> p1_ok c2 ->
    compile_text fl2 ct (ts_between_lock_src t1 t2 ver) = Ok (ts_between_lock c1 c2 ver).
  Proof.
    intros t1 t2 c1 c2 ver E1 H1 E2 H2. unfold ts_between_lock, ts_after_lock, ts_before_lock.
    rewrite <- encode_app. destruct ver.
    - by_pieces [pc_pushd t1 (P1 c1); CTV; pc_pushd t2 (P1 c2); CT; NOT; VERIFY].
    - by_pieces [pc_pushd t1 (P1 c1); CTV; pc_pushd t2 (P1 c2); CT; NOT].
  Qed.

  (* multisig: m = quorum_size, n = len(pubkeys) as bytes *)
  Theorem multisig_lock_compiles : forall pks fl m, Forall p1_ok pks -> (List.length pks < 256)%nat ->
    compile_text fl2 ct (multisig_lock_src pks fl (b2z m)) = Ok (multisig_lock pks fl m).
  Proof.
    intros pks fl m H L. set (n := z2b (Z.of_nat (List.length pks))).
    assert (En : Z.of_nat (List.length pks) = b2z n).
    { unfold n. rewrite b2z_z2b. symmetry. apply Z.mod_small. lia. }
    destruct (loop_pieces _ (fun v => [PX v]) pks) as (A & W & B & C).
    { revert H. apply Forall_impl. intros v Hv. split; [pieces|wfp]. }
    change (flat_map (fun a => cat_i [PX a]) pks) with (flat_map (fun a => [P1 a]) pks) in C.
    rewrite (flat_map_one _ _ P1) in C.
    unfold multisig_lock_src, multisig_lock_toks, multisig_lock. rewrite En, z2b_b2z.
    change (flat_map push_toks pks ++ ["check_multisig"; X [fl]; D (b2z m); D (b2z n)])
      with (flat_map (fun v => cat_t [PX v]) pks ++ cat_t [pc_ms fl m n]).
    rewrite <- B, <- cat_t_app. apply compile_as.
    - apply Forall_app. split; [exact A|pieces].
    - rewrite cat_i_app, C. reflexivity.
    - rewrite <- C, wf_prog_app, W. reflexivity.
  Qed.

  (* scripthash, after comptime: h = shake256(script, n) *)
  Theorem scripthash_lock_ct_compiles : forall h n, p1_ok h -> (b2z n < 128)%Z ->
    compile_text fl2 ct (scripthash_lock_ct_src h (b2z n)) = Ok (scripthash_lock h n).
  Proof. intros h n H L. by_pieces [DUP; SHAKE n; PX h; EQV; EVAL]. Qed.

  (* PTLC / HTLC: c = int_to_bytes(int(time()) + timeout) *)
  Definition ARMS rcv ts c refund := pc_ifelse [PX rcv] [pc_pushd ts (P1 c); CTV; PX refund].
  Lemma ok_ARMS : forall rcv ts c refund, p1_ok rcv -> int_to_bytes fl2 ts = Some c -> p1_ok c -> p1_ok refund ->
    okstmt fl2 (ARMS rcv ts c refund).
  Proof. intros rcv ts c refund H1 E H2 H3. apply ok_ifelse; pieces. Qed.
  Hint Resolve ok_ARMS : pieces.

  Theorem ptlc_lock_compiles : forall rcv ts c refund fl,
    p1_ok rcv -> int_to_bytes fl2 ts = Some c -> p1_ok c -> p1_ok refund ->
    compile_text fl2 ct (ptlc_lock_src rcv ts refund fl) = Ok (ptlc_lock rcv c refund fl).
  Proof. intros rcv ts c refund fl H1 E H2 H3. by_pieces [ARMS rcv ts c refund; CS fl]. Qed.
  Theorem htlc_sha256_lock_compiles : forall digest rcv ts c refund fl,
    p1_ok digest -> p1_ok rcv -> int_to_bytes fl2 ts = Some c -> p1_ok c -> p1_ok refund ->
    compile_text fl2 ct (htlc_sha256_lock_src digest rcv ts refund fl) = Ok (htlc_sha256_lock digest rcv c refund fl).
  Proof.
    intros digest rcv ts c refund fl H0 H1 E H2 H3. by_pieces [SHA256; PX digest; EQUAL; ARMS rcv ts c refund; CS fl].
  Qed.
  Theorem htlc_shake256_lock_compiles : forall n digest rcv ts c refund fl, (b2z n < 128)%Z ->
    p1_ok digest -> p1_ok rcv -> int_to_bytes fl2 ts = Some c -> p1_ok c -> p1_ok refund ->
    compile_text fl2 ct (htlc_shake256_lock_src (b2z n) digest rcv ts refund fl)
    = Ok (htlc_shake256_lock n digest rcv c refund fl).
  Proof.
    intros n digest rcv ts c refund fl L H0 H1 E H2 H3. by_pieces [SHAKE n; PX digest; EQUAL; ARMS rcv ts c refund; CS fl].
  Qed.

  (* htlc2, after comptime: hr = shake256(receiver, k), hf = shake256(refund, k) *)
  Definition ARMS2 k hr ts c hf := pc_ifelse [DUP; SHAKE k; PX hr] [pc_pushd ts (P1 c); CTV; DUP; SHAKE k; PX hf].
  Lemma ok_ARMS2 : forall k hr ts c hf, (b2z k < 128)%Z -> p1_ok hr -> int_to_bytes fl2 ts = Some c -> p1_ok c ->
    p1_ok hf -> okstmt fl2 (ARMS2 k hr ts c hf).
  Proof. intros k hr ts c hf L H1 E H2 H3. apply ok_ifelse; pieces. Qed.
  Hint Resolve ok_ARMS2 : pieces.
  Theorem htlc2_sha256_lock_ct_compiles : forall digest hr ts c hf fl,
    p1_ok digest -> p1_ok hr -> int_to_bytes fl2 ts = Some c -> p1_ok c -> p1_ok hf ->
    compile_text fl2 ct (htlc2_sha256_lock_ct_src digest hr ts hf fl) = Ok (htlc2_sha256_lock digest hr c hf fl).
  Proof.
    intros digest hr ts c hf fl H0 H1 E H2 H3. unfold htlc2_sha256_lock.
    by_pieces [SHA256; PX digest; EQUAL; ARMS2 x14 hr ts c hf; EQV; CS fl].
  Qed.
  Theorem htlc2_shake256_lock_ct_compiles : forall n digest hr ts c hf fl, (b2z n < 128)%Z ->
    p1_ok digest -> p1_ok hr -> int_to_bytes fl2 ts = Some c -> p1_ok c -> p1_ok hf ->
    compile_text fl2 ct (htlc2_shake256_lock_ct_src (b2z n) digest hr ts hf fl)
    = Ok (htlc2_shake256_lock n digest hr c hf fl).
  Proof.
    intros n digest hr ts c hf fl L H0 H1 E H2 H3. unfold htlc2_shake256_lock.
    by_pieces [SHAKE n; PX digest; EQUAL; ARMS2 n hr ts c hf; EQV; CS fl].
  Qed.

  Theorem taproot_lock_compiles : forall root fl, p1_ok root ->
    compile_text fl2 ct (taproot_lock_src root fl) = Ok (taproot_lock root fl).
  Proof. intros root fl H. by_pieces [PX root; pc_op1x O_TAPROOT "tr" "TR" fl]. Qed.

  Theorem merkle_lock_compiles : forall root, List.length root = 32%nat ->
    compile_text fl2 ct (merkle_lock_src root) = Ok (merkle_lock root).
  Proof.
    intros root H.
    assert (W : wf (IFix O_MERKLEVAL root) = true) by (cbn [wf shape_of fix_len]; unfold blen; rewrite H; reflexivity).
    by_pieces [pc_fix O_MERKLEVAL "OP_MERKLEVAL" root].
  Qed.

  Theorem adapter_decrypt_compiles : forall t, p1_ok t ->
    compile_text fl2 ct (adapter_decrypt_src t) = Ok (adapter_decrypt t).
  Proof.
    intros t H. by_pieces [PX t; pc_op0 O_DECRYPT_ADAPTER_SIG "decrypt_adapter_sig" "DECRYPT_ADAPTER_SIG"].
  Qed.
  Theorem adapter_check_lock_compiles : forall fl tweak_point pk, p1_ok tweak_point -> p1_ok pk ->
    compile_text fl2 ct (adapter_check_lock_src fl tweak_point pk) = Ok (adapter_check_lock fl tweak_point pk).
  Proof.
    intros fl T pk H1 H2.
    by_pieces [pc_comment (W "required push by unlocking script: signature adapter sa")
                          (W "REQUIRED PUSH BY UNLOCKING SCRIPT: SIGNATURE ADAPTER SA");
               pc_comment (W "required push by unlocking script: nonce point R")
                          (W "REQUIRED PUSH BY UNLOCKING SCRIPT: NONCE POINT R");
               pc_op1x O_GET_MESSAGE "get_message" "GET_MESSAGE" fl; PX T; PX pk;
               pc_op0 O_CHECK_ADAPTER_SIG "check_adapter_sig" "CHECK_ADAPTER_SIG"].
  Qed.
  (* script2 of make_adapter_locks_pub: a comment, then the text of make_single_sig_lock *)
  Theorem adapter_sig_lock_compiles : forall pk fl, p1_ok pk ->
    compile_text fl2 ct (adapter_sig_lock_src pk fl) = Ok (single_sig_lock pk fl).
  Proof.
    intros pk fl H.
    by_pieces [pc_comment (W "required push by unlocking script: decrypted signature")
                          (W "REQUIRED PUSH BY UNLOCKING SCRIPT: DECRYPTED SIGNATURE");
               PX pk; CS fl].
  Qed.

  (* _make_graftap_committed_script: dup swap d1 d2 push x<pk> check_sig_stack verify eval *)
  Theorem graftap_committed_compiles : forall pk, p1_ok pk ->
    compile_text fl2 ct (graftap_committed_src pk)
    = Ok (encode [IOp0 O_DUP; ISwap x01 x02; P1 pk; IOp0 O_CHECK_SIG_STACK; IOp0 O_VERIFY; IOp0 O_EVAL]).
  Proof. intros pk H. by_pieces [DUP; pc_swap x01 x02; PX pk; CSS; VERIFY; EVAL]. Qed.

  Notation SET k := (pc_setvar k).
  Notation GET k := (pc_loadvar k).

  Theorem delegate_key_lock_compiles : forall root fl, p1_ok root ->
    compile_text fl2 ct (delegate_key_lock_src root fl) = Ok (delegate_key_lock root fl).
  Proof.
    intros root fl H.
    by_pieces
      [pc_comment (W "required push: signature from delegate key") (W "REQUIRED PUSH: SIGNATURE FROM DELEGATE KEY");
       pc_comment (W "required push: cert of form: delegate public key + begin ts + end ts + can + sig")
                  (W "REQUIRED PUSH: CERT OF FORM: DELEGATE PUBLIC KEY + BEGIN TS + END TS + CAN + SIG");
       PD x29; SPLIT; SET "s"; pc_comment ["sig"] ["SIG"];
       DUP;
       PD x28; SPLIT; pc_op0 O_POP0 "pop0" "POP0"; pc_comment ["can"] ["CAN"];
       PD x24; SPLIT; SET "e"; pc_comment (W "end ts") (W "END TS");
       PD x20; SPLIT; SET "b"; SET "d"; pc_comment (W "begin ts and delegate pubkey") (W "BEGIN TS AND DELEGATE PUBKEY");
       pc_comment (W "prove the timestamp is within the cert bounds") (W "PROVE THE TIMESTAMP IS WITHIN THE CERT BOUNDS");
       pc_comment (W "val s""timestamp"" dup @b less verify") (W "VAL s""timestamp"" DUP @b LESS VERIFY");
       pc_comment (W "@e swap2 less verify") (W "@e SWAP2 LESS VERIFY");
       GET "b"; CTV; GET "e"; CT; NOT; VERIFY;
       GET "s"; SWAP2; PX root; CSS; VERIFY;
       GET "d"; CS fl].
  Qed.

  (* make_delegate_key_chain_witness: push sig ; false ; push c0 ; (true ; push c)* *)
  Theorem delegate_key_chain_witness_compiles : forall sig c0 cs, p1_ok sig -> p1_ok c0 -> Forall p1_ok cs ->
    compile_text fl2 ct (delegate_key_chain_witness_src sig c0 cs) = Ok (delegate_key_chain_witness sig c0 cs).
  Proof.
    intros sig c0 cs H1 H2 H3.
    destruct (loop_pieces _ (fun c => [TRUE; PX c]) cs) as (A & W & B & C).
    { revert H3. apply Forall_impl. intros v Hv. split; [pieces|wfp]. }
    unfold delegate_key_chain_witness_src, delegate_key_chain_witness_toks, delegate_key_chain_witness.
    change (push_toks sig ++ "false" :: push_toks c0 ++ flat_map (fun c => "true" :: push_toks c) cs)
      with (cat_t [PX sig; FALSE; PX c0] ++ flat_map (fun c => cat_t [TRUE; PX c]) cs).
    rewrite <- B, <- cat_t_app. apply compile_as.
    - apply Forall_app. split; [pieces|exact A].
    - rewrite cat_i_app, C. reflexivity.
    - change (wf_prog ([P1 sig; IOp0 O_FALSE; P1 c0] ++ flat_map (fun c => cat_i [TRUE; PX c]) cs) = true).
      rewrite <- C, wf_prog_app, W, andb_true_r. wfp.
  Qed.

  (* comments inside blocks: non-native taproot, the delegation chain *)
  Theorem nonnative_taproot_lock_compiles : forall root fl, p1_ok root ->
    compile_text fl2 ct (nonnative_taproot_lock_src root fl) = Ok (nonnative_taproot_lock root fl).
  Proof.
    intros root fl H. unfold nonnative_taproot_lock, nn_def, nn_script_arm, nn_key_arm.
    by_pieces
      [pc_def x00 "0" [PX root];
       pc_ifh [DUP; pc_op0 O_SIZE "size" "SIZE"; PD x20; EQUAL]
              [pc_comment (W "stack: script, internal pubkey") (W "STACK: SCRIPT, INTERNAL PUBKEY");
               DUP; pc_swap x00 x02; DUP; pc_swap x01 x03; SHA256; pc_op0 O_CONCAT "cat" "CAT"; SHA256;
               pc_op1x O_CLAMP_SCALAR "clamp_scalar" "CLAMP_SCALAR" x00;
               pc_op0 O_DERIVE_POINT "derive_point" "DERIVE_POINT";
               pc_op1d O_ADD_POINTS "add_points" "ADD_POINTS" x02; CALL0;
               pc_op0 O_EQUAL_VERIFY "eqv" "EQV"; EVAL]
              [pc_comment (W "stack: signature") (W "STACK: SIGNATURE"); CALL0; CS fl]].
  Qed.

  Theorem delegate_key_chain_lock_compiles : forall root fl, p1_ok root ->
    compile_text fl2 ct (delegate_key_chain_lock_src root fl) = Ok (delegate_key_chain_lock root fl).
  Proof.
    intros root fl H. unfold delegate_key_chain_lock, chain_body, chain_call_arm, chain_sig_arm.
    by_pieces
      [pc_def x00 "0"
         [pc_comment (W "required push: signature from delegate key or additional cert")
                     (W "REQUIRED PUSH: SIGNATURE FROM DELEGATE KEY OR ADDITIONAL CERT");
          pc_comment (W "required push: cert of form: delegate public key + begin ts + end ts ts + can + sig")
                     (W "REQUIRED PUSH: CERT OF FORM: DELEGATE PUBLIC KEY + BEGIN TS + END TS TS + CAN + SIG");
          pc_comment (W "required push: authorizing pubkey") (W "REQUIRED PUSH: AUTHORIZING PUBKEY");
          SET "r"; pc_comment (W "authorizing pubkey") (W "AUTHORIZING PUBKEY");
          PD x29; SPLIT; SET "s"; pc_comment ["sig"] ["SIG"];
          DUP;
          PD x28; SPLIT; SET "c"; pc_comment (W "can delegate further") (W "CAN DELEGATE FURTHER");
          PD x24; SPLIT; SET "e"; pc_comment (W "end ts ts") (W "END TS TS");
          PD x20; SPLIT; SET "b"; SET "d"; pc_comment (W "begin ts and delegate pubkey") (W "BEGIN TS AND DELEGATE PUBKEY");
          pc_comment (W "prove the timestamp is within the cert bounds") (W "PROVE THE TIMESTAMP IS WITHIN THE CERT BOUNDS");
          pc_comment (W "val s""timestamp"" dup @b less verify") (W "VAL s""timestamp"" DUP @b LESS VERIFY");
          pc_comment (W "@e swap2 less verify") (W "@e SWAP2 LESS VERIFY");
          GET "b"; CTV; GET "e"; CT; NOT; VERIFY;
          GET "s"; SWAP2; GET "r"; CSS; VERIFY;
          pc_ifh [GET "c"; pc_op0 O_AND "and" "AND"] [GET "d"; CALL0] [GET "d"; CS fl]];
       PX root; CALL0].
  Qed.
  (* The templates as written, with their run-time blocks "~! { push x<v> shake256 d<k> }":
     parse_comptime assembles the block, runs it (the parameter ct) and puts x<hex of the top stack item>
     in its place: whenever ct of the assembled block returns the digest, the text as written compiles to
     the same bytes as the ..._ct_ text (AssemblerProofs.comptime_run_rewrite) *)

  (* the byte code of the block  push x<v> shake256 d<k>  (i: the push of v) *)
  Definition hash_block_code (i : instr) (k : byte) : bytes := encode [i; IOp1 O_SHAKE256 k].

  (* an element of a text as written: a piece, or a block whose run leaves h *)
  Inductive wel := Plain (x : piece) | Block (v : bytes) (i : instr) (k : byte) (h : bytes).
  Definition written (e : wel) : piece :=
    match e with
    | Plain x => x
    | Block v i k h => mk_piece [] ("~!" :: "{" :: cat_t [pc_pushx v i; SHAKE k] ++ ["}"])
                                   ("~!" :: "{" :: cat_s [pc_pushx v i; SHAKE k] ++ ["}"])
    end.
  Definition computed (e : wel) : piece :=
    match e with Plain x => x | Block v i k h => pc_raw [X h] [X h] end.
  Definition okwel (e : wel) : Prop :=
    match e with
    | Plain x => oktoks x
    | Block v i k h => push_instr v = Some i /\ (b2z k < 128)%Z /\ ct (hash_block_code i k) = Ok (Some h)
    end.

  Hint Extern 3 (oktoks _) => apply (stmt_toks fl2) : pieces.

  Lemma written_toks : forall l, Forall okwel l -> Forall oktoks (map written l).
  Proof.
    intros l H. apply Forall_map. revert H. apply Forall_impl. intros [x|v i k h]; [exact (fun H => H)|].
    intros (P & L & _). apply (oktoks_cat [pc_raw ["~!"; "{"] ["~!"; "{"]; pc_pushx v i; SHAKE k; pc_raw ["}"] ["}"]]). pieces.
  Qed.

  Lemma written_ctsrc : forall l, Forall okwel l -> existsb bad_symbol (cat_s (map computed l)) = false ->
    ctsrc fl2 ct (cat_s (map written l)) (cat_s (map computed l)).
  Proof.
    induction 1 as [|e l He _ IH]; intros U; [apply cs_plain; reflexivity|].
    cbn [map] in *. change (cat_s (?x :: ?r)) with (ps x ++ cat_s r) in *.
    rewrite existsb_app in U. apply orb_false_elim in U as [U1 U2]. destruct e as [x|v i k h].
    - apply ctsrc_app_plain; [exact U1|apply IH; exact U2].
    - destruct He as (P & L & C). cbn [written computed ps pc_raw app]. rewrite <- app_assoc.
      apply (cs_blk fl2 ct true [] [i; IOp1 O_SHAKE256 k] _ (Some h)); [reflexivity| | |exact C|apply IH; exact U2].
      + apply (stmts_seq fl2 [pc_pushx v i; SHAKE k]). pieces.
      + wfp.
  Qed.

  Theorem compile_written : forall l l' p, Forall okwel l -> cat_s (map computed l) = cat_s l' ->
    Forall (okpiece fl2 ct) l' -> cat_i l' = p -> wf_prog p = true ->
    compile_text fl2 ct (text_of (cat_t (map written l))) = Ok (encode p).
  Proof.
    intros l l' p H E H' <- W. pose proof (written_toks l H) as T.
    unfold compile_text. rewrite (symbols_text_of _ (toks_good _ T)), (toks_syms _ T). cbn [rbind].
    apply (comptime_run_rewrite fl2 ct _ (cat_s l')); [|apply (pieces_loop fl2 ct l' H' W)].
    rewrite <- E. apply written_ctsrc; [exact H|]. rewrite E. apply (pieces_bad fl2 ct l' H' W).
  Qed.

  Ltac by_written L L' :=
    lazymatch goal with
    | |- compile_text ?f ?c _ = Ok ?b =>
      let b' := lazymatch b with encode _ => b | _ => eval red in b end in
      lazymatch b' with
      | encode ?p => change (compile_text f c (text_of (cat_t (map written L))) = Ok (encode p));
                     apply (compile_written L L' p); [pieces|reflexivity|pieces|reflexivity|wfp]
      end
    end.
  Hint Extern 1 (okwel (Plain _)) => cbn [okwel] : pieces.
  Hint Extern 1 (okwel (Block _ _ _ _)) => cbn [okwel]; repeat split : pieces.
  Hint Resolve push_instr_p1 : pieces.

  (* make_single_sig_lock2 *)
  Theorem single_sig_lock2_compiles : forall pk h fl, p1_ok pk -> p1_ok h ->
    ct (hash_block_code (P1 pk) x14) = Ok (Some h) ->
    compile_text fl2 ct (single_sig_lock2_src pk fl) = Ok (single_sig_lock2 h fl).
  Proof.
    intros pk h fl Hk Hh C.
    by_written [Plain DUP; Plain (SHAKE x14); Plain (pc_raw ["push"] ["PUSH"]); Block pk (P1 pk) x14 h;
                Plain EQV; Plain (CS fl)]
               [DUP; SHAKE x14; PX h; EQV; CS fl].
  Qed.

  (* make_scripthash_lock *)
  Theorem scripthash_lock_compiles : forall script i h n, push_instr script = Some i -> p1_ok h -> (b2z n < 128)%Z ->
    ct (hash_block_code i n) = Ok (Some h) ->
    compile_text fl2 ct (scripthash_lock_src script (b2z n)) = Ok (scripthash_lock h n).
  Proof.
    intros script i h n Pi Hh Ln C.
    by_written [Plain DUP; Plain (SHAKE n); Plain (pc_raw ["push"] ["PUSH"]); Block script i n h;
                Plain EQV; Plain EVAL]
               [DUP; SHAKE n; PX h; EQV; EVAL].
  Qed.

  (* make_htlc2_sha256_lock / make_htlc2_shake256_lock: two run-time blocks, in the IF and in the ELSE body *)
  Lemma htlc2_written : forall i t s k digest rcv hr ts c refund hf fl,
    let first := mk_piece [i] t s in okstmt fl2 first -> wf i = true -> (b2z k < 128)%Z ->
    p1_ok digest -> p1_ok rcv -> p1_ok hr -> int_to_bytes fl2 ts = Some c -> p1_ok c -> p1_ok refund -> p1_ok hf ->
    ct (hash_block_code (P1 rcv) k) = Ok (Some hr) -> ct (hash_block_code (P1 refund) k) = Ok (Some hf) ->
    compile_text fl2 ct (text_of (t ++ htlc2_tail_toks (b2z k) digest rcv ts refund fl)) =
    Ok (htlc2_lock i k digest hr c hf fl).
  Proof.
    intros i t s k digest rcv hr ts c refund hf fl first OF Wi Lk H0 Hr Hhr E Hc Hf Hhf C1 C2.
    unfold htlc2_lock.
    by_written [Plain first; Plain (PX digest); Plain EQUAL; Plain (pc_raw ["if"; "{"] ["IF"; "{"]); Plain DUP;
                Plain (SHAKE k); Plain (pc_raw ["push"] ["PUSH"]); Block rcv (P1 rcv) k hr;
                Plain (pc_raw ["}"; "else"; "{"] ["}"; "ELSE"; "{"]); Plain (pc_pushd ts (P1 c)); Plain CTV; Plain DUP;
                Plain (SHAKE k); Plain (pc_raw ["push"] ["PUSH"]); Block refund (P1 refund) k hf;
                Plain (pc_raw ["}"] ["}"]); Plain EQV; Plain (CS fl)]
               [first; PX digest; EQUAL; ARMS2 k hr ts c hf; EQV; CS fl].
  Qed.

  Theorem htlc2_sha256_lock_compiles : forall digest rcv hr ts c refund hf fl,
    p1_ok digest -> p1_ok rcv -> p1_ok hr -> int_to_bytes fl2 ts = Some c -> p1_ok c -> p1_ok refund -> p1_ok hf ->
    ct (hash_block_code (P1 rcv) x14) = Ok (Some hr) -> ct (hash_block_code (P1 refund) x14) = Ok (Some hf) ->
    compile_text fl2 ct (htlc2_sha256_lock_src digest rcv ts refund fl) = Ok (htlc2_sha256_lock digest hr c hf fl).
  Proof.
    intros digest rcv hr ts c refund hf fl H0 Hr Hhr E Hc Hf Hhf C1 C2.
    apply (htlc2_written _ _ _ x14 digest rcv hr ts c refund hf fl (ok_SHA256 fl2)); try assumption; reflexivity.
  Qed.

  Theorem htlc2_shake256_lock_compiles : forall n digest rcv hr ts c refund hf fl, (b2z n < 128)%Z ->
    p1_ok digest -> p1_ok rcv -> p1_ok hr -> int_to_bytes fl2 ts = Some c -> p1_ok c -> p1_ok refund -> p1_ok hf ->
    ct (hash_block_code (P1 rcv) n) = Ok (Some hr) -> ct (hash_block_code (P1 refund) n) = Ok (Some hf) ->
    compile_text fl2 ct (htlc2_shake256_lock_src (b2z n) digest rcv ts refund fl)
    = Ok (htlc2_shake256_lock n digest hr c hf fl).
  Proof.
    intros n digest rcv hr ts c refund hf fl L H0 Hr Hhr E Hc Hf Hhf C1 C2.
    apply (htlc2_written _ _ _ n digest rcv hr ts c refund hf fl (ok_SHAKE fl2 F n L)); try assumption; reflexivity.
  Qed.

End Builders.


(* the layout of the real text (newlines, indentation) does not matter *)
Theorem any_layout : forall fl2 ct toks text, Forall goodtok toks -> rend toks text -> all_ascii text = true ->
  compile_text fl2 ct text = compile_text fl2 ct (text_of toks).
Proof.
  intros fl2 ct toks text G R A. destruct (rend_toks toks G) as [R' A'].
  apply (proj2 (whitespace_irrelevant toks text (text_of toks) R R' A A')).
Qed.

(* The model texts are the texts of the real builders.  Generated by running /repo/tapescript/tools.py
   (time() pinned to 1700000000.7): get_symbols of the model text = get_symbols of the real .src (newlines
   replaced by blanks), and compile_text of the model text = the real .bytes.  For the ..._ct texts the
   symbols are parsing.parse_comptime(parsing.get_symbols(real .src)); for the texts outside the model
   (..._unm) the result is Unm. *)

Definition B (s : string) : bytes := match unhex s with Some b => b | None => [] end.
Definition chex (r : res bytes) : string := match r with Ok b => hex b | Err => "Err" | Unm => "Unm" end.

Example ex_single_sig_lock_1 :
  get_symbols (single_sig_lock_src (B "03a107bff3ce10be1d70dd18e74bc09967e4d6309ba50d5f1ddc8664125531b8") (z2b 0)) = get_symbols "push x03a107bff3ce10be1d70dd18e74bc09967e4d6309ba50d5f1ddc8664125531b8 check_sig x00" /\
  chex (compile_text fl2_exact ct0 (single_sig_lock_src (B "03a107bff3ce10be1d70dd18e74bc09967e4d6309ba50d5f1ddc8664125531b8") (z2b 0))) = "032003a107bff3ce10be1d70dd18e74bc09967e4d6309ba50d5f1ddc8664125531b82300".
Proof. split; vm_compute; reflexivity. Qed.

Example ex_single_sig_lock2_ct_1 :
  get_symbols (single_sig_lock2_ct_src (B "8002cdb58aa33b79afb57ec00c1b8081962bf2c2") (z2b 0)) = Ok ["DUP"; "SHAKE256"; "d20"; "PUSH"; "x8002cdb58aa33b79afb57ec00c1b8081962bf2c2"; "EQUAL_VERIFY"; "CHECK_SIG"; "x00"] /\
  chex (compile_text fl2_exact ct0 (single_sig_lock2_ct_src (B "8002cdb58aa33b79afb57ec00c1b8081962bf2c2") (z2b 0))) = "1d1f1403148002cdb58aa33b79afb57ec00c1b8081962bf2c2222300".
Proof. split; vm_compute; reflexivity. Qed.

Example ex_single_sig_lock2_unm_1 :
  get_symbols (single_sig_lock2_src (B "03a107bff3ce10be1d70dd18e74bc09967e4d6309ba50d5f1ddc8664125531b8") (z2b 0)) = get_symbols "         dup shake256 d20         push ~! { push x03a107bff3ce10be1d70dd18e74bc09967e4d6309ba50d5f1ddc8664125531b8 shake256 d20 }         equal_verify         check_sig x00     " /\
  compile_text fl2_exact ct0 (single_sig_lock2_src (B "03a107bff3ce10be1d70dd18e74bc09967e4d6309ba50d5f1ddc8664125531b8") (z2b 0)) = Unm.
Proof. split; vm_compute; reflexivity. Qed.

Example ex_single_sig_witness_1 :
  get_symbols (single_sig_witness_src (B "c9e88a06c88855aa75f90bcfdc5a87b76a99c0d2044114b8931e72089e7b8c7ac6b4a9776b57326f2d781aa8da8821fe6b4c7296fde0b63ca24d7f6343ac6a0a")) = get_symbols "push xc9e88a06c88855aa75f90bcfdc5a87b76a99c0d2044114b8931e72089e7b8c7ac6b4a9776b57326f2d781aa8da8821fe6b4c7296fde0b63ca24d7f6343ac6a0a" /\
  chex (compile_text fl2_exact ct0 (single_sig_witness_src (B "c9e88a06c88855aa75f90bcfdc5a87b76a99c0d2044114b8931e72089e7b8c7ac6b4a9776b57326f2d781aa8da8821fe6b4c7296fde0b63ca24d7f6343ac6a0a"))) = "0340c9e88a06c88855aa75f90bcfdc5a87b76a99c0d2044114b8931e72089e7b8c7ac6b4a9776b57326f2d781aa8da8821fe6b4c7296fde0b63ca24d7f6343ac6a0a".
Proof. split; vm_compute; reflexivity. Qed.

Example ex_single_sig_witness2_1 :
  get_symbols (single_sig_witness2_src (B "c9e88a06c88855aa75f90bcfdc5a87b76a99c0d2044114b8931e72089e7b8c7ac6b4a9776b57326f2d781aa8da8821fe6b4c7296fde0b63ca24d7f6343ac6a0a") (B "03a107bff3ce10be1d70dd18e74bc09967e4d6309ba50d5f1ddc8664125531b8")) = get_symbols "push xc9e88a06c88855aa75f90bcfdc5a87b76a99c0d2044114b8931e72089e7b8c7ac6b4a9776b57326f2d781aa8da8821fe6b4c7296fde0b63ca24d7f6343ac6a0a push x03a107bff3ce10be1d70dd18e74bc09967e4d6309ba50d5f1ddc8664125531b8" /\
  chex (compile_text fl2_exact ct0 (single_sig_witness2_src (B "c9e88a06c88855aa75f90bcfdc5a87b76a99c0d2044114b8931e72089e7b8c7ac6b4a9776b57326f2d781aa8da8821fe6b4c7296fde0b63ca24d7f6343ac6a0a") (B "03a107bff3ce10be1d70dd18e74bc09967e4d6309ba50d5f1ddc8664125531b8"))) = "0340c9e88a06c88855aa75f90bcfdc5a87b76a99c0d2044114b8931e72089e7b8c7ac6b4a9776b57326f2d781aa8da8821fe6b4c7296fde0b63ca24d7f6343ac6a0a032003a107bff3ce10be1d70dd18e74bc09967e4d6309ba50d5f1ddc8664125531b8".
Proof. split; vm_compute; reflexivity. Qed.

Example ex_single_sig_lock_2 :
  get_symbols (single_sig_lock_src (B "79b5562e8fe654f94078b112e8a98ba7901f853ae695bed7e0e3910bad049664") (z2b 161)) = get_symbols "push x79b5562e8fe654f94078b112e8a98ba7901f853ae695bed7e0e3910bad049664 check_sig xa1" /\
  chex (compile_text fl2_exact ct0 (single_sig_lock_src (B "79b5562e8fe654f94078b112e8a98ba7901f853ae695bed7e0e3910bad049664") (z2b 161))) = "032079b5562e8fe654f94078b112e8a98ba7901f853ae695bed7e0e3910bad04966423a1".
Proof. split; vm_compute; reflexivity. Qed.

Example ex_single_sig_lock2_ct_2 :
  get_symbols (single_sig_lock2_ct_src (B "c71c0c5245c23e045fb1ab8b6011e2d77dff6ac6") (z2b 161)) = Ok ["DUP"; "SHAKE256"; "d20"; "PUSH"; "xc71c0c5245c23e045fb1ab8b6011e2d77dff6ac6"; "EQUAL_VERIFY"; "CHECK_SIG"; "xa1"] /\
  chex (compile_text fl2_exact ct0 (single_sig_lock2_ct_src (B "c71c0c5245c23e045fb1ab8b6011e2d77dff6ac6") (z2b 161))) = "1d1f140314c71c0c5245c23e045fb1ab8b6011e2d77dff6ac62223a1".
Proof. split; vm_compute; reflexivity. Qed.

Example ex_single_sig_lock2_unm_2 :
  get_symbols (single_sig_lock2_src (B "79b5562e8fe654f94078b112e8a98ba7901f853ae695bed7e0e3910bad049664") (z2b 161)) = get_symbols "         dup shake256 d20         push ~! { push x79b5562e8fe654f94078b112e8a98ba7901f853ae695bed7e0e3910bad049664 shake256 d20 }         equal_verify         check_sig xa1     " /\
  compile_text fl2_exact ct0 (single_sig_lock2_src (B "79b5562e8fe654f94078b112e8a98ba7901f853ae695bed7e0e3910bad049664") (z2b 161)) = Unm.
Proof. split; vm_compute; reflexivity. Qed.

Example ex_single_sig_witness_2 :
  get_symbols (single_sig_witness_src (B "9ca53579530654d5c3df77089ef45eda613e2fedf670e96bedac4639504e5845ef4b95d5793077233dd16817b2532e9c5525872a73a4ad74b759369a9e05c102a1")) = get_symbols "push x9ca53579530654d5c3df77089ef45eda613e2fedf670e96bedac4639504e5845ef4b95d5793077233dd16817b2532e9c5525872a73a4ad74b759369a9e05c102a1" /\
  chex (compile_text fl2_exact ct0 (single_sig_witness_src (B "9ca53579530654d5c3df77089ef45eda613e2fedf670e96bedac4639504e5845ef4b95d5793077233dd16817b2532e9c5525872a73a4ad74b759369a9e05c102a1"))) = "03419ca53579530654d5c3df77089ef45eda613e2fedf670e96bedac4639504e5845ef4b95d5793077233dd16817b2532e9c5525872a73a4ad74b759369a9e05c102a1".
Proof. split; vm_compute; reflexivity. Qed.

Example ex_single_sig_witness2_2 :
  get_symbols (single_sig_witness2_src (B "9ca53579530654d5c3df77089ef45eda613e2fedf670e96bedac4639504e5845ef4b95d5793077233dd16817b2532e9c5525872a73a4ad74b759369a9e05c102a1") (B "03a107bff3ce10be1d70dd18e74bc09967e4d6309ba50d5f1ddc8664125531b8")) = get_symbols "push x9ca53579530654d5c3df77089ef45eda613e2fedf670e96bedac4639504e5845ef4b95d5793077233dd16817b2532e9c5525872a73a4ad74b759369a9e05c102a1 push x03a107bff3ce10be1d70dd18e74bc09967e4d6309ba50d5f1ddc8664125531b8" /\
  chex (compile_text fl2_exact ct0 (single_sig_witness2_src (B "9ca53579530654d5c3df77089ef45eda613e2fedf670e96bedac4639504e5845ef4b95d5793077233dd16817b2532e9c5525872a73a4ad74b759369a9e05c102a1") (B "03a107bff3ce10be1d70dd18e74bc09967e4d6309ba50d5f1ddc8664125531b8"))) = "03419ca53579530654d5c3df77089ef45eda613e2fedf670e96bedac4639504e5845ef4b95d5793077233dd16817b2532e9c5525872a73a4ad74b759369a9e05c102a1032003a107bff3ce10be1d70dd18e74bc09967e4d6309ba50d5f1ddc8664125531b8".
Proof. split; vm_compute; reflexivity. Qed.

Example ex_multisig_lock_1 :
  get_symbols (multisig_lock_src [(B "03a107bff3ce10be1d70dd18e74bc09967e4d6309ba50d5f1ddc8664125531b8"); (B "79b5562e8fe654f94078b112e8a98ba7901f853ae695bed7e0e3910bad049664"); (B "43cdc023d22d5f9e107d1a0693457d35d1d10eb7d21c721192f56f5de40665d3")] (z2b 0) (2)%Z) = get_symbols "push x03a107bff3ce10be1d70dd18e74bc09967e4d6309ba50d5f1ddc8664125531b8 push x79b5562e8fe654f94078b112e8a98ba7901f853ae695bed7e0e3910bad049664 push x43cdc023d22d5f9e107d1a0693457d35d1d10eb7d21c721192f56f5de40665d3 check_multisig x00 d2 d3" /\
  chex (compile_text fl2_exact ct0 (multisig_lock_src [(B "03a107bff3ce10be1d70dd18e74bc09967e4d6309ba50d5f1ddc8664125531b8"); (B "79b5562e8fe654f94078b112e8a98ba7901f853ae695bed7e0e3910bad049664"); (B "43cdc023d22d5f9e107d1a0693457d35d1d10eb7d21c721192f56f5de40665d3")] (z2b 0) (2)%Z)) = "032003a107bff3ce10be1d70dd18e74bc09967e4d6309ba50d5f1ddc8664125531b8032079b5562e8fe654f94078b112e8a98ba7901f853ae695bed7e0e3910bad049664032043cdc023d22d5f9e107d1a0693457d35d1d10eb7d21c721192f56f5de40665d346000203".
Proof. split; vm_compute; reflexivity. Qed.

Example ex_multisig_lock_2 :
  get_symbols (multisig_lock_src [(B "79b5562e8fe654f94078b112e8a98ba7901f853ae695bed7e0e3910bad049664"); (B "03a107bff3ce10be1d70dd18e74bc09967e4d6309ba50d5f1ddc8664125531b8")] (z2b 3) (1)%Z) = get_symbols "push x79b5562e8fe654f94078b112e8a98ba7901f853ae695bed7e0e3910bad049664 push x03a107bff3ce10be1d70dd18e74bc09967e4d6309ba50d5f1ddc8664125531b8 check_multisig x03 d1 d2" /\
  chex (compile_text fl2_exact ct0 (multisig_lock_src [(B "79b5562e8fe654f94078b112e8a98ba7901f853ae695bed7e0e3910bad049664"); (B "03a107bff3ce10be1d70dd18e74bc09967e4d6309ba50d5f1ddc8664125531b8")] (z2b 3) (1)%Z)) = "032079b5562e8fe654f94078b112e8a98ba7901f853ae695bed7e0e3910bad049664032003a107bff3ce10be1d70dd18e74bc09967e4d6309ba50d5f1ddc8664125531b846030102".
Proof. split; vm_compute; reflexivity. Qed.

Example ex_ts_after_lock_1 :
  get_symbols (ts_after_lock_src (1700000000)%Z false) = get_symbols "push d1700000000 check_timestamp" /\
  chex (compile_text fl2_exact ct0 (ts_after_lock_src (1700000000)%Z false)) = "03046553f10025".
Proof. split; vm_compute; reflexivity. Qed.

Example ex_ts_before_lock_1 :
  get_symbols (ts_before_lock_src (1700000000)%Z false) = get_symbols "push d1700000000 check_timestamp not" /\
  chex (compile_text fl2_exact ct0 (ts_before_lock_src (1700000000)%Z false)) = "03046553f100252e".
Proof. split; vm_compute; reflexivity. Qed.

Example ex_ts_after_lock_2 :
  get_symbols (ts_after_lock_src (1700000000)%Z true) = get_symbols "push d1700000000 check_timestamp_verify" /\
  chex (compile_text fl2_exact ct0 (ts_after_lock_src (1700000000)%Z true)) = "03046553f10026".
Proof. split; vm_compute; reflexivity. Qed.

Example ex_ts_before_lock_2 :
  get_symbols (ts_before_lock_src (1700000000)%Z true) = get_symbols "push d1700000000 check_timestamp not verify" /\
  chex (compile_text fl2_exact ct0 (ts_before_lock_src (1700000000)%Z true)) = "03046553f100252e20".
Proof. split; vm_compute; reflexivity. Qed.

Example ex_ts_after_lock_3 :
  get_symbols (ts_after_lock_src (-70000)%Z false) = get_symbols "push d-70000 check_timestamp" /\
  chex (compile_text fl2_exact ct0 (ts_after_lock_src (-70000)%Z false)) = "0303feee9025".
Proof. split; vm_compute; reflexivity. Qed.

Example ex_ts_before_lock_3 :
  get_symbols (ts_before_lock_src (-70000)%Z false) = get_symbols "push d-70000 check_timestamp not" /\
  chex (compile_text fl2_exact ct0 (ts_before_lock_src (-70000)%Z false)) = "0303feee90252e".
Proof. split; vm_compute; reflexivity. Qed.

Example ex_ts_after_lock_4 :
  get_symbols (ts_after_lock_src (-70000)%Z true) = get_symbols "push d-70000 check_timestamp_verify" /\
  chex (compile_text fl2_exact ct0 (ts_after_lock_src (-70000)%Z true)) = "0303feee9026".
Proof. split; vm_compute; reflexivity. Qed.

Example ex_ts_before_lock_4 :
  get_symbols (ts_before_lock_src (-70000)%Z true) = get_symbols "push d-70000 check_timestamp not verify" /\
  chex (compile_text fl2_exact ct0 (ts_before_lock_src (-70000)%Z true)) = "0303feee90252e20".
Proof. split; vm_compute; reflexivity. Qed.

Example ex_ts_after_lock_5 :
  get_symbols (ts_after_lock_src (5)%Z false) = get_symbols "push d5 check_timestamp" /\
  chex (compile_text fl2_exact ct0 (ts_after_lock_src (5)%Z false)) = "020525".
Proof. split; vm_compute; reflexivity. Qed.

Example ex_ts_before_lock_5 :
  get_symbols (ts_before_lock_src (5)%Z false) = get_symbols "push d5 check_timestamp not" /\
  chex (compile_text fl2_exact ct0 (ts_before_lock_src (5)%Z false)) = "0205252e".
Proof. split; vm_compute; reflexivity. Qed.

Example ex_ts_after_lock_6 :
  get_symbols (ts_after_lock_src (5)%Z true) = get_symbols "push d5 check_timestamp_verify" /\
  chex (compile_text fl2_exact ct0 (ts_after_lock_src (5)%Z true)) = "020526".
Proof. split; vm_compute; reflexivity. Qed.

Example ex_ts_before_lock_6 :
  get_symbols (ts_before_lock_src (5)%Z true) = get_symbols "push d5 check_timestamp not verify" /\
  chex (compile_text fl2_exact ct0 (ts_before_lock_src (5)%Z true)) = "0205252e20".
Proof. split; vm_compute; reflexivity. Qed.

Example ex_ts_between_lock_1 :
  get_symbols (ts_between_lock_src (1700000000)%Z (1700086400)%Z false) = get_symbols "push d1700000000 check_timestamp_verify push d1700086400 check_timestamp not" /\
  chex (compile_text fl2_exact ct0 (ts_between_lock_src (1700000000)%Z (1700086400)%Z false)) = "03046553f10026030465554280252e".
Proof. split; vm_compute; reflexivity. Qed.

Example ex_ts_between_lock_2 :
  get_symbols (ts_between_lock_src (300)%Z (70000)%Z true) = get_symbols "push d300 check_timestamp_verify push d70000 check_timestamp not verify" /\
  chex (compile_text fl2_exact ct0 (ts_between_lock_src (300)%Z (70000)%Z true)) = "0302012c260303011170252e20".
Proof. split; vm_compute; reflexivity. Qed.

Example ex_scripthash_lock_ct_1 :
  get_symbols (scripthash_lock_ct_src (B "94da6280b240ea6a2ab2cfdf0fb301fd77153d5b748baf796190") (26)%Z) = Ok ["DUP"; "SHAKE256"; "d26"; "PUSH"; "x94da6280b240ea6a2ab2cfdf0fb301fd77153d5b748baf796190"; "EQUAL_VERIFY"; "EVAL"] /\
  chex (compile_text fl2_exact ct0 (scripthash_lock_ct_src (B "94da6280b240ea6a2ab2cfdf0fb301fd77153d5b748baf796190") (26)%Z)) = "1d1f1a031a94da6280b240ea6a2ab2cfdf0fb301fd77153d5b748baf796190222d".
Proof. split; vm_compute; reflexivity. Qed.

Example ex_scripthash_witness_1 :
  get_symbols (scripthash_witness_src (B "01")) = get_symbols "push x01" /\
  chex (compile_text fl2_exact ct0 (scripthash_witness_src (B "01"))) = "0201".
Proof. split; vm_compute; reflexivity. Qed.

Example ex_scripthash_lock_ct_2 :
  get_symbols (scripthash_lock_ct_src (B "87bb4a7395ca96a1c6973e72b63879912d247a3e") (20)%Z) = Ok ["DUP"; "SHAKE256"; "d20"; "PUSH"; "x87bb4a7395ca96a1c6973e72b63879912d247a3e"; "EQUAL_VERIFY"; "EVAL"] /\
  chex (compile_text fl2_exact ct0 (scripthash_lock_ct_src (B "87bb4a7395ca96a1c6973e72b63879912d247a3e") (20)%Z)) = "1d1f14031487bb4a7395ca96a1c6973e72b63879912d247a3e222d".
Proof. split; vm_compute; reflexivity. Qed.

Example ex_scripthash_witness_2 :
  get_symbols (scripthash_witness_src (B "030201021d")) = get_symbols "push x030201021d" /\
  chex (compile_text fl2_exact ct0 (scripthash_witness_src (B "030201021d"))) = "0305030201021d".
Proof. split; vm_compute; reflexivity. Qed.

Example ex_ptlc_lock_1 :
  get_symbols (ptlc_lock_src (B "03a107bff3ce10be1d70dd18e74bc09967e4d6309ba50d5f1ddc8664125531b8") (1700086400)%Z (B "79b5562e8fe654f94078b112e8a98ba7901f853ae695bed7e0e3910bad049664") (z2b 0)) = get_symbols "         if {             push x03a107bff3ce10be1d70dd18e74bc09967e4d6309ba50d5f1ddc8664125531b8         } else {             push d1700086400             check_timestamp_verify             push x79b5562e8fe654f94078b112e8a98ba7901f853ae695bed7e0e3910bad049664         }         check_sig x00     " /\
  chex (compile_text fl2_exact ct0 (ptlc_lock_src (B "03a107bff3ce10be1d70dd18e74bc09967e4d6309ba50d5f1ddc8664125531b8") (1700086400)%Z (B "79b5562e8fe654f94078b112e8a98ba7901f853ae695bed7e0e3910bad049664") (z2b 0))) = "2c0022032003a107bff3ce10be1d70dd18e74bc09967e4d6309ba50d5f1ddc8664125531b8002903046555428026032079b5562e8fe654f94078b112e8a98ba7901f853ae695bed7e0e3910bad0496642300".
Proof. split; vm_compute; reflexivity. Qed.

Example ex_htlc_sha256_lock_1 :
  get_symbols (htlc_sha256_lock_src (B "6f829722647f4c29260240484bb139dcc4f00417ac62a1e5fc95e039c2effeff") (B "03a107bff3ce10be1d70dd18e74bc09967e4d6309ba50d5f1ddc8664125531b8") (1700086400)%Z (B "79b5562e8fe654f94078b112e8a98ba7901f853ae695bed7e0e3910bad049664") (z2b 0)) = get_symbols "         sha256         push x6f829722647f4c29260240484bb139dcc4f00417ac62a1e5fc95e039c2effeff         equal         if {             push x03a107bff3ce10be1d70dd18e74bc09967e4d6309ba50d5f1ddc8664125531b8         } else {             push d1700086400             check_timestamp_verify             push x79b5562e8fe654f94078b112e8a98ba7901f853ae695bed7e0e3910bad049664         }         check_sig x00     " /\
  chex (compile_text fl2_exact ct0 (htlc_sha256_lock_src (B "6f829722647f4c29260240484bb139dcc4f00417ac62a1e5fc95e039c2effeff") (B "03a107bff3ce10be1d70dd18e74bc09967e4d6309ba50d5f1ddc8664125531b8") (1700086400)%Z (B "79b5562e8fe654f94078b112e8a98ba7901f853ae695bed7e0e3910bad049664") (z2b 0))) = "1e03206f829722647f4c29260240484bb139dcc4f00417ac62a1e5fc95e039c2effeff212c0022032003a107bff3ce10be1d70dd18e74bc09967e4d6309ba50d5f1ddc8664125531b8002903046555428026032079b5562e8fe654f94078b112e8a98ba7901f853ae695bed7e0e3910bad0496642300".
Proof. split; vm_compute; reflexivity. Qed.

Example ex_htlc_shake256_lock_1 :
  get_symbols (htlc_shake256_lock_src (20)%Z (B "e74780a5f7dac55145f92e890001ba8c35b12143") (B "03a107bff3ce10be1d70dd18e74bc09967e4d6309ba50d5f1ddc8664125531b8") (1700086400)%Z (B "79b5562e8fe654f94078b112e8a98ba7901f853ae695bed7e0e3910bad049664") (z2b 0)) = get_symbols "         shake256 d20         push xe74780a5f7dac55145f92e890001ba8c35b12143         equal         if {             push x03a107bff3ce10be1d70dd18e74bc09967e4d6309ba50d5f1ddc8664125531b8         } else {             push d1700086400             check_timestamp_verify             push x79b5562e8fe654f94078b112e8a98ba7901f853ae695bed7e0e3910bad049664         }         check_sig x00     " /\
  chex (compile_text fl2_exact ct0 (htlc_shake256_lock_src (20)%Z (B "e74780a5f7dac55145f92e890001ba8c35b12143") (B "03a107bff3ce10be1d70dd18e74bc09967e4d6309ba50d5f1ddc8664125531b8") (1700086400)%Z (B "79b5562e8fe654f94078b112e8a98ba7901f853ae695bed7e0e3910bad049664") (z2b 0))) = "1f140314e74780a5f7dac55145f92e890001ba8c35b12143212c0022032003a107bff3ce10be1d70dd18e74bc09967e4d6309ba50d5f1ddc8664125531b8002903046555428026032079b5562e8fe654f94078b112e8a98ba7901f853ae695bed7e0e3910bad0496642300".
Proof. split; vm_compute; reflexivity. Qed.

Example ex_htlc2_shake256_lock_ct_1 :
  get_symbols (htlc2_shake256_lock_ct_src (20)%Z (B "e74780a5f7dac55145f92e890001ba8c35b12143") (B "8002cdb58aa33b79afb57ec00c1b8081962bf2c2") (1700086400)%Z (B "c71c0c5245c23e045fb1ab8b6011e2d77dff6ac6") (z2b 0)) = Ok ["SHAKE256"; "d20"; "PUSH"; "xe74780a5f7dac55145f92e890001ba8c35b12143"; "EQUAL"; "IF"; "{"; "DUP"; "SHAKE256"; "d20"; "PUSH"; "x8002cdb58aa33b79afb57ec00c1b8081962bf2c2"; "}"; "ELSE"; "{"; "PUSH"; "d1700086400"; "CHECK_TIMESTAMP_VERIFY"; "DUP"; "SHAKE256"; "d20"; "PUSH"; "xc71c0c5245c23e045fb1ab8b6011e2d77dff6ac6"; "}"; "EQUAL_VERIFY"; "CHECK_SIG"; "x00"] /\
  chex (compile_text fl2_exact ct0 (htlc2_shake256_lock_ct_src (20)%Z (B "e74780a5f7dac55145f92e890001ba8c35b12143") (B "8002cdb58aa33b79afb57ec00c1b8081962bf2c2") (1700086400)%Z (B "c71c0c5245c23e045fb1ab8b6011e2d77dff6ac6") (z2b 0))) = "1f140314e74780a5f7dac55145f92e890001ba8c35b12143212c00191d1f1403148002cdb58aa33b79afb57ec00c1b8081962bf2c20020030465554280261d1f140314c71c0c5245c23e045fb1ab8b6011e2d77dff6ac6222300".
Proof. split; vm_compute; reflexivity. Qed.

Example ex_htlc_shake256_lock_2 :
  get_symbols (htlc_shake256_lock_src (16)%Z (B "e74780a5f7dac55145f92e890001ba8c") (B "03a107bff3ce10be1d70dd18e74bc09967e4d6309ba50d5f1ddc8664125531b8") (1700086400)%Z (B "79b5562e8fe654f94078b112e8a98ba7901f853ae695bed7e0e3910bad049664") (z2b 0)) = get_symbols "         shake256 d16         push xe74780a5f7dac55145f92e890001ba8c         equal         if {             push x03a107bff3ce10be1d70dd18e74bc09967e4d6309ba50d5f1ddc8664125531b8         } else {             push d1700086400             check_timestamp_verify             push x79b5562e8fe654f94078b112e8a98ba7901f853ae695bed7e0e3910bad049664         }         check_sig x00     " /\
  chex (compile_text fl2_exact ct0 (htlc_shake256_lock_src (16)%Z (B "e74780a5f7dac55145f92e890001ba8c") (B "03a107bff3ce10be1d70dd18e74bc09967e4d6309ba50d5f1ddc8664125531b8") (1700086400)%Z (B "79b5562e8fe654f94078b112e8a98ba7901f853ae695bed7e0e3910bad049664") (z2b 0))) = "1f100310e74780a5f7dac55145f92e890001ba8c212c0022032003a107bff3ce10be1d70dd18e74bc09967e4d6309ba50d5f1ddc8664125531b8002903046555428026032079b5562e8fe654f94078b112e8a98ba7901f853ae695bed7e0e3910bad0496642300".
Proof. split; vm_compute; reflexivity. Qed.

Example ex_htlc2_shake256_lock_ct_2 :
  get_symbols (htlc2_shake256_lock_ct_src (16)%Z (B "e74780a5f7dac55145f92e890001ba8c") (B "8002cdb58aa33b79afb57ec00c1b8081") (1700086400)%Z (B "c71c0c5245c23e045fb1ab8b6011e2d7") (z2b 0)) = Ok ["SHAKE256"; "d16"; "PUSH"; "xe74780a5f7dac55145f92e890001ba8c"; "EQUAL"; "IF"; "{"; "DUP"; "SHAKE256"; "d16"; "PUSH"; "x8002cdb58aa33b79afb57ec00c1b8081"; "}"; "ELSE"; "{"; "PUSH"; "d1700086400"; "CHECK_TIMESTAMP_VERIFY"; "DUP"; "SHAKE256"; "d16"; "PUSH"; "xc71c0c5245c23e045fb1ab8b6011e2d7"; "}"; "EQUAL_VERIFY"; "CHECK_SIG"; "x00"] /\
  chex (compile_text fl2_exact ct0 (htlc2_shake256_lock_ct_src (16)%Z (B "e74780a5f7dac55145f92e890001ba8c") (B "8002cdb58aa33b79afb57ec00c1b8081") (1700086400)%Z (B "c71c0c5245c23e045fb1ab8b6011e2d7") (z2b 0))) = "1f100310e74780a5f7dac55145f92e890001ba8c212c00151d1f1003108002cdb58aa33b79afb57ec00c1b8081001c030465554280261d1f100310c71c0c5245c23e045fb1ab8b6011e2d7222300".
Proof. split; vm_compute; reflexivity. Qed.

Example ex_htlc2_sha256_lock_ct_1 :
  get_symbols (htlc2_sha256_lock_ct_src (B "6f829722647f4c29260240484bb139dcc4f00417ac62a1e5fc95e039c2effeff") (B "8002cdb58aa33b79afb57ec00c1b8081962bf2c2") (1700086400)%Z (B "c71c0c5245c23e045fb1ab8b6011e2d77dff6ac6") (z2b 0)) = Ok ["SHA256"; "PUSH"; "x6f829722647f4c29260240484bb139dcc4f00417ac62a1e5fc95e039c2effeff"; "EQUAL"; "IF"; "{"; "DUP"; "SHAKE256"; "d20"; "PUSH"; "x8002cdb58aa33b79afb57ec00c1b8081962bf2c2"; "}"; "ELSE"; "{"; "PUSH"; "d1700086400"; "CHECK_TIMESTAMP_VERIFY"; "DUP"; "SHAKE256"; "d20"; "PUSH"; "xc71c0c5245c23e045fb1ab8b6011e2d77dff6ac6"; "}"; "EQUAL_VERIFY"; "CHECK_SIG"; "x00"] /\
  chex (compile_text fl2_exact ct0 (htlc2_sha256_lock_ct_src (B "6f829722647f4c29260240484bb139dcc4f00417ac62a1e5fc95e039c2effeff") (B "8002cdb58aa33b79afb57ec00c1b8081962bf2c2") (1700086400)%Z (B "c71c0c5245c23e045fb1ab8b6011e2d77dff6ac6") (z2b 0))) = "1e03206f829722647f4c29260240484bb139dcc4f00417ac62a1e5fc95e039c2effeff212c00191d1f1403148002cdb58aa33b79afb57ec00c1b8081962bf2c20020030465554280261d1f140314c71c0c5245c23e045fb1ab8b6011e2d77dff6ac6222300".
Proof. split; vm_compute; reflexivity. Qed.

Example ex_ptlc_lock_2 :
  get_symbols (ptlc_lock_src (B "43cdc023d22d5f9e107d1a0693457d35d1d10eb7d21c721192f56f5de40665d3") (1700000060)%Z (B "03a107bff3ce10be1d70dd18e74bc09967e4d6309ba50d5f1ddc8664125531b8") (z2b 127)) = get_symbols "         if {             push x43cdc023d22d5f9e107d1a0693457d35d1d10eb7d21c721192f56f5de40665d3         } else {             push d1700000060             check_timestamp_verify             push x03a107bff3ce10be1d70dd18e74bc09967e4d6309ba50d5f1ddc8664125531b8         }         check_sig x7f     " /\
  chex (compile_text fl2_exact ct0 (ptlc_lock_src (B "43cdc023d22d5f9e107d1a0693457d35d1d10eb7d21c721192f56f5de40665d3") (1700000060)%Z (B "03a107bff3ce10be1d70dd18e74bc09967e4d6309ba50d5f1ddc8664125531b8") (z2b 127))) = "2c0022032043cdc023d22d5f9e107d1a0693457d35d1d10eb7d21c721192f56f5de40665d3002903046553f13c26032003a107bff3ce10be1d70dd18e74bc09967e4d6309ba50d5f1ddc8664125531b8237f".
Proof. split; vm_compute; reflexivity. Qed.

Example ex_htlc_sha256_lock_2 :
  get_symbols (htlc_sha256_lock_src (B "6f829722647f4c29260240484bb139dcc4f00417ac62a1e5fc95e039c2effeff") (B "43cdc023d22d5f9e107d1a0693457d35d1d10eb7d21c721192f56f5de40665d3") (1700000060)%Z (B "03a107bff3ce10be1d70dd18e74bc09967e4d6309ba50d5f1ddc8664125531b8") (z2b 127)) = get_symbols "         sha256         push x6f829722647f4c29260240484bb139dcc4f00417ac62a1e5fc95e039c2effeff         equal         if {             push x43cdc023d22d5f9e107d1a0693457d35d1d10eb7d21c721192f56f5de40665d3         } else {             push d1700000060             check_timestamp_verify             push x03a107bff3ce10be1d70dd18e74bc09967e4d6309ba50d5f1ddc8664125531b8         }         check_sig x7f     " /\
  chex (compile_text fl2_exact ct0 (htlc_sha256_lock_src (B "6f829722647f4c29260240484bb139dcc4f00417ac62a1e5fc95e039c2effeff") (B "43cdc023d22d5f9e107d1a0693457d35d1d10eb7d21c721192f56f5de40665d3") (1700000060)%Z (B "03a107bff3ce10be1d70dd18e74bc09967e4d6309ba50d5f1ddc8664125531b8") (z2b 127))) = "1e03206f829722647f4c29260240484bb139dcc4f00417ac62a1e5fc95e039c2effeff212c0022032043cdc023d22d5f9e107d1a0693457d35d1d10eb7d21c721192f56f5de40665d3002903046553f13c26032003a107bff3ce10be1d70dd18e74bc09967e4d6309ba50d5f1ddc8664125531b8237f".
Proof. split; vm_compute; reflexivity. Qed.

Example ex_htlc_shake256_lock_3 :
  get_symbols (htlc_shake256_lock_src (20)%Z (B "e74780a5f7dac55145f92e890001ba8c35b12143") (B "43cdc023d22d5f9e107d1a0693457d35d1d10eb7d21c721192f56f5de40665d3") (1700000060)%Z (B "03a107bff3ce10be1d70dd18e74bc09967e4d6309ba50d5f1ddc8664125531b8") (z2b 127)) = get_symbols "         shake256 d20         push xe74780a5f7dac55145f92e890001ba8c35b12143         equal         if {             push x43cdc023d22d5f9e107d1a0693457d35d1d10eb7d21c721192f56f5de40665d3         } else {             push d1700000060             check_timestamp_verify             push x03a107bff3ce10be1d70dd18e74bc09967e4d6309ba50d5f1ddc8664125531b8         }         check_sig x7f     " /\
  chex (compile_text fl2_exact ct0 (htlc_shake256_lock_src (20)%Z (B "e74780a5f7dac55145f92e890001ba8c35b12143") (B "43cdc023d22d5f9e107d1a0693457d35d1d10eb7d21c721192f56f5de40665d3") (1700000060)%Z (B "03a107bff3ce10be1d70dd18e74bc09967e4d6309ba50d5f1ddc8664125531b8") (z2b 127))) = "1f140314e74780a5f7dac55145f92e890001ba8c35b12143212c0022032043cdc023d22d5f9e107d1a0693457d35d1d10eb7d21c721192f56f5de40665d3002903046553f13c26032003a107bff3ce10be1d70dd18e74bc09967e4d6309ba50d5f1ddc8664125531b8237f".
Proof. split; vm_compute; reflexivity. Qed.

Example ex_htlc2_shake256_lock_ct_3 :
  get_symbols (htlc2_shake256_lock_ct_src (20)%Z (B "e74780a5f7dac55145f92e890001ba8c35b12143") (B "8ce1bbb38fe14d1d8c062f952c3972d56614f83a") (1700000060)%Z (B "8002cdb58aa33b79afb57ec00c1b8081962bf2c2") (z2b 127)) = Ok ["SHAKE256"; "d20"; "PUSH"; "xe74780a5f7dac55145f92e890001ba8c35b12143"; "EQUAL"; "IF"; "{"; "DUP"; "SHAKE256"; "d20"; "PUSH"; "x8ce1bbb38fe14d1d8c062f952c3972d56614f83a"; "}"; "ELSE"; "{"; "PUSH"; "d1700000060"; "CHECK_TIMESTAMP_VERIFY"; "DUP"; "SHAKE256"; "d20"; "PUSH"; "x8002cdb58aa33b79afb57ec00c1b8081962bf2c2"; "}"; "EQUAL_VERIFY"; "CHECK_SIG"; "x7f"] /\
  chex (compile_text fl2_exact ct0 (htlc2_shake256_lock_ct_src (20)%Z (B "e74780a5f7dac55145f92e890001ba8c35b12143") (B "8ce1bbb38fe14d1d8c062f952c3972d56614f83a") (1700000060)%Z (B "8002cdb58aa33b79afb57ec00c1b8081962bf2c2") (z2b 127))) = "1f140314e74780a5f7dac55145f92e890001ba8c35b12143212c00191d1f1403148ce1bbb38fe14d1d8c062f952c3972d56614f83a002003046553f13c261d1f1403148002cdb58aa33b79afb57ec00c1b8081962bf2c222237f".
Proof. split; vm_compute; reflexivity. Qed.

Example ex_htlc_shake256_lock_4 :
  get_symbols (htlc_shake256_lock_src (16)%Z (B "e74780a5f7dac55145f92e890001ba8c") (B "43cdc023d22d5f9e107d1a0693457d35d1d10eb7d21c721192f56f5de40665d3") (1700000060)%Z (B "03a107bff3ce10be1d70dd18e74bc09967e4d6309ba50d5f1ddc8664125531b8") (z2b 127)) = get_symbols "         shake256 d16         push xe74780a5f7dac55145f92e890001ba8c         equal         if {             push x43cdc023d22d5f9e107d1a0693457d35d1d10eb7d21c721192f56f5de40665d3         } else {             push d1700000060             check_timestamp_verify             push x03a107bff3ce10be1d70dd18e74bc09967e4d6309ba50d5f1ddc8664125531b8         }         check_sig x7f     " /\
  chex (compile_text fl2_exact ct0 (htlc_shake256_lock_src (16)%Z (B "e74780a5f7dac55145f92e890001ba8c") (B "43cdc023d22d5f9e107d1a0693457d35d1d10eb7d21c721192f56f5de40665d3") (1700000060)%Z (B "03a107bff3ce10be1d70dd18e74bc09967e4d6309ba50d5f1ddc8664125531b8") (z2b 127))) = "1f100310e74780a5f7dac55145f92e890001ba8c212c0022032043cdc023d22d5f9e107d1a0693457d35d1d10eb7d21c721192f56f5de40665d3002903046553f13c26032003a107bff3ce10be1d70dd18e74bc09967e4d6309ba50d5f1ddc8664125531b8237f".
Proof. split; vm_compute; reflexivity. Qed.

Example ex_htlc2_shake256_lock_ct_4 :
  get_symbols (htlc2_shake256_lock_ct_src (16)%Z (B "e74780a5f7dac55145f92e890001ba8c") (B "8ce1bbb38fe14d1d8c062f952c3972d5") (1700000060)%Z (B "8002cdb58aa33b79afb57ec00c1b8081") (z2b 127)) = Ok ["SHAKE256"; "d16"; "PUSH"; "xe74780a5f7dac55145f92e890001ba8c"; "EQUAL"; "IF"; "{"; "DUP"; "SHAKE256"; "d16"; "PUSH"; "x8ce1bbb38fe14d1d8c062f952c3972d5"; "}"; "ELSE"; "{"; "PUSH"; "d1700000060"; "CHECK_TIMESTAMP_VERIFY"; "DUP"; "SHAKE256"; "d16"; "PUSH"; "x8002cdb58aa33b79afb57ec00c1b8081"; "}"; "EQUAL_VERIFY"; "CHECK_SIG"; "x7f"] /\
  chex (compile_text fl2_exact ct0 (htlc2_shake256_lock_ct_src (16)%Z (B "e74780a5f7dac55145f92e890001ba8c") (B "8ce1bbb38fe14d1d8c062f952c3972d5") (1700000060)%Z (B "8002cdb58aa33b79afb57ec00c1b8081") (z2b 127))) = "1f100310e74780a5f7dac55145f92e890001ba8c212c00151d1f1003108ce1bbb38fe14d1d8c062f952c3972d5001c03046553f13c261d1f1003108002cdb58aa33b79afb57ec00c1b808122237f".
Proof. split; vm_compute; reflexivity. Qed.

Example ex_htlc2_sha256_lock_ct_2 :
  get_symbols (htlc2_sha256_lock_ct_src (B "6f829722647f4c29260240484bb139dcc4f00417ac62a1e5fc95e039c2effeff") (B "8ce1bbb38fe14d1d8c062f952c3972d56614f83a") (1700000060)%Z (B "8002cdb58aa33b79afb57ec00c1b8081962bf2c2") (z2b 127)) = Ok ["SHA256"; "PUSH"; "x6f829722647f4c29260240484bb139dcc4f00417ac62a1e5fc95e039c2effeff"; "EQUAL"; "IF"; "{"; "DUP"; "SHAKE256"; "d20"; "PUSH"; "x8ce1bbb38fe14d1d8c062f952c3972d56614f83a"; "}"; "ELSE"; "{"; "PUSH"; "d1700000060"; "CHECK_TIMESTAMP_VERIFY"; "DUP"; "SHAKE256"; "d20"; "PUSH"; "x8002cdb58aa33b79afb57ec00c1b8081962bf2c2"; "}"; "EQUAL_VERIFY"; "CHECK_SIG"; "x7f"] /\
  chex (compile_text fl2_exact ct0 (htlc2_sha256_lock_ct_src (B "6f829722647f4c29260240484bb139dcc4f00417ac62a1e5fc95e039c2effeff") (B "8ce1bbb38fe14d1d8c062f952c3972d56614f83a") (1700000060)%Z (B "8002cdb58aa33b79afb57ec00c1b8081962bf2c2") (z2b 127))) = "1e03206f829722647f4c29260240484bb139dcc4f00417ac62a1e5fc95e039c2effeff212c00191d1f1403148ce1bbb38fe14d1d8c062f952c3972d56614f83a002003046553f13c261d1f1403148002cdb58aa33b79afb57ec00c1b8081962bf2c222237f".
Proof. split; vm_compute; reflexivity. Qed.

Example ex_htlc_witness_1 :
  get_symbols (htlc_witness_src (B "c9e88a06c88855aa75f90bcfdc5a87b76a99c0d2044114b8931e72089e7b8c7ac6b4a9776b57326f2d781aa8da8821fe6b4c7296fde0b63ca24d7f6343ac6a0a") (B "707265696d616765206f66207369787465656e2b")) = get_symbols "         push xc9e88a06c88855aa75f90bcfdc5a87b76a99c0d2044114b8931e72089e7b8c7ac6b4a9776b57326f2d781aa8da8821fe6b4c7296fde0b63ca24d7f6343ac6a0a         push x707265696d616765206f66207369787465656e2b     " /\
  chex (compile_text fl2_exact ct0 (htlc_witness_src (B "c9e88a06c88855aa75f90bcfdc5a87b76a99c0d2044114b8931e72089e7b8c7ac6b4a9776b57326f2d781aa8da8821fe6b4c7296fde0b63ca24d7f6343ac6a0a") (B "707265696d616765206f66207369787465656e2b"))) = "0340c9e88a06c88855aa75f90bcfdc5a87b76a99c0d2044114b8931e72089e7b8c7ac6b4a9776b57326f2d781aa8da8821fe6b4c7296fde0b63ca24d7f6343ac6a0a0314707265696d616765206f66207369787465656e2b".
Proof. split; vm_compute; reflexivity. Qed.

Example ex_htlc2_witness_1 :
  get_symbols (htlc2_witness_src (B "c9e88a06c88855aa75f90bcfdc5a87b76a99c0d2044114b8931e72089e7b8c7ac6b4a9776b57326f2d781aa8da8821fe6b4c7296fde0b63ca24d7f6343ac6a0a") (B "03a107bff3ce10be1d70dd18e74bc09967e4d6309ba50d5f1ddc8664125531b8") (B "707265696d616765206f66207369787465656e2b")) = get_symbols "         push xc9e88a06c88855aa75f90bcfdc5a87b76a99c0d2044114b8931e72089e7b8c7ac6b4a9776b57326f2d781aa8da8821fe6b4c7296fde0b63ca24d7f6343ac6a0a         push x03a107bff3ce10be1d70dd18e74bc09967e4d6309ba50d5f1ddc8664125531b8         push x707265696d616765206f66207369787465656e2b     " /\
  chex (compile_text fl2_exact ct0 (htlc2_witness_src (B "c9e88a06c88855aa75f90bcfdc5a87b76a99c0d2044114b8931e72089e7b8c7ac6b4a9776b57326f2d781aa8da8821fe6b4c7296fde0b63ca24d7f6343ac6a0a") (B "03a107bff3ce10be1d70dd18e74bc09967e4d6309ba50d5f1ddc8664125531b8") (B "707265696d616765206f66207369787465656e2b"))) = "0340c9e88a06c88855aa75f90bcfdc5a87b76a99c0d2044114b8931e72089e7b8c7ac6b4a9776b57326f2d781aa8da8821fe6b4c7296fde0b63ca24d7f6343ac6a0a032003a107bff3ce10be1d70dd18e74bc09967e4d6309ba50d5f1ddc8664125531b80314707265696d616765206f66207369787465656e2b".
Proof. split; vm_compute; reflexivity. Qed.

Example ex_htlc_witness_2 :
  get_symbols (htlc_witness_src (B "c9e88a06c88855aa75f90bcfdc5a87b76a99c0d2044114b8931e72089e7b8c7ac6b4a9776b57326f2d781aa8da8821fe6b4c7296fde0b63ca24d7f6343ac6a0a") (B "00")) = get_symbols "         push xc9e88a06c88855aa75f90bcfdc5a87b76a99c0d2044114b8931e72089e7b8c7ac6b4a9776b57326f2d781aa8da8821fe6b4c7296fde0b63ca24d7f6343ac6a0a         push x00     " /\
  chex (compile_text fl2_exact ct0 (htlc_witness_src (B "c9e88a06c88855aa75f90bcfdc5a87b76a99c0d2044114b8931e72089e7b8c7ac6b4a9776b57326f2d781aa8da8821fe6b4c7296fde0b63ca24d7f6343ac6a0a") (B "00"))) = "0340c9e88a06c88855aa75f90bcfdc5a87b76a99c0d2044114b8931e72089e7b8c7ac6b4a9776b57326f2d781aa8da8821fe6b4c7296fde0b63ca24d7f6343ac6a0a0200".
Proof. split; vm_compute; reflexivity. Qed.

Example ex_htlc2_witness_2 :
  get_symbols (htlc2_witness_src (B "c9e88a06c88855aa75f90bcfdc5a87b76a99c0d2044114b8931e72089e7b8c7ac6b4a9776b57326f2d781aa8da8821fe6b4c7296fde0b63ca24d7f6343ac6a0a") (B "03a107bff3ce10be1d70dd18e74bc09967e4d6309ba50d5f1ddc8664125531b8") (B "00")) = get_symbols "         push xc9e88a06c88855aa75f90bcfdc5a87b76a99c0d2044114b8931e72089e7b8c7ac6b4a9776b57326f2d781aa8da8821fe6b4c7296fde0b63ca24d7f6343ac6a0a         push x03a107bff3ce10be1d70dd18e74bc09967e4d6309ba50d5f1ddc8664125531b8         push x00     " /\
  chex (compile_text fl2_exact ct0 (htlc2_witness_src (B "c9e88a06c88855aa75f90bcfdc5a87b76a99c0d2044114b8931e72089e7b8c7ac6b4a9776b57326f2d781aa8da8821fe6b4c7296fde0b63ca24d7f6343ac6a0a") (B "03a107bff3ce10be1d70dd18e74bc09967e4d6309ba50d5f1ddc8664125531b8") (B "00"))) = "0340c9e88a06c88855aa75f90bcfdc5a87b76a99c0d2044114b8931e72089e7b8c7ac6b4a9776b57326f2d781aa8da8821fe6b4c7296fde0b63ca24d7f6343ac6a0a032003a107bff3ce10be1d70dd18e74bc09967e4d6309ba50d5f1ddc8664125531b80200".
Proof. split; vm_compute; reflexivity. Qed.

Example ex_ptlc_witness_1 :
  get_symbols (sig_then_src (B "c9e88a06c88855aa75f90bcfdc5a87b76a99c0d2044114b8931e72089e7b8c7ac6b4a9776b57326f2d781aa8da8821fe6b4c7296fde0b63ca24d7f6343ac6a0a") true) = get_symbols "push xc9e88a06c88855aa75f90bcfdc5a87b76a99c0d2044114b8931e72089e7b8c7ac6b4a9776b57326f2d781aa8da8821fe6b4c7296fde0b63ca24d7f6343ac6a0a true" /\
  chex (compile_text fl2_exact ct0 (sig_then_src (B "c9e88a06c88855aa75f90bcfdc5a87b76a99c0d2044114b8931e72089e7b8c7ac6b4a9776b57326f2d781aa8da8821fe6b4c7296fde0b63ca24d7f6343ac6a0a") true)) = "0340c9e88a06c88855aa75f90bcfdc5a87b76a99c0d2044114b8931e72089e7b8c7ac6b4a9776b57326f2d781aa8da8821fe6b4c7296fde0b63ca24d7f6343ac6a0a01".
Proof. split; vm_compute; reflexivity. Qed.

Example ex_ptlc_refund_witness_1 :
  get_symbols (sig_then_src (B "9ca53579530654d5c3df77089ef45eda613e2fedf670e96bedac4639504e5845ef4b95d5793077233dd16817b2532e9c5525872a73a4ad74b759369a9e05c10201") false) = get_symbols "push x9ca53579530654d5c3df77089ef45eda613e2fedf670e96bedac4639504e5845ef4b95d5793077233dd16817b2532e9c5525872a73a4ad74b759369a9e05c10201 false" /\
  chex (compile_text fl2_exact ct0 (sig_then_src (B "9ca53579530654d5c3df77089ef45eda613e2fedf670e96bedac4639504e5845ef4b95d5793077233dd16817b2532e9c5525872a73a4ad74b759369a9e05c10201") false)) = "03419ca53579530654d5c3df77089ef45eda613e2fedf670e96bedac4639504e5845ef4b95d5793077233dd16817b2532e9c5525872a73a4ad74b759369a9e05c1020100".
Proof. split; vm_compute; reflexivity. Qed.

Example ex_graftroot_witness_keyspend_1 :
  get_symbols (sig_then_src (B "10f2ae3ec35d5fa32ed415a5c96a7713a4615c00e65cc3b613d9a20ac9a1eff92b39451920b8a3699150c2765c8448ffd8c7e9958798e01527f419a2b63ac30e") false) = get_symbols "push x10f2ae3ec35d5fa32ed415a5c96a7713a4615c00e65cc3b613d9a20ac9a1eff92b39451920b8a3699150c2765c8448ffd8c7e9958798e01527f419a2b63ac30e false" /\
  chex (compile_text fl2_exact ct0 (sig_then_src (B "10f2ae3ec35d5fa32ed415a5c96a7713a4615c00e65cc3b613d9a20ac9a1eff92b39451920b8a3699150c2765c8448ffd8c7e9958798e01527f419a2b63ac30e") false)) = "034010f2ae3ec35d5fa32ed415a5c96a7713a4615c00e65cc3b613d9a20ac9a1eff92b39451920b8a3699150c2765c8448ffd8c7e9958798e01527f419a2b63ac30e00".
Proof. split; vm_compute; reflexivity. Qed.

Example ex_ptlc_witness_tweak_1 :
  get_symbols (ptlc_witness_tweak_src (B "e9f0535eaed03104322de8684785bb6226e9fd326351d9d41b1ee8bd80853bf0a97288bd23cfea51f78c05bd2f6405b57b7340d353f2b41b4c28de22a18c9403") (z2b 0)) = get_symbols "push xe9f0535eaed03104322de8684785bb6226e9fd326351d9d41b1ee8bd80853bf0a97288bd23cfea51f78c05bd2f6405b57b7340d353f2b41b4c28de22a18c940300 true" /\
  chex (compile_text fl2_exact ct0 (ptlc_witness_tweak_src (B "e9f0535eaed03104322de8684785bb6226e9fd326351d9d41b1ee8bd80853bf0a97288bd23cfea51f78c05bd2f6405b57b7340d353f2b41b4c28de22a18c9403") (z2b 0))) = "0341e9f0535eaed03104322de8684785bb6226e9fd326351d9d41b1ee8bd80853bf0a97288bd23cfea51f78c05bd2f6405b57b7340d353f2b41b4c28de22a18c94030001".
Proof. split; vm_compute; reflexivity. Qed.

Example ex_ptlc_witness_tweak_2 :
  get_symbols (ptlc_witness_tweak_src (B "e9f0535eaed03104322de8684785bb6226e9fd326351d9d41b1ee8bd80853bf0a97288bd23cfea51f78c05bd2f6405b57b7340d353f2b41b4c28de22a18c9403") (z2b 2)) = get_symbols "push xe9f0535eaed03104322de8684785bb6226e9fd326351d9d41b1ee8bd80853bf0a97288bd23cfea51f78c05bd2f6405b57b7340d353f2b41b4c28de22a18c940302 true" /\
  chex (compile_text fl2_exact ct0 (ptlc_witness_tweak_src (B "e9f0535eaed03104322de8684785bb6226e9fd326351d9d41b1ee8bd80853bf0a97288bd23cfea51f78c05bd2f6405b57b7340d353f2b41b4c28de22a18c9403") (z2b 2))) = "0341e9f0535eaed03104322de8684785bb6226e9fd326351d9d41b1ee8bd80853bf0a97288bd23cfea51f78c05bd2f6405b57b7340d353f2b41b4c28de22a18c94030201".
Proof. split; vm_compute; reflexivity. Qed.

Example ex_taproot_lock_1 :
  get_symbols (taproot_lock_src (B "7b72253c1f4454c7599fe81bcd199c7550a4c417b31c498f84e35199beb8d624") (z2b 0)) = get_symbols "push x7b72253c1f4454c7599fe81bcd199c7550a4c417b31c498f84e35199beb8d624 tr x00" /\
  chex (compile_text fl2_exact ct0 (taproot_lock_src (B "7b72253c1f4454c7599fe81bcd199c7550a4c417b31c498f84e35199beb8d624") (z2b 0))) = "03207b72253c1f4454c7599fe81bcd199c7550a4c417b31c498f84e35199beb8d6245b00".
Proof. split; vm_compute; reflexivity. Qed.

Example ex_nonnative_taproot_lock_1 :
  get_symbols (nonnative_taproot_lock_src (B "7b72253c1f4454c7599fe81bcd199c7550a4c417b31c498f84e35199beb8d624") (z2b 0)) = get_symbols "         def 0 { push x7b72253c1f4454c7599fe81bcd199c7550a4c417b31c498f84e35199beb8d624 }         if ( dup size push d32 equal ) {             # stack: script, internal pubkey #             dup swap d0 d2             dup swap d1 d3             sha256 cat sha256 clamp_scalar x00 derive_point             add_points d2             call d0 eqv eval         } else {             # stack: signature #             call d0 check_sig x00         }     " /\
  chex (compile_text fl2_exact ct0 (nonnative_taproot_lock_src (B "7b72253c1f4454c7599fe81bcd199c7550a4c417b31c498f84e35199beb8d624") (z2b 0))) = "2900002203207b72253c1f4454c7599fe81bcd199c7550a4c417b31c498f84e35199beb8d6241d080220212c00141d3400021d3401031e371e4c004f1b022a00222d00042a002300".
Proof. split; vm_compute; reflexivity. Qed.

Example ex_taproot_witness_scriptspend_1 :
  get_symbols (taproot_witness_scriptspend_src (B "01") (B "03a107bff3ce10be1d70dd18e74bc09967e4d6309ba50d5f1ddc8664125531b8")) = get_symbols "push x01 push x03a107bff3ce10be1d70dd18e74bc09967e4d6309ba50d5f1ddc8664125531b8" /\
  chex (compile_text fl2_exact ct0 (taproot_witness_scriptspend_src (B "01") (B "03a107bff3ce10be1d70dd18e74bc09967e4d6309ba50d5f1ddc8664125531b8"))) = "0201032003a107bff3ce10be1d70dd18e74bc09967e4d6309ba50d5f1ddc8664125531b8".
Proof. split; vm_compute; reflexivity. Qed.

Example ex_taproot_lock_2 :
  get_symbols (taproot_lock_src (B "20d6b98aafcbb748f4f44a19a6357a7770dd0eb55d9120a1b76dd9df33b8bbd8") (z2b 16)) = get_symbols "push x20d6b98aafcbb748f4f44a19a6357a7770dd0eb55d9120a1b76dd9df33b8bbd8 tr x10" /\
  chex (compile_text fl2_exact ct0 (taproot_lock_src (B "20d6b98aafcbb748f4f44a19a6357a7770dd0eb55d9120a1b76dd9df33b8bbd8") (z2b 16))) = "032020d6b98aafcbb748f4f44a19a6357a7770dd0eb55d9120a1b76dd9df33b8bbd85b10".
Proof. split; vm_compute; reflexivity. Qed.

Example ex_nonnative_taproot_lock_2 :
  get_symbols (nonnative_taproot_lock_src (B "20d6b98aafcbb748f4f44a19a6357a7770dd0eb55d9120a1b76dd9df33b8bbd8") (z2b 16)) = get_symbols "         def 0 { push x20d6b98aafcbb748f4f44a19a6357a7770dd0eb55d9120a1b76dd9df33b8bbd8 }         if ( dup size push d32 equal ) {             # stack: script, internal pubkey #             dup swap d0 d2             dup swap d1 d3             sha256 cat sha256 clamp_scalar x00 derive_point             add_points d2             call d0 eqv eval         } else {             # stack: signature #             call d0 check_sig x10         }     " /\
  chex (compile_text fl2_exact ct0 (nonnative_taproot_lock_src (B "20d6b98aafcbb748f4f44a19a6357a7770dd0eb55d9120a1b76dd9df33b8bbd8") (z2b 16))) = "29000022032020d6b98aafcbb748f4f44a19a6357a7770dd0eb55d9120a1b76dd9df33b8bbd81d080220212c00141d3400021d3401031e371e4c004f1b022a00222d00042a002310".
Proof. split; vm_compute; reflexivity. Qed.

Example ex_taproot_witness_scriptspend_2 :
  get_symbols (taproot_witness_scriptspend_src (B "030201021d") (B "79b5562e8fe654f94078b112e8a98ba7901f853ae695bed7e0e3910bad049664")) = get_symbols "push x030201021d push x79b5562e8fe654f94078b112e8a98ba7901f853ae695bed7e0e3910bad049664" /\
  chex (compile_text fl2_exact ct0 (taproot_witness_scriptspend_src (B "030201021d") (B "79b5562e8fe654f94078b112e8a98ba7901f853ae695bed7e0e3910bad049664"))) = "0305030201021d032079b5562e8fe654f94078b112e8a98ba7901f853ae695bed7e0e3910bad049664".
Proof. split; vm_compute; reflexivity. Qed.

Example ex_merkle_lock_1 :
  get_symbols (merkle_lock_src (B "88142f848525dcb2a0e17f2ec11b24648f4c3f4b5b619acaff77fe1a5dcb0cea")) = get_symbols "OP_MERKLEVAL x88142f848525dcb2a0e17f2ec11b24648f4c3f4b5b619acaff77fe1a5dcb0cea" /\
  chex (compile_text fl2_exact ct0 (merkle_lock_src (B "88142f848525dcb2a0e17f2ec11b24648f4c3f4b5b619acaff77fe1a5dcb0cea"))) = "3c88142f848525dcb2a0e17f2ec11b24648f4c3f4b5b619acaff77fe1a5dcb0cea".
Proof. split; vm_compute; reflexivity. Qed.

Example ex_unlock_piece_1 :
  get_symbols (unlock_piece_src (B "6e340b9cffb37a989ca544e6bb780a2c78901d3fb33738768511a30617afa01d") (B "01")) = get_symbols "push x6e340b9cffb37a989ca544e6bb780a2c78901d3fb33738768511a30617afa01d push x01 " /\
  chex (compile_text fl2_exact ct0 (unlock_piece_src (B "6e340b9cffb37a989ca544e6bb780a2c78901d3fb33738768511a30617afa01d") (B "01"))) = "03206e340b9cffb37a989ca544e6bb780a2c78901d3fb33738768511a30617afa01d0201".
Proof. split; vm_compute; reflexivity. Qed.

Example ex_unlock_piece_node_1 :
  get_symbols (unlock_piece_src (B "1f18d650d205d71d934c3646ff5fac1c096ba52eba4cf758b865364f4167d3cd") (B "3c88142f848525dcb2a0e17f2ec11b24648f4c3f4b5b619acaff77fe1a5dcb0cea")) = get_symbols "push x1f18d650d205d71d934c3646ff5fac1c096ba52eba4cf758b865364f4167d3cd push x3c88142f848525dcb2a0e17f2ec11b24648f4c3f4b5b619acaff77fe1a5dcb0cea " /\
  chex (compile_text fl2_exact ct0 (unlock_piece_src (B "1f18d650d205d71d934c3646ff5fac1c096ba52eba4cf758b865364f4167d3cd") (B "3c88142f848525dcb2a0e17f2ec11b24648f4c3f4b5b619acaff77fe1a5dcb0cea"))) = "03201f18d650d205d71d934c3646ff5fac1c096ba52eba4cf758b865364f4167d3cd03213c88142f848525dcb2a0e17f2ec11b24648f4c3f4b5b619acaff77fe1a5dcb0cea".
Proof. split; vm_compute; reflexivity. Qed.

Example ex_merkle_lock_2 :
  get_symbols (merkle_lock_src (B "c6a762c11174b52099533ea841a29e67e4403e8f4b7231c50341d751e54aa621")) = get_symbols "OP_MERKLEVAL xc6a762c11174b52099533ea841a29e67e4403e8f4b7231c50341d751e54aa621" /\
  chex (compile_text fl2_exact ct0 (merkle_lock_src (B "c6a762c11174b52099533ea841a29e67e4403e8f4b7231c50341d751e54aa621"))) = "3cc6a762c11174b52099533ea841a29e67e4403e8f4b7231c50341d751e54aa621".
Proof. split; vm_compute; reflexivity. Qed.

Example ex_unlock_piece_2 :
  get_symbols (unlock_piece_src (B "40c26434f690c83048839161fcba8933e7e8850e82e9908af16f1ac8eb8355a1") (B "030201021d")) = get_symbols "push x40c26434f690c83048839161fcba8933e7e8850e82e9908af16f1ac8eb8355a1 push x030201021d " /\
  chex (compile_text fl2_exact ct0 (unlock_piece_src (B "40c26434f690c83048839161fcba8933e7e8850e82e9908af16f1ac8eb8355a1") (B "030201021d"))) = "032040c26434f690c83048839161fcba8933e7e8850e82e9908af16f1ac8eb8355a10305030201021d".
Proof. split; vm_compute; reflexivity. Qed.

Example ex_unlock_piece_node_2 :
  get_symbols (unlock_piece_src (B "1f18d650d205d71d934c3646ff5fac1c096ba52eba4cf758b865364f4167d3cd") (B "3cc6a762c11174b52099533ea841a29e67e4403e8f4b7231c50341d751e54aa621")) = get_symbols "push x1f18d650d205d71d934c3646ff5fac1c096ba52eba4cf758b865364f4167d3cd push x3cc6a762c11174b52099533ea841a29e67e4403e8f4b7231c50341d751e54aa621 " /\
  chex (compile_text fl2_exact ct0 (unlock_piece_src (B "1f18d650d205d71d934c3646ff5fac1c096ba52eba4cf758b865364f4167d3cd") (B "3cc6a762c11174b52099533ea841a29e67e4403e8f4b7231c50341d751e54aa621"))) = "03201f18d650d205d71d934c3646ff5fac1c096ba52eba4cf758b865364f4167d3cd03213cc6a762c11174b52099533ea841a29e67e4403e8f4b7231c50341d751e54aa621".
Proof. split; vm_compute; reflexivity. Qed.

Example ex_adapter_check_lock_1 :
  get_symbols (adapter_check_lock_src (z2b 0) (B "26f5a991b3bcc6be7e310857739b11ec5437de21ef6b2cce693b4017139c3c9e") (B "03a107bff3ce10be1d70dd18e74bc09967e4d6309ba50d5f1ddc8664125531b8")) = get_symbols "         # required push by unlocking script: signature adapter sa #         # required push by unlocking script: nonce point R #         get_message x00         push x26f5a991b3bcc6be7e310857739b11ec5437de21ef6b2cce693b4017139c3c9e         push x03a107bff3ce10be1d70dd18e74bc09967e4d6309ba50d5f1ddc8664125531b8         check_adapter_sig     " /\
  chex (compile_text fl2_exact ct0 (adapter_check_lock_src (z2b 0) (B "26f5a991b3bcc6be7e310857739b11ec5437de21ef6b2cce693b4017139c3c9e") (B "03a107bff3ce10be1d70dd18e74bc09967e4d6309ba50d5f1ddc8664125531b8"))) = "0500032026f5a991b3bcc6be7e310857739b11ec5437de21ef6b2cce693b4017139c3c9e032003a107bff3ce10be1d70dd18e74bc09967e4d6309ba50d5f1ddc8664125531b853".
Proof. split; vm_compute; reflexivity. Qed.

Example ex_adapter_sig_lock_1 :
  get_symbols (adapter_sig_lock_src (B "03a107bff3ce10be1d70dd18e74bc09967e4d6309ba50d5f1ddc8664125531b8") (z2b 0)) = get_symbols "         # required push by unlocking script: decrypted signature #         push x03a107bff3ce10be1d70dd18e74bc09967e4d6309ba50d5f1ddc8664125531b8 check_sig x00     " /\
  chex (compile_text fl2_exact ct0 (adapter_sig_lock_src (B "03a107bff3ce10be1d70dd18e74bc09967e4d6309ba50d5f1ddc8664125531b8") (z2b 0))) = "032003a107bff3ce10be1d70dd18e74bc09967e4d6309ba50d5f1ddc8664125531b82300".
Proof. split; vm_compute; reflexivity. Qed.

Example ex_adapter_check_lock_2 :
  get_symbols (adapter_check_lock_src (z2b 240) (B "26f5a991b3bcc6be7e310857739b11ec5437de21ef6b2cce693b4017139c3c9e") (B "43cdc023d22d5f9e107d1a0693457d35d1d10eb7d21c721192f56f5de40665d3")) = get_symbols "         # required push by unlocking script: signature adapter sa #         # required push by unlocking script: nonce point R #         get_message xf0         push x26f5a991b3bcc6be7e310857739b11ec5437de21ef6b2cce693b4017139c3c9e         push x43cdc023d22d5f9e107d1a0693457d35d1d10eb7d21c721192f56f5de40665d3         check_adapter_sig     " /\
  chex (compile_text fl2_exact ct0 (adapter_check_lock_src (z2b 240) (B "26f5a991b3bcc6be7e310857739b11ec5437de21ef6b2cce693b4017139c3c9e") (B "43cdc023d22d5f9e107d1a0693457d35d1d10eb7d21c721192f56f5de40665d3"))) = "05f0032026f5a991b3bcc6be7e310857739b11ec5437de21ef6b2cce693b4017139c3c9e032043cdc023d22d5f9e107d1a0693457d35d1d10eb7d21c721192f56f5de40665d353".
Proof. split; vm_compute; reflexivity. Qed.

Example ex_adapter_sig_lock_2 :
  get_symbols (adapter_sig_lock_src (B "43cdc023d22d5f9e107d1a0693457d35d1d10eb7d21c721192f56f5de40665d3") (z2b 240)) = get_symbols "         # required push by unlocking script: decrypted signature #         push x43cdc023d22d5f9e107d1a0693457d35d1d10eb7d21c721192f56f5de40665d3 check_sig xf0     " /\
  chex (compile_text fl2_exact ct0 (adapter_sig_lock_src (B "43cdc023d22d5f9e107d1a0693457d35d1d10eb7d21c721192f56f5de40665d3") (z2b 240))) = "032043cdc023d22d5f9e107d1a0693457d35d1d10eb7d21c721192f56f5de40665d323f0".
Proof. split; vm_compute; reflexivity. Qed.

Example ex_adapter_decrypt_1 :
  get_symbols (adapter_decrypt_src (B "05060708090a0b0c0d0e0f101112131415161718191a1b1c1d1e1f2021222324")) = get_symbols "         push x05060708090a0b0c0d0e0f101112131415161718191a1b1c1d1e1f2021222324         decrypt_adapter_sig     " /\
  chex (compile_text fl2_exact ct0 (adapter_decrypt_src (B "05060708090a0b0c0d0e0f101112131415161718191a1b1c1d1e1f2021222324"))) = "032005060708090a0b0c0d0e0f101112131415161718191a1b1c1d1e1f202122232454".
Proof. split; vm_compute; reflexivity. Qed.

Example ex_adapter_decrypt_2 :
  get_symbols (adapter_decrypt_src (B "090a0b0c0d0e0f101112131415161718191a1b1c1d1e1f202122232425262728")) = get_symbols "         push x090a0b0c0d0e0f101112131415161718191a1b1c1d1e1f202122232425262728         decrypt_adapter_sig     " /\
  chex (compile_text fl2_exact ct0 (adapter_decrypt_src (B "090a0b0c0d0e0f101112131415161718191a1b1c1d1e1f202122232425262728"))) = "0320090a0b0c0d0e0f101112131415161718191a1b1c1d1e1f20212223242526272854".
Proof. split; vm_compute; reflexivity. Qed.

Example ex_adapter_witness_1 :
  get_symbols (adapter_witness_src (B "acad5bb981095991b0321228d0b1014062868ea5300aa2ef3c35559189a2f70d") (B "8d3fb46bd0fa82c7d5c14a656e97aad80d0d6c83d1271707c731f82e112d2152")) = get_symbols "         push xacad5bb981095991b0321228d0b1014062868ea5300aa2ef3c35559189a2f70d         push x8d3fb46bd0fa82c7d5c14a656e97aad80d0d6c83d1271707c731f82e112d2152     " /\
  chex (compile_text fl2_exact ct0 (adapter_witness_src (B "acad5bb981095991b0321228d0b1014062868ea5300aa2ef3c35559189a2f70d") (B "8d3fb46bd0fa82c7d5c14a656e97aad80d0d6c83d1271707c731f82e112d2152"))) = "0320acad5bb981095991b0321228d0b1014062868ea5300aa2ef3c35559189a2f70d03208d3fb46bd0fa82c7d5c14a656e97aad80d0d6c83d1271707c731f82e112d2152".
Proof. split; vm_compute; reflexivity. Qed.

Example ex_delegate_key_lock_1 :
  get_symbols (delegate_key_lock_src (B "03a107bff3ce10be1d70dd18e74bc09967e4d6309ba50d5f1ddc8664125531b8") (z2b 0)) = get_symbols "         # required push: signature from delegate key #         # required push: cert of form: delegate public key + begin ts + end ts + can + sig #         push d41 split @= s 1 # sig #         dup         push d40 split pop0 # can #         push d36 split @= e 1 # end ts #         push d32 split @= b 1 @= d 1 # begin ts and delegate pubkey #          # prove the timestamp is within the cert bounds #         # val s""timestamp"" dup @b less verify #         # @e swap2 less verify #         @b check_timestamp_verify         @e check_timestamp not verify          @s swap2         push x03a107bff3ce10be1d70dd18e74bc09967e4d6309ba50d5f1ddc8664125531b8 check_sig_stack verify          @d check_sig x00     " /\
  chex (compile_text fl2_exact ct0 (delegate_key_lock_src (B "03a107bff3ce10be1d70dd18e74bc09967e4d6309ba50d5f1ddc8664125531b8") (z2b 0))) = "022938090173011d022838060224380901650102203809016201090164010a0162260a0165252e200a017335032003a107bff3ce10be1d70dd18e74bc09967e4d6309ba50d5f1ddc8664125531b84a200a01642300".
Proof. split; vm_compute; reflexivity. Qed.

Example ex_delegate_key_chain_lock_1 :
  get_symbols (delegate_key_chain_lock_src (B "03a107bff3ce10be1d70dd18e74bc09967e4d6309ba50d5f1ddc8664125531b8") (z2b 0)) = get_symbols "         def 0 {             # required push: signature from delegate key or additional cert #             # required push: cert of form: delegate public key + begin ts + end ts ts + can + sig #             # required push: authorizing pubkey #             @= r 1 # authorizing pubkey #             push d41 split @= s 1 # sig #             dup             push d40 split @= c 1 # can delegate further #             push d36 split @= e 1 # end ts ts #             push d32 split @= b 1 @= d 1 # begin ts and delegate pubkey #              # prove the timestamp is within the cert bounds #             # val s""timestamp"" dup @b less verify #             # @e swap2 less verify #             @b check_timestamp_verify             @e check_timestamp not verify              @s swap2 @r check_sig_stack verify             if ( @c and ) {                 @d call d0             } else {                 @d check_sig x00             }         }         push x03a107bff3ce10be1d70dd18e74bc09967e4d6309ba50d5f1ddc8664125531b8 call d0     " /\
  chex (compile_text fl2_exact ct0 (delegate_key_chain_lock_src (B "03a107bff3ce10be1d70dd18e74bc09967e4d6309ba50d5f1ddc8664125531b8") (z2b 0))) = "2900004b09017201022938090173011d022838090163010224380901650102203809016201090164010a0162260a0165252e200a0173350a01724a200a0163582c00050a01642a0000050a01642300032003a107bff3ce10be1d70dd18e74bc09967e4d6309ba50d5f1ddc8664125531b82a00".
Proof. split; vm_compute; reflexivity. Qed.

Example ex_graftroot_lock_unm_1 :
  get_symbols (graftroot_lock_src (B "03a107bff3ce10be1d70dd18e74bc09967e4d6309ba50d5f1ddc8664125531b8") (z2b 0)) = get_symbols "         @= k [ x03a107bff3ce10be1d70dd18e74bc09967e4d6309ba50d5f1ddc8664125531b8 ]         if {             dup             swap d1 d2             @k check_sig_stack verify             eval         } else {             @k check_sig x00         }" /\
  compile_text fl2_exact ct0 (graftroot_lock_src (B "03a107bff3ce10be1d70dd18e74bc09967e4d6309ba50d5f1ddc8664125531b8") (z2b 0)) = Unm.
Proof. split; vm_compute; reflexivity. Qed.

Example ex_graftap_committed_1 :
  get_symbols (graftap_committed_src (B "03a107bff3ce10be1d70dd18e74bc09967e4d6309ba50d5f1ddc8664125531b8")) = get_symbols "         dup         swap d1 d2         push x03a107bff3ce10be1d70dd18e74bc09967e4d6309ba50d5f1ddc8664125531b8 check_sig_stack verify         eval     " /\
  chex (compile_text fl2_exact ct0 (graftap_committed_src (B "03a107bff3ce10be1d70dd18e74bc09967e4d6309ba50d5f1ddc8664125531b8"))) = "1d340102032003a107bff3ce10be1d70dd18e74bc09967e4d6309ba50d5f1ddc8664125531b84a202d".
Proof. split; vm_compute; reflexivity. Qed.

Example ex_delegate_key_lock_2 :
  get_symbols (delegate_key_lock_src (B "79b5562e8fe654f94078b112e8a98ba7901f853ae695bed7e0e3910bad049664") (z2b 15)) = get_symbols "         # required push: signature from delegate key #         # required push: cert of form: delegate public key + begin ts + end ts + can + sig #         push d41 split @= s 1 # sig #         dup         push d40 split pop0 # can #         push d36 split @= e 1 # end ts #         push d32 split @= b 1 @= d 1 # begin ts and delegate pubkey #          # prove the timestamp is within the cert bounds #         # val s""timestamp"" dup @b less verify #         # @e swap2 less verify #         @b check_timestamp_verify         @e check_timestamp not verify          @s swap2         push x79b5562e8fe654f94078b112e8a98ba7901f853ae695bed7e0e3910bad049664 check_sig_stack verify          @d check_sig x0f     " /\
  chex (compile_text fl2_exact ct0 (delegate_key_lock_src (B "79b5562e8fe654f94078b112e8a98ba7901f853ae695bed7e0e3910bad049664") (z2b 15))) = "022938090173011d022838060224380901650102203809016201090164010a0162260a0165252e200a017335032079b5562e8fe654f94078b112e8a98ba7901f853ae695bed7e0e3910bad0496644a200a0164230f".
Proof. split; vm_compute; reflexivity. Qed.

Example ex_delegate_key_chain_lock_2 :
  get_symbols (delegate_key_chain_lock_src (B "79b5562e8fe654f94078b112e8a98ba7901f853ae695bed7e0e3910bad049664") (z2b 15)) = get_symbols "         def 0 {             # required push: signature from delegate key or additional cert #             # required push: cert of form: delegate public key + begin ts + end ts ts + can + sig #             # required push: authorizing pubkey #             @= r 1 # authorizing pubkey #             push d41 split @= s 1 # sig #             dup             push d40 split @= c 1 # can delegate further #             push d36 split @= e 1 # end ts ts #             push d32 split @= b 1 @= d 1 # begin ts and delegate pubkey #              # prove the timestamp is within the cert bounds #             # val s""timestamp"" dup @b less verify #             # @e swap2 less verify #             @b check_timestamp_verify             @e check_timestamp not verify              @s swap2 @r check_sig_stack verify             if ( @c and ) {                 @d call d0             } else {                 @d check_sig x0f             }         }         push x79b5562e8fe654f94078b112e8a98ba7901f853ae695bed7e0e3910bad049664 call d0     " /\
  chex (compile_text fl2_exact ct0 (delegate_key_chain_lock_src (B "79b5562e8fe654f94078b112e8a98ba7901f853ae695bed7e0e3910bad049664") (z2b 15))) = "2900004b09017201022938090173011d022838090163010224380901650102203809016201090164010a0162260a0165252e200a0173350a01724a200a0163582c00050a01642a0000050a0164230f032079b5562e8fe654f94078b112e8a98ba7901f853ae695bed7e0e3910bad0496642a00".
Proof. split; vm_compute; reflexivity. Qed.

Example ex_graftroot_lock_unm_2 :
  get_symbols (graftroot_lock_src (B "79b5562e8fe654f94078b112e8a98ba7901f853ae695bed7e0e3910bad049664") (z2b 15)) = get_symbols "         @= k [ x79b5562e8fe654f94078b112e8a98ba7901f853ae695bed7e0e3910bad049664 ]         if {             dup             swap d1 d2             @k check_sig_stack verify             eval         } else {             @k check_sig x0f         }" /\
  compile_text fl2_exact ct0 (graftroot_lock_src (B "79b5562e8fe654f94078b112e8a98ba7901f853ae695bed7e0e3910bad049664") (z2b 15)) = Unm.
Proof. split; vm_compute; reflexivity. Qed.

Example ex_graftap_committed_2 :
  get_symbols (graftap_committed_src (B "79b5562e8fe654f94078b112e8a98ba7901f853ae695bed7e0e3910bad049664")) = get_symbols "         dup         swap d1 d2         push x79b5562e8fe654f94078b112e8a98ba7901f853ae695bed7e0e3910bad049664 check_sig_stack verify         eval     " /\
  chex (compile_text fl2_exact ct0 (graftap_committed_src (B "79b5562e8fe654f94078b112e8a98ba7901f853ae695bed7e0e3910bad049664"))) = "1d340102032079b5562e8fe654f94078b112e8a98ba7901f853ae695bed7e0e3910bad0496644a202d".
Proof. split; vm_compute; reflexivity. Qed.

Example ex_delegate_key_witness_1 :
  get_symbols (delegate_key_witness_src (B "10f2ae3ec35d5fa32ed415a5c96a7713a4615c00e65cc3b613d9a20ac9a1eff92b39451920b8a3699150c2765c8448ffd8c7e9958798e01527f419a2b63ac30e") (B "79b5562e8fe654f94078b112e8a98ba7901f853ae695bed7e0e3910bad049664000003e877359400ff749aa51f7e24f16560d183279965581ff89c6f1125d11bfc3eb464da32d0fb8daef70b81b3ac34fd19192719b20484eddfc1265959d0d8b5673aa4e98dc34f0b")) = get_symbols "         push x10f2ae3ec35d5fa32ed415a5c96a7713a4615c00e65cc3b613d9a20ac9a1eff92b39451920b8a3699150c2765c8448ffd8c7e9958798e01527f419a2b63ac30e         push x79b5562e8fe654f94078b112e8a98ba7901f853ae695bed7e0e3910bad049664000003e877359400ff749aa51f7e24f16560d183279965581ff89c6f1125d11bfc3eb464da32d0fb8daef70b81b3ac34fd19192719b20484eddfc1265959d0d8b5673aa4e98dc34f0b     " /\
  chex (compile_text fl2_exact ct0 (delegate_key_witness_src (B "10f2ae3ec35d5fa32ed415a5c96a7713a4615c00e65cc3b613d9a20ac9a1eff92b39451920b8a3699150c2765c8448ffd8c7e9958798e01527f419a2b63ac30e") (B "79b5562e8fe654f94078b112e8a98ba7901f853ae695bed7e0e3910bad049664000003e877359400ff749aa51f7e24f16560d183279965581ff89c6f1125d11bfc3eb464da32d0fb8daef70b81b3ac34fd19192719b20484eddfc1265959d0d8b5673aa4e98dc34f0b"))) = "034010f2ae3ec35d5fa32ed415a5c96a7713a4615c00e65cc3b613d9a20ac9a1eff92b39451920b8a3699150c2765c8448ffd8c7e9958798e01527f419a2b63ac30e036979b5562e8fe654f94078b112e8a98ba7901f853ae695bed7e0e3910bad049664000003e877359400ff749aa51f7e24f16560d183279965581ff89c6f1125d11bfc3eb464da32d0fb8daef70b81b3ac34fd19192719b20484eddfc1265959d0d8b5673aa4e98dc34f0b".
Proof. split; vm_compute; reflexivity. Qed.

Example ex_delegate_key_chain_witness_1 :
  get_symbols (delegate_key_chain_witness_src (B "19a28cdd792810cc3d5cfcd9acb8de445ee1b48cc25a97a26701ed769bb12ce0de3940450fcaade0057e08cb95a4fc19580b0378fbd5178d4ec56037e6f3d308") (B "43cdc023d22d5f9e107d1a0693457d35d1d10eb7d21c721192f56f5de40665d3000003e877359400006cbf9fad37368272301486d228a1736ed93d61e59c7847b314f9362def9dee97333509ae8614f9700787b221aff9fcf14aa1a0d22b0a66482213f392b30f0d06") [(B "79b5562e8fe654f94078b112e8a98ba7901f853ae695bed7e0e3910bad049664000003e877359400ff749aa51f7e24f16560d183279965581ff89c6f1125d11bfc3eb464da32d0fb8daef70b81b3ac34fd19192719b20484eddfc1265959d0d8b5673aa4e98dc34f0b")]) = get_symbols "push x19a28cdd792810cc3d5cfcd9acb8de445ee1b48cc25a97a26701ed769bb12ce0de3940450fcaade0057e08cb95a4fc19580b0378fbd5178d4ec56037e6f3d308 false push x43cdc023d22d5f9e107d1a0693457d35d1d10eb7d21c721192f56f5de40665d3000003e877359400006cbf9fad37368272301486d228a1736ed93d61e59c7847b314f9362def9dee97333509ae8614f9700787b221aff9fcf14aa1a0d22b0a66482213f392b30f0d06 true push x79b5562e8fe654f94078b112e8a98ba7901f853ae695bed7e0e3910bad049664000003e877359400ff749aa51f7e24f16560d183279965581ff89c6f1125d11bfc3eb464da32d0fb8daef70b81b3ac34fd19192719b20484eddfc1265959d0d8b5673aa4e98dc34f0b" /\
  chex (compile_text fl2_exact ct0 (delegate_key_chain_witness_src (B "19a28cdd792810cc3d5cfcd9acb8de445ee1b48cc25a97a26701ed769bb12ce0de3940450fcaade0057e08cb95a4fc19580b0378fbd5178d4ec56037e6f3d308") (B "43cdc023d22d5f9e107d1a0693457d35d1d10eb7d21c721192f56f5de40665d3000003e877359400006cbf9fad37368272301486d228a1736ed93d61e59c7847b314f9362def9dee97333509ae8614f9700787b221aff9fcf14aa1a0d22b0a66482213f392b30f0d06") [(B "79b5562e8fe654f94078b112e8a98ba7901f853ae695bed7e0e3910bad049664000003e877359400ff749aa51f7e24f16560d183279965581ff89c6f1125d11bfc3eb464da32d0fb8daef70b81b3ac34fd19192719b20484eddfc1265959d0d8b5673aa4e98dc34f0b")])) = "034019a28cdd792810cc3d5cfcd9acb8de445ee1b48cc25a97a26701ed769bb12ce0de3940450fcaade0057e08cb95a4fc19580b0378fbd5178d4ec56037e6f3d30800036943cdc023d22d5f9e107d1a0693457d35d1d10eb7d21c721192f56f5de40665d3000003e877359400006cbf9fad37368272301486d228a1736ed93d61e59c7847b314f9362def9dee97333509ae8614f9700787b221aff9fcf14aa1a0d22b0a66482213f392b30f0d0601036979b5562e8fe654f94078b112e8a98ba7901f853ae695bed7e0e3910bad049664000003e877359400ff749aa51f7e24f16560d183279965581ff89c6f1125d11bfc3eb464da32d0fb8daef70b81b3ac34fd19192719b20484eddfc1265959d0d8b5673aa4e98dc34f0b".
Proof. split; vm_compute; reflexivity. Qed.

Example ex_delegate_key_chain_witness_2 :
  get_symbols (delegate_key_chain_witness_src (B "10f2ae3ec35d5fa32ed415a5c96a7713a4615c00e65cc3b613d9a20ac9a1eff92b39451920b8a3699150c2765c8448ffd8c7e9958798e01527f419a2b63ac30e") (B "79b5562e8fe654f94078b112e8a98ba7901f853ae695bed7e0e3910bad049664000003e877359400ff749aa51f7e24f16560d183279965581ff89c6f1125d11bfc3eb464da32d0fb8daef70b81b3ac34fd19192719b20484eddfc1265959d0d8b5673aa4e98dc34f0b") []) = get_symbols "push x10f2ae3ec35d5fa32ed415a5c96a7713a4615c00e65cc3b613d9a20ac9a1eff92b39451920b8a3699150c2765c8448ffd8c7e9958798e01527f419a2b63ac30e false push x79b5562e8fe654f94078b112e8a98ba7901f853ae695bed7e0e3910bad049664000003e877359400ff749aa51f7e24f16560d183279965581ff89c6f1125d11bfc3eb464da32d0fb8daef70b81b3ac34fd19192719b20484eddfc1265959d0d8b5673aa4e98dc34f0b" /\
  chex (compile_text fl2_exact ct0 (delegate_key_chain_witness_src (B "10f2ae3ec35d5fa32ed415a5c96a7713a4615c00e65cc3b613d9a20ac9a1eff92b39451920b8a3699150c2765c8448ffd8c7e9958798e01527f419a2b63ac30e") (B "79b5562e8fe654f94078b112e8a98ba7901f853ae695bed7e0e3910bad049664000003e877359400ff749aa51f7e24f16560d183279965581ff89c6f1125d11bfc3eb464da32d0fb8daef70b81b3ac34fd19192719b20484eddfc1265959d0d8b5673aa4e98dc34f0b") [])) = "034010f2ae3ec35d5fa32ed415a5c96a7713a4615c00e65cc3b613d9a20ac9a1eff92b39451920b8a3699150c2765c8448ffd8c7e9958798e01527f419a2b63ac30e00036979b5562e8fe654f94078b112e8a98ba7901f853ae695bed7e0e3910bad049664000003e877359400ff749aa51f7e24f16560d183279965581ff89c6f1125d11bfc3eb464da32d0fb8daef70b81b3ac34fd19192719b20484eddfc1265959d0d8b5673aa4e98dc34f0b".
Proof. split; vm_compute; reflexivity. Qed.


(* Where the real text and the bytes of model/Builders.v do not correspond. *)

(* F1.  "push x<v>" / "push d<n>" is the PUSH pseudo-instruction: OP_PUSH0 for a ONE-byte value, OP_PUSH1
   for 2..255 bytes, OP_PUSH2 for 256..65535 bytes, ValueError for the EMPTY value.  model/Builders.v
   writes P1 (OP_PUSH1) everywhere, with the comment "(2 <= len v <= 255, or 0)": the "or 0" is wrong
   for the builders (an empty key, signature or certificate makes the builder raise), and for a
   one-byte value the real bytes are OP_PUSH0 b, not OP_PUSH1 01 b.  In particular
   make_timestamp_*_lock(ts) with -128 <= ts <= 127 is NOT ts_*_lock (int_to_bytes ts): *)
Theorem ts_lock_one_byte_mismatch :
  int_to_bytes fl2_exact 5 = Some [x05] /\
  compile_text fl2_exact ct0 (ts_after_lock_src 5 false) = Ok (encode [P0 x05; IOp0 O_CHECK_TIMESTAMP]) /\
  compile_text fl2_exact ct0 (ts_after_lock_src 5 false) <> Ok (ts_after_lock [x05] false).
Proof. split; [|split]; vm_compute; [reflexivity|reflexivity|discriminate]. Qed.
Theorem push_empty_rejected :
  compile_text fl2_exact ct0 (single_sig_witness_src []) = Err /\
  compile_text fl2_exact ct0 (single_sig_lock_src [] x00) = Err.
Proof. split; vm_compute; reflexivity. Qed.
Theorem push_one_byte_is_push0 : forall fl2 ct b,
  compile_text fl2 ct (single_sig_witness_src [b]) = Ok (encode [P0 b]).
Proof. intros fl2 ct b. apply (pushes_compile fl2 ct [[b]] [P0 b]). repeat constructor. Qed.

(* F2.  "shake256 d<n>": the operand is written in the d-form, which must fit ONE byte as a SIGNED
   integer: hash_size >= 128 makes make_htlc_shake256_lock / make_htlc2_shake256_lock / make_scripthash_lock
   raise (AssertionError "value overflow"), while htlc_shake256_lock / scripthash_lock of model/Builders.v
   are defined for every byte n *)
Theorem shake256_size_128_rejected :
  compile_text fl2_exact ct0 (htlc_shake256_lock_src 128 (B "0102") (B "0102") 1700000000 (B "0102") x00) = Err /\
  compile_text fl2_exact ct0 (scripthash_lock_ct_src (B "0102") 200) = Err.
Proof. split; vm_compute; reflexivity. Qed.

(* F3.  make_delegate_key_chain_witness with an empty list of certificates: the text ends with "push" *)
Theorem chain_witness_no_cert_rejected :
  compile_text fl2_exact ct0 (text_of (push_toks (B "0102") ++ ["false"; "push"])) = Err.
Proof. vm_compute. reflexivity. Qed.

(* F4.  make_timestamp_between_lock never compiles its joined text (Script.__add__ concatenates the two
   byte strings); ts_between_lock_compiles shows that compiling the joined text gives the same bytes. *)

(* the as-written scripthash lock on the real values: make_scripthash_lock(Script.from_src('true false'), 20);
   the block  push x0100 shake256 d20  is 03 02 01 00 1f 14 and the real VM leaves
   c0e1557fdd66b486c8396fddb17d095e351e6ae7 on the stack; the real .bytes are as below *)
Definition ct_scripthash_example (code : bytes) : res (option bytes) :=
  if bytes_eqb code (B "030201001f14") then Ok (Some (B "c0e1557fdd66b486c8396fddb17d095e351e6ae7")) else Unm.
Example ex_scripthash_lock_written :
  chex (compile_text fl2_exact ct_scripthash_example (scripthash_lock_src (B "0100") 20))
  = "1d1f140314c0e1557fdd66b486c8396fddb17d095e351e6ae7222d".
Proof. vm_compute. reflexivity. Qed.

Print Assumptions unhex_ci_hexs.
Print Assumptions undec_dec.
Print Assumptions split_text_of.
Print Assumptions compile_toks.
Print Assumptions compile_toks_tops.
Print Assumptions compile_pieces.
Print Assumptions any_layout.
Print Assumptions single_sig_lock_compiles.
Print Assumptions single_sig_lock2_ct_compiles.
Print Assumptions pushes_compile.
Print Assumptions single_sig_witness_compiles.
Print Assumptions single_sig_witness2_compiles.
Print Assumptions delegate_key_witness_compiles.
Print Assumptions scripthash_witness_compiles.
Print Assumptions htlc_witness_compiles.
Print Assumptions htlc2_witness_compiles.
Print Assumptions taproot_witness_scriptspend_compiles.
Print Assumptions adapter_witness_compiles.
Print Assumptions unlock_piece_compiles.
Print Assumptions sig_then_compiles.
Print Assumptions ptlc_witness_tweak_compiles.
Print Assumptions ts_after_lock_compiles.
Print Assumptions ts_before_lock_compiles.
Print Assumptions ts_between_lock_compiles.
Print Assumptions multisig_lock_compiles.
Print Assumptions scripthash_lock_ct_compiles.
Print Assumptions ptlc_lock_compiles.
Print Assumptions htlc_sha256_lock_compiles.
Print Assumptions htlc_shake256_lock_compiles.
Print Assumptions htlc2_sha256_lock_ct_compiles.
Print Assumptions htlc2_shake256_lock_ct_compiles.
Print Assumptions taproot_lock_compiles.
Print Assumptions merkle_lock_compiles.
Print Assumptions adapter_decrypt_compiles.
Print Assumptions adapter_check_lock_compiles.
Print Assumptions adapter_sig_lock_compiles.
Print Assumptions graftap_committed_compiles.
Print Assumptions delegate_key_lock_compiles.
Print Assumptions delegate_key_chain_witness_compiles.
Print Assumptions nonnative_taproot_lock_compiles.
Print Assumptions delegate_key_chain_lock_compiles.
Print Assumptions ts_lock_one_byte_mismatch.
Print Assumptions push_empty_rejected.
Print Assumptions push_one_byte_is_push0.
Print Assumptions shake256_size_128_rejected.
Print Assumptions chain_witness_no_cert_rejected.
Print Assumptions ex_delegate_key_chain_lock_1.
Print Assumptions ex_graftroot_lock_unm_1.
Print Assumptions single_sig_lock2_compiles.
Print Assumptions scripthash_lock_compiles.
Print Assumptions htlc2_sha256_lock_compiles.
Print Assumptions htlc2_shake256_lock_compiles.
