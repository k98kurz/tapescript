(* C07 (tape part): tape data are immutable, the heap only grows, and within one activation the
   read pointer never moves backwards and never passes the end of the tape. *)
From Coq Require Import ZArith List Bool Lia.
From Coq.Strings Require Import Byte String.
From TS Require Import Bytes State Prog Ops Interp StateLemmas Closure.
Import ListNotations.
Local Open Scope nat_scope.

Definition data_of (st : state) (t : nat) : bytes := to_data (nth_tape st t).

Definition R_heap (st st' : state) : Prop :=
  List.length (st_tapes st) <= List.length (st_tapes st') /\
  forall t, t < List.length (st_tapes st) -> data_of st' t = data_of st t.

Lemma R_heap_refl s : R_heap s s.
Proof. split; auto. Qed.
Lemma R_heap_trans a b c : R_heap a b -> R_heap b c -> R_heap a c.
Proof.
  intros [H1 H2] [H3 H4]. split; [lia|]. intros t Ht. rewrite H4 by lia. apply H2. exact Ht.
Qed.
Lemma R_heap_tapes_eq st st' : st_tapes st' = st_tapes st -> R_heap st st'.
Proof. intro E. unfold R_heap, data_of, nth_tape. rewrite E. split; auto. Qed.

Lemma R_heap_set_count st tid c : R_heap st (set_count st tid c).
Proof. split; [rewrite set_count_length; lia|]. intros t _. apply data_set_count. Qed.

Lemma R_heap_new_tape st t : R_heap st (snd (new_tape st t)).
Proof.
  unfold R_heap, new_tape, data_of, nth_tape. simpl. rewrite app_length. simpl. split; [lia|].
  intros i Hi. rewrite app_nth1 by exact Hi. reflexivity.
Qed.

Lemma R_heap_tapes_app st st' l : st_tapes st' = st_tapes st ++ l -> R_heap st st'.
Proof.
  intro E. unfold R_heap, data_of, nth_tape. rewrite E, app_length. split; [lia|].
  intros i Hi. rewrite app_nth1 by exact Hi. reflexivity.
Qed.

Section Ptr.
Variable orc : oracle.
Variable cfg : config.

Lemma step_closed_heap : step_closed orc cfg R_heap.
Proof.
  intros run Hrun X a fr st.
  destruct a; simpl;
    try (apply R_heap_refl);
    try (apply R_heap_tapes_eq; reflexivity).
  - destruct (st_stack st); simpl; [apply R_heap_refl|apply R_heap_tapes_eq; reflexivity].
  - destruct (_ <? _); simpl; [apply R_heap_refl|].
    destruct (_ <=? _); simpl; [apply R_heap_refl|apply R_heap_tapes_eq; reflexivity].
  - destruct (st_stack st); simpl; apply R_heap_refl.
  - destruct (_ && _); simpl; [apply R_heap_tapes_eq; reflexivity|exact I].
  - destruct (_ <? _); simpl; apply R_heap_refl.
  - (* ACountIncr *) apply R_heap_set_count.
  - (* ADefSet *) eapply R_heap_tapes_app. reflexivity.
  - (* ACallDef *) eapply after_run_closed; [exact R_heap_trans| |apply Hrun]; apply R_heap_set_count.
  - (* ARunSub *)
    eapply after_run_closed; [exact R_heap_trans| |apply Hrun]; eapply R_heap_tapes_app; reflexivity.
  - (* ATrySub *)
    eapply try_run_closed; [exact R_heap_trans| |apply Hrun]; eapply R_heap_tapes_app; reflexivity.
  - (* ALoopNew *) eapply R_heap_tapes_app. reflexivity.
  - (* ARunLoop *) eapply after_run_closed; [exact R_heap_trans| |apply Hrun]; apply R_heap_refl.
Qed.

Theorem run_tape_heap : forall fuel tid ptr st, R_out R_heap st (run_tape orc cfg fuel tid ptr st).
Proof. apply run_tape_closed; [apply R_heap_refl|apply R_heap_trans|apply step_closed_heap]. Qed.

Definition ptr_rel (fr : frame) (st : state) (fr' : frame) (st' : state) : Prop :=
  fr_tid fr' = fr_tid fr /\ R_heap st st' /\
  (fr_tid fr < List.length (st_tapes st) ->
   fr_ptr fr <= List.length (data_of st (fr_tid fr)) ->
   fr_ptr fr <= fr_ptr fr' /\ fr_ptr fr' <= List.length (data_of st' (fr_tid fr'))).

Lemma ptr_rel_refl fr st : ptr_rel fr st fr st.
Proof. unfold ptr_rel. repeat split; auto using R_heap_refl. Qed.

Lemma ptr_rel_trans f1 s1 f2 s2 f3 s3 :
  ptr_rel f1 s1 f2 s2 -> ptr_rel f2 s2 f3 s3 -> ptr_rel f1 s1 f3 s3.
Proof.
  intros (A1 & A3 & A4) (B1 & B3 & B4). unfold ptr_rel.
  split; [congruence|]. split; [eapply R_heap_trans; eauto|].
  intros Ht Hp. destruct (A4 Ht Hp) as [A5 A6].
  assert (Ht2 : fr_tid f2 < List.length (st_tapes s2)) by (rewrite A1; destruct A3 as [L _]; lia).
  destruct (B4 Ht2 A6) as [B5 B6]. split; [lia|exact B6].
Qed.

Lemma ptr_rel_same_frame fr st st' : R_heap st st' -> ptr_rel fr st fr st'.
Proof.
  intros H. unfold ptr_rel. split; [reflexivity|]. split; [exact H|].
  intros Ht Hp. split; [lia|]. destruct H as [_ H]. rewrite H by exact Ht. exact Hp.
Qed.

Definition ptr_sres {X} (fr : frame) (st : state) (r : sres X) : Prop :=
  match r with SOk _ fr' st' | SRaise _ fr' st' => ptr_rel fr st fr' st' | _ => True end.
Definition ptr_out {A} (fr : frame) (st : state) (o : outcome A) : Prop :=
  match o with Done _ fr' st' | Raised _ fr' st' => ptr_rel fr st fr' st' | _ => True end.

Lemma step_ptr run (Hrun : run_ok R_heap run) X (a : action X) fr st :
  ptr_sres fr st (step orc cfg run a fr st).
Proof.
  pose proof (step_closed_heap run Hrun X a fr st) as Hh.
  destruct a; simpl in *;
    try (apply ptr_rel_same_frame; exact Hh).
  - destruct (st_stack st); simpl in *; apply ptr_rel_same_frame; exact Hh.
  - destruct (_ <? _); simpl in *; [apply ptr_rel_same_frame; exact Hh|].
    destruct (_ <=? _); simpl in *; apply ptr_rel_same_frame; exact Hh.
  - destruct (st_stack st); simpl in *; apply ptr_rel_same_frame; exact Hh.
  - destruct (_ && _); simpl in *; [apply ptr_rel_same_frame; exact Hh|exact I].
  - (* ARead *)
    destruct (_ <? _) eqn:E; simpl in *; [apply ptr_rel_same_frame; exact Hh|].
    apply Nat.ltb_ge in E. unfold ptr_rel. simpl. split; [reflexivity|]. split; [apply R_heap_refl|].
    intros _ _. unfold data_of, cur in *. lia.
  - (* ASetPtrEnd *)
    unfold ptr_rel. simpl. split; [reflexivity|]. split; [apply R_heap_refl|].
    intros _ Hp. unfold data_of, cur in *. lia.
  - (* ACallDef *)
    unfold after_run in *. destruct (run tid _); simpl in *; try exact I; apply ptr_rel_same_frame; exact Hh.
  - (* ARunSub *)
    unfold after_run in *.
    match goal with |- context [run ?t ?s] => destruct (run t s) end; simpl in *; try exact I;
      apply ptr_rel_same_frame; exact Hh.
  - (* ATrySub *)
    match goal with |- context [run ?t ?s] => destruct (run t s) end; simpl in *; try exact I;
      apply ptr_rel_same_frame; exact Hh.
  - (* ARunLoop *)
    unfold after_run in *. destruct (run tid st); simpl in *; try exact I; apply ptr_rel_same_frame; exact Hh.
Qed.

Lemma interp_ptr run (Hrun : run_ok R_heap run) A (p : prog A) :
  forall fr st, ptr_out fr st (interp orc cfg run p fr st).
Proof.
  induction p as [a|e|w|X a k IH]; intros fr st; simpl; try apply ptr_rel_refl; try exact I.
  pose proof (step_ptr run Hrun X a fr st) as Hs.
  destruct (step orc cfg run a fr st) as [x fr' st'|e fr' st'| |w]; simpl in *; try exact I; try exact Hs.
  specialize (IH x fr' st').
  destruct (interp orc cfg run (k x) fr' st'); simpl in *; try exact I; eapply ptr_rel_trans; eauto.
Qed.

Theorem run_tape_ptr : forall fuel tid ptr st,
  ptr_out {| fr_tid := tid; fr_ptr := ptr |} st (run_tape orc cfg fuel tid ptr st).
Proof.
  induction fuel as [|f IH]; intros tid ptr st; simpl; [exact I|].
  destruct (List.length (to_data (nth_tape st tid)) <=? ptr) eqn:E; simpl; [apply ptr_rel_refl|].
  apply Nat.leb_gt in E.
  assert (Hrun : run_ok R_heap (fun t s => run_tape orc cfg f t 0 s)) by (intros t s; apply run_tape_heap).
  pose proof (interp_ptr _ Hrun unit
                (dispatch (N.to_nat (Byte.to_N (nth ptr (to_data (nth_tape st tid)) x00))))
                {| fr_tid := tid; fr_ptr := S ptr |} st) as Hi.
  assert (H0 : ptr_rel {| fr_tid := tid; fr_ptr := ptr |} st {| fr_tid := tid; fr_ptr := S ptr |} st).
  { unfold ptr_rel. simpl. split; [reflexivity|]. split; [apply R_heap_refl|]. intros _ _. unfold data_of. lia. }
  destruct (interp orc cfg _ _ _ st) as [a fr' st'|e fr' st'| |w]; simpl in *; try exact I.
  - specialize (IH tid (fr_ptr fr') st').
    assert (Hf : fr' = {| fr_tid := tid; fr_ptr := fr_ptr fr' |}).
    { destruct fr' as [t p]. destruct Hi as (Ht & _). simpl in *. congruence. }
    destruct (run_tape orc cfg f tid (fr_ptr fr') st'); simpl in *; try exact I.
    + eapply ptr_rel_trans; [exact H0|]. eapply ptr_rel_trans; [exact Hi|]. rewrite Hf. exact IH.
    + eapply ptr_rel_trans; [exact H0|]. eapply ptr_rel_trans; [exact Hi|]. rewrite Hf. exact IH.
  - eapply ptr_rel_trans; eauto.
Qed.

(* every operand read stays inside the tape: ARead either raises or leaves ptr <= len *)
Theorem read_in_bounds run fr st n :
  match step orc cfg run (ARead n) fr st with
  | SOk b fr' st' => fr_ptr fr' <= List.length (to_data (cur fr st)) /\ fr_ptr fr <= fr_ptr fr' /\ st' = st
  | SRaise e fr' st' => e = ScriptExecutionError /\ fr' = fr /\ st' = st
  | _ => False
  end.
Proof.
  simpl. destruct (_ <? _) eqn:E; simpl.
  - auto.
  - apply Nat.ltb_ge in E. repeat split; auto; lia.
Qed.

End Ptr.
