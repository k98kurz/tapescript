(* C01: the authorisation verdict, characterised independently of the driver function. *)
From Coq Require Import ZArith List Bool Lia.
From Coq.Strings Require Import Byte String.
From TS Require Import Bytes State Prog Interp StateLemmas.
Import ListNotations.
Local Open Scope nat_scope.

Section Auth.
Variable orc : oracle.
Variable cfg : config.
Variable fuel : nat.

(* the state in which a later script starts: a fresh tape object for its bytes that takes over the call
   count and the definition table of the previous top-level tape; same stack, same cache minus the
   control flag; nothing else *)
Definition next_start (st : state) (prev : nat) (s : bytes) : nat * state :=
  let p := nth_tape st prev in
  let tid := List.length (st_tapes st) in
  (tid, with_cache (with_tapes st (st_tapes st ++ [{| to_data := s; to_count := to_count p; to_defs := to_defs p |}]))
                   (cache_del (st_cache st) returned_key)).

(* every script of the list runs from offset 0 of its own bytes to a normal end *)
Inductive chain : list bytes -> nat -> state -> state -> Prop :=
| chain_nil prev st : chain [] prev st st
| chain_cons s rest prev st fr st1 st2 :
    run_tape orc cfg fuel (fst (next_start st prev s)) 0 (snd (next_start st prev s)) = Done tt fr st1 ->
    chain rest (fst (next_start st prev s)) st1 st2 ->
    chain (s :: rest) prev st st2.

(* some script of the list raises *)
Inductive chain_raises : list bytes -> nat -> state -> Prop :=
| raises_here s rest prev st e fr st1 :
    run_tape orc cfg fuel (fst (next_start st prev s)) 0 (snd (next_start st prev s)) = Raised e fr st1 ->
    chain_raises (s :: rest) prev st
| raises_later s rest prev st fr st1 :
    run_tape orc cfg fuel (fst (next_start st prev s)) 0 (snd (next_start st prev s)) = Done tt fr st1 ->
    chain_raises rest (fst (next_start st prev s)) st1 ->
    chain_raises (s :: rest) prev st.

Definition accepting (st : state) : bool :=
  match st_stack st with [item] => bytes_eqb item [xff] | _ => false end.

Lemma auth_rest_unfold s rest prev st :
  auth_rest orc cfg fuel (s :: rest) prev st =
    match run_tape orc cfg fuel (fst (next_start st prev s)) 0 (snd (next_start st prev s)) with
    | Done _ _ st' => auth_rest orc cfg fuel rest (fst (next_start st prev s)) st'
    | Raised _ _ st' => AuthVerdict false st'
    | OutOfFuel => AuthFuel
    | Unmodelled w => AuthUnmod w
    end.
Proof. reflexivity. Qed.

Lemma auth_rest_true rest : forall prev st stf,
  auth_rest orc cfg fuel rest prev st = AuthVerdict true stf <->
  exists st2, chain rest prev st st2 /\ st_stack st2 = [[xff]] /\ stf = with_stack st2 [].
Proof.
  induction rest as [|s rest IH]; intros prev st stf.
  - simpl. split.
    + destruct (st_stack st) as [|item [|x y]] eqn:E; try discriminate.
      intro H. injection H as Hb Hs. exists st. split; [constructor|].
      apply bytes_eqb_eq in Hb. subst item. split; [exact E|symmetry; exact Hs].
    + intros (st2 & Hc & Hs & Hf). inversion Hc; subst. rewrite Hs. reflexivity.
  - rewrite auth_rest_unfold. split.
    + destruct (run_tape orc cfg fuel _ 0 _) as [[] fr st1|e fr st1| |w] eqn:E; try discriminate.
      intro H. apply IH in H. destruct H as (st2 & Hc & Hs & Hf).
      exists st2. split; [econstructor; eauto|auto].
    + intros (st2 & Hc & Hs & Hf). inversion Hc; subst.
      match goal with H : run_tape _ _ _ _ _ _ = Done tt _ _ |- _ => rewrite H end.
      apply IH. eauto.
Qed.

(* verdict True  <=>  the first script runs to a normal end through run_script, every later script runs
   to a normal end from its own first instruction, and the stack then is exactly [ff] *)
Theorem auth_true_iff s0 rest vals stf :
  run_auth_scripts orc cfg fuel (s0 :: rest) vals = AuthVerdict true stf <->
  exists fr st1 st2, run_script orc cfg fuel s0 vals = Done tt fr st1 /\ chain rest 0 st1 st2
                     /\ st_stack st2 = [[xff]] /\ stf = with_stack st2 [].
Proof.
  unfold run_auth_scripts. split.
  - destruct (run_script orc cfg fuel s0 vals) as [[] fr st1|e fr st1| |w] eqn:E; try discriminate.
    intro H. apply auth_rest_true in H. destruct H as (st2 & Hc & Hs & Hf). exists fr, st1, st2. auto.
  - intros (fr & st1 & st2 & Hr & Hc & Hs & Hf). rewrite Hr. apply auth_rest_true. eauto.
Qed.

Lemma auth_rest_false rest : forall prev st stf,
  auth_rest orc cfg fuel rest prev st = AuthVerdict false stf ->
  chain_raises rest prev st \/ exists st2, chain rest prev st st2 /\ accepting st2 = false.
Proof.
  induction rest as [|s rest IH]; intros prev st stf.
  - simpl. intro H. right. exists st. split; [constructor|]. unfold accepting.
    destruct (st_stack st) as [|item [|x y]]; try reflexivity. injection H as Hb _. exact Hb.
  - rewrite auth_rest_unfold.
    destruct (run_tape orc cfg fuel _ 0 _) as [[] fr st1|e fr st1| |w] eqn:E; try discriminate.
    + intro H. apply IH in H. destruct H as [H|(st2 & Hc & Ha)].
      * left. eapply raises_later; eauto.
      * right. exists st2. split; [econstructor; eauto|exact Ha].
    + intros _. left. eapply raises_here; eauto.
Qed.

(* verdict False: a script raised, or all ran and the stack is not exactly [ff].  There is no third
   outcome: a raise inside any script never escapes run_auth_scripts (it becomes False). *)
Theorem auth_false_cases s0 rest vals stf :
  run_auth_scripts orc cfg fuel (s0 :: rest) vals = AuthVerdict false stf ->
  (exists e fr st1, run_script orc cfg fuel s0 vals = Raised e fr st1) \/
  (exists fr st1, run_script orc cfg fuel s0 vals = Done tt fr st1 /\
     (chain_raises rest 0 st1 \/ exists st2, chain rest 0 st1 st2 /\ accepting st2 = false)).
Proof.
  unfold run_auth_scripts.
  destruct (run_script orc cfg fuel s0 vals) as [[] fr st1|e fr st1| |w] eqn:E; try discriminate.
  - intro H. right. exists fr, st1. split; [reflexivity|]. eapply auth_rest_false; eauto.
  - intros _. left. eauto.
Qed.

(* a later script starts with: its own bytes, pointer 0, the control flag removed, stack / definitions /
   call count inherited *)
Theorem next_start_spec st prev s :
  let tid := fst (next_start st prev s) in
  let st' := snd (next_start st prev s) in
  to_data (nth_tape st' tid) = s /\
  to_count (nth_tape st' tid) = to_count (nth_tape st prev) /\
  to_defs (nth_tape st' tid) = to_defs (nth_tape st prev) /\
  st_stack st' = st_stack st /\ st_defs st' = st_defs st /\
  cache_get (st_cache st') returned_key = None.
Proof.
  cbv zeta. unfold next_start, nth_tape. simpl. rewrite app_nth2 by lia. rewrite Nat.sub_diag. simpl.
  repeat split. apply cache_get_del_same.
Qed.

End Auth.
