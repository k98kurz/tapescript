(* Combinatorial content of OP_CHECK_MULTISIG on the pure version of the greedy matching
   loop (model/Ops.v [ms_find] / [ms_go] with the signature check abstracted to [chk]).

     confirmed = set()
     for sig in sigs:
         for vkey in vkeys:
             if chk(sig, vkey):
                 vkeys.remove(vkey); confirmed.add(sig); break
     result = len(confirmed) == len(sigs)

   Soundness (unconditional): a passing verdict yields pairwise different signatures, each
   valid under a different POSITION of the key list.  Completeness and order invariance hold
   under explicit premises; the examples at the end show that they fail without them. *)
From Coq Require Import List Bool Arith Lia.
From Coq.Sorting Require Import Permutation.
From Coq.Strings Require Import Byte.
From TS Require Import Bytes Ops StateLemmas.
Import ListNotations.
Local Open Scope nat_scope.

Definition bytes_dec : forall a b : bytes, {a = b} + {a <> b} := list_eq_dec Byte.byte_eq_dec.

Lemma existsb_bytes_eqb_In (x : bytes) (l : list bytes) :
  existsb (bytes_eqb x) l = true <-> In x l.
Proof.
  rewrite existsb_exists. split.
  - intros [y [Hy E]]. apply bytes_eqb_eq in E. subst. exact Hy.
  - intros H. exists x. split; [exact H | apply bytes_eqb_refl].
Qed.

Lemma set_add_notin (c : list bytes) (s : bytes) : ~ In s c -> set_add c s = s :: c.
Proof.
  intros H. unfold set_add. destruct (existsb (bytes_eqb s) c) eqn:E; [|reflexivity].
  apply existsb_bytes_eqb_In in E. contradiction.
Qed.

Lemma set_add_in (c : list bytes) (s : bytes) : In s c -> set_add c s = c.
Proof.
  intros H. unfold set_add. apply existsb_bytes_eqb_In in H. rewrite H. reflexivity.
Qed.

Lemma set_add_length_le (c : list bytes) (s : bytes) : length (set_add c s) <= S (length c).
Proof. unfold set_add. destruct (existsb (bytes_eqb s) c); simpl; lia. Qed.

Lemma set_add_length_full (c : list bytes) (s : bytes) :
  length (set_add c s) = S (length c) -> ~ In s c.
Proof.
  intros H Hin. rewrite (set_add_in _ _ Hin) in H. lia.
Qed.

Lemma remove_first_perm (keys : list bytes) (k : bytes) :
  In k keys -> Permutation keys (k :: remove_first keys k).
Proof.
  induction keys as [|y t IH]; simpl; [tauto|].
  intros H. destruct (bytes_eqb y k) eqn:E.
  - apply bytes_eqb_eq in E. subst. apply Permutation_refl.
  - destruct H as [H|H]; [subst; rewrite bytes_eqb_refl in E; discriminate|].
    eapply perm_trans; [apply perm_skip, IH, H | apply perm_swap].
Qed.

Lemma remove_first_in_neq (keys : list bytes) (k x : bytes) :
  In x keys -> x <> k -> In x (remove_first keys k).
Proof.
  induction keys as [|y t IH]; simpl; [tauto|].
  intros H Hne. destruct (bytes_eqb y k) eqn:E.
  - apply bytes_eqb_eq in E. subst. destruct H; [congruence | assumption].
  - destruct H; [left; assumption | right; auto].
Qed.

Lemma remove_first_incl (keys : list bytes) (k x : bytes) :
  In x (remove_first keys k) -> In x keys.
Proof.
  induction keys as [|y t IH]; simpl; [tauto|].
  destruct (bytes_eqb y k); simpl; intuition.
Qed.

Lemma NoDup_app_l {A} (l r : list A) : NoDup (l ++ r) -> NoDup l.
Proof.
  induction l as [|a l IH]; simpl; intros H; [constructor|].
  inversion H; subst. constructor; [|auto].
  intros Hin. apply H2. apply in_or_app. auto.
Qed.

Lemma Forall2_In_l {A B} (R : A -> B -> Prop) (l : list A) (l' : list B) (a : A) :
  Forall2 R l l' -> In a l -> exists b, In b l' /\ R a b.
Proof.
  induction 1; simpl; [tauto|].
  intros [->|H1].
  - eauto.
  - destruct (IHForall2 H1) as [b [Hb Rb]]. eauto.
Qed.

(* An injective, functional matching: if every left element relates to at most one element
   of the right list, and the right list has no duplicates, then two left elements related
   to the same right element are equal. *)
Lemma Forall2_inj {A B} (R : A -> B -> Prop) (l : list A) (ks : list B) :
  Forall2 R l ks -> NoDup ks ->
  (forall s k1 k2, In s l -> In k1 ks -> In k2 ks -> R s k1 -> R s k2 -> k1 = k2) ->
  forall s1 s2 k, In s1 l -> In s2 l -> In k ks -> R s1 k -> R s2 k -> s1 = s2.
Proof.
  induction 1 as [|a b l ks Rab F IH]; simpl; [tauto|].
  intros ND ex s1 s2 k H1 H2 Hk R1 R2.
  inversion ND as [|? ? Hnb ND']; subst.
  assert (exl : forall s k1 k2, In s l -> In k1 ks -> In k2 ks -> R s k1 -> R s k2 -> k1 = k2)
    by (intros s0 k1 k2 ? ? ? ? ?; apply (ex s0 k1 k2); auto).
  assert (cross : forall s, In s l -> R s k -> R a k -> False).
  { intros s Hs Rs Ra.
    destruct (Forall2_In_l _ _ _ _ F Hs) as [k' [Hk' Rk']].
    assert (k' = k) by (eapply (ex s); eauto). subst k'.
    assert (b = k) by (eapply (ex a); eauto). subst b. contradiction. }
  destruct H1 as [->|H1], H2 as [->|H2].
  - reflexivity.
  - exfalso. eapply cross; eauto.
  - exfalso. eapply cross; eauto.
  - destruct (Forall2_In_l _ _ _ _ F H1) as [k' [Hk' Rk']].
    assert (k' = k) by (eapply (ex s1); eauto). subst k'.
    eapply IH; eauto.
Qed.

Section MS.
Variable chk : bytes -> bytes -> bool.

Fixpoint pfind (sig : bytes) (keys : list bytes) : option bytes :=
  match keys with [] => None | k :: t => if chk sig k then Some k else pfind sig t end.

Fixpoint pgo (sigs keys confirmed : list bytes) : list bytes :=
  match sigs with
  | [] => confirmed
  | s :: t => match pfind s keys with
              | Some k => pgo t (remove_first keys k) (set_add confirmed s)
              | None => pgo t keys confirmed
              end
  end.

Definition ms_verdict (sigs keys : list bytes) : bool :=
  Nat.eqb (List.length (pgo sigs keys [])) (List.length sigs).

Lemma pfind_some (s : bytes) (keys : list bytes) (k : bytes) :
  pfind s keys = Some k -> In k keys /\ chk s k = true.
Proof.
  induction keys as [|y t IH]; simpl; [discriminate|].
  destruct (chk s y) eqn:E.
  - intros [= <-]. auto.
  - intros H. destruct (IH H). auto.
Qed.

Lemma pfind_none (s : bytes) (keys : list bytes) :
  pfind s keys = None -> forall k, In k keys -> chk s k = false.
Proof.
  induction keys as [|y t IH]; simpl; [tauto|].
  destruct (chk s y) eqn:E; [discriminate|].
  intros H k [<-|Hk]; auto.
Qed.

Lemma pfind_exists (s : bytes) (keys : list bytes) (k : bytes) :
  In k keys -> chk s k = true -> exists k', pfind s keys = Some k'.
Proof.
  intros Hk Hc. destruct (pfind s keys) eqn:E; [eauto|].
  rewrite (pfind_none _ _ E _ Hk) in Hc. discriminate.
Qed.

(* The confirmed set grows by at most one per signature; it grows by exactly one per
   signature only if all signatures are new, pairwise different, and injectively matched. *)
Lemma pgo_spec (sigs : list bytes) :
  forall keys c,
    length (pgo sigs keys c) <= length c + length sigs /\
    (length (pgo sigs keys c) = length c + length sigs ->
       NoDup sigs /\ (forall s, In s sigs -> ~ In s c) /\
       exists ks rest, length ks = length sigs /\
                       Forall2 (fun s k => chk s k = true) sigs ks /\
                       Permutation keys (ks ++ rest)).
Proof.
  induction sigs as [|s t IH]; intros keys c; simpl.
  - split; [lia|]. intros _. split; [constructor|]. split; [tauto|].
    exists [], keys. simpl. repeat split; auto.
  - destruct (pfind s keys) as [k|] eqn:E.
    + destruct (pfind_some _ _ _ E) as [Hk Hc].
      destruct (IH (remove_first keys k) (set_add c s)) as [Hle Hfull].
      pose proof (set_add_length_le c s) as Hs.
      split; [lia|]. intros Heq.
      assert (Hlen : length (set_add c s) = S (length c)) by lia.
      pose proof (set_add_length_full _ _ Hlen) as Hnin.
      destruct Hfull as [ND [Hdis [ks [rest [Hl [F P]]]]]]; [lia|].
      rewrite (set_add_notin _ _ Hnin) in Hdis.
      split; [|split].
      * constructor; [|exact ND]. intros Hin. apply (Hdis s Hin). left. reflexivity.
      * intros s' [<-|Hs'] Hin'; [contradiction|].
        apply (Hdis s' Hs'). right. exact Hin'.
      * exists (k :: ks), rest. simpl. split; [lia|]. split; [constructor; assumption|].
        eapply perm_trans; [apply remove_first_perm; exact Hk|].
        apply perm_skip. exact P.
    + destruct (IH keys c) as [Hle _]. split; [lia|]. intros Heq. lia.
Qed.

Theorem multisig_sound :
  forall sigs keys, ms_verdict sigs keys = true ->
    NoDup sigs /\
    exists ks rest, List.length ks = List.length sigs /\
                    Forall2 (fun s k => chk s k = true) sigs ks /\
                    Permutation keys (ks ++ rest).
Proof.
  intros sigs keys H. unfold ms_verdict in H. apply Nat.eqb_eq in H.
  destruct (pgo_spec sigs keys []) as [_ Hfull].
  destruct (Hfull H) as [ND [_ Hex]]. split; assumption.
Qed.

Corollary multisig_repeated_sig_fails :
  forall sigs keys, ~ NoDup sigs -> ms_verdict sigs keys = false.
Proof.
  intros sigs keys H. destruct (ms_verdict sigs keys) eqn:E; [|reflexivity].
  destruct (multisig_sound _ _ E) as [ND _]. contradiction.
Qed.

(* Any matching as produced by soundness uses each key VALUE at most as often as it occurs
   in the key list. *)
Lemma matching_count_occ :
  forall (sigs keys : list bytes),
    (exists ks rest, List.length ks = List.length sigs /\
                     Forall2 (fun s k => chk s k = true) sigs ks /\
                     Permutation keys (ks ++ rest)) ->
    exists ks rest, List.length ks = List.length sigs /\
                    Forall2 (fun s k => chk s k = true) sigs ks /\
                    Permutation keys (ks ++ rest) /\
                    forall k, count_occ bytes_dec ks k <= count_occ bytes_dec keys k.
Proof.
  intros sigs keys [ks [rest [Hl [F P]]]]. exists ks, rest. repeat split; auto.
  intros k. rewrite (proj1 (Permutation_count_occ bytes_dec _ _) P k), count_occ_app. lia.
Qed.

(* The premises actually used: the signatures are pairwise different and new, every
   signature has a key, and no key of the list validates two different signatures. *)
Lemma pgo_complete (sigs : list bytes) :
  forall keys c,
    NoDup sigs ->
    (forall s, In s sigs -> ~ In s c) ->
    (forall s, In s sigs -> exists k, In k keys /\ chk s k = true) ->
    (forall s1 s2 k, In s1 sigs -> In s2 sigs -> In k keys ->
                     chk s1 k = true -> chk s2 k = true -> s1 = s2) ->
    length (pgo sigs keys c) = length c + length sigs.
Proof.
  induction sigs as [|s t IH]; intros keys c ND Hdis Hall Hinj; simpl; [lia|].
  inversion ND as [|? ? Hnt ND']; subst.
  destruct (Hall s (or_introl eq_refl)) as [k0 [Hk0 Hc0]].
  destruct (pfind_exists _ _ _ Hk0 Hc0) as [k E]. rewrite E.
  destruct (pfind_some _ _ _ E) as [Hk Hc].
  rewrite (set_add_notin c s) by (apply Hdis; left; reflexivity).
  rewrite IH; simpl; try lia; auto.
  - intros s' Hs' [<-|Hin]; [contradiction|]. apply (Hdis s'); [right; assumption | assumption].
  - intros s' Hs'. destruct (Hall s' (or_intror Hs')) as [k' [Hk' Hc']].
    exists k'. split; [|exact Hc'].
    apply remove_first_in_neq; [exact Hk'|]. intros ->.
    assert (s = s') by (apply (Hinj s s' k); simpl; auto). subst. contradiction.
  - intros s1 s2 k' H1 H2 Hk'. apply Hinj; simpl; auto.
    eapply remove_first_incl; eassumption.
Qed.

(* Stronger form: neither exclusivity nor NoDup keys is needed once no key validates two
   different signatures. *)
Theorem multisig_complete_strong :
  forall sigs keys,
    NoDup sigs ->
    (forall s, In s sigs -> exists k, In k keys /\ chk s k = true) ->
    (forall s1 s2 k, In s1 sigs -> In s2 sigs -> In k keys ->
                     chk s1 k = true -> chk s2 k = true -> s1 = s2) ->
    ms_verdict sigs keys = true.
Proof.
  intros sigs keys ND Hall Hinj. unfold ms_verdict. apply Nat.eqb_eq.
  rewrite (pgo_complete sigs keys []); auto.
Qed.

Theorem multisig_complete :
  forall sigs keys,
    (forall s k1 k2, In s sigs -> In k1 keys -> In k2 keys ->
                     chk s k1 = true -> chk s k2 = true -> k1 = k2) ->
    NoDup sigs -> NoDup keys ->
    (forall s, In s sigs -> exists k, In k keys /\ chk s k = true) ->
    (forall s1 s2 k, In s1 sigs -> In s2 sigs -> In k keys ->
                     chk s1 k = true -> chk s2 k = true -> s1 = s2) ->
    ms_verdict sigs keys = true.
Proof.
  intros sigs keys _ ND _ Hall Hinj. apply multisig_complete_strong; assumption.
Qed.

(* what the verdict amounts to under exclusivity and NoDup keys; it only mentions membership *)
Definition matchable (sigs keys : list bytes) : Prop :=
  (forall s, In s sigs -> exists k, In k keys /\ chk s k = true) /\
  (forall s1 s2 k, In s1 sigs -> In s2 sigs -> In k keys ->
                   chk s1 k = true -> chk s2 k = true -> s1 = s2).

Lemma matchable_ext (sigs keys sigs' keys' : list bytes) :
  (forall x, In x sigs' <-> In x sigs) -> (forall x, In x keys' <-> In x keys) ->
  matchable sigs keys -> matchable sigs' keys'.
Proof.
  intros Is Ik [Hall Hinj]. split.
  - intros s Hs. destruct (Hall s (proj1 (Is s) Hs)) as [k [Hk Hc]].
    exists k. split; [apply Ik|]; assumption.
  - intros s1 s2 k H1 H2 Hk. apply Hinj; [apply Is | apply Is | apply Ik]; assumption.
Qed.

Theorem multisig_verdict_iff :
  forall sigs keys,
    (forall s k1 k2, In s sigs -> In k1 keys -> In k2 keys ->
                     chk s k1 = true -> chk s k2 = true -> k1 = k2) ->
    NoDup sigs -> NoDup keys ->
    (ms_verdict sigs keys = true <-> matchable sigs keys).
Proof.
  intros sigs keys excl NDs NDk. split.
  - intros H. destruct (multisig_sound _ _ H) as [_ [ks [rest [Hl [F P]]]]].
    assert (Hsub : forall k, In k ks -> In k keys).
    { intros k Hk. apply (Permutation_in _ (Permutation_sym P)). apply in_or_app. auto. }
    assert (NDks : NoDup ks).
    { apply (NoDup_app_l ks rest). eapply Permutation_NoDup; eassumption. }
    split.
    + intros s Hs. destruct (Forall2_In_l _ _ _ _ F Hs) as [k [Hk Hc]]. eauto.
    + intros s1 s2 k H1 H2 Hk C1 C2.
      destruct (Forall2_In_l _ _ _ _ F H1) as [k1 [Hk1 Hc1]].
      assert (k1 = k) by (apply (excl s1); auto). subst k1.
      eapply (Forall2_inj _ _ _ F NDks); eauto.
  - intros [Hall Hinj]. apply multisig_complete_strong; assumption.
Qed.

Theorem multisig_order_invariant :
  forall sigs keys sigs' keys',
    (forall s k1 k2, In s sigs -> In k1 keys -> In k2 keys ->
                     chk s k1 = true -> chk s k2 = true -> k1 = k2) ->
    NoDup sigs -> NoDup keys ->
    Permutation sigs sigs' -> Permutation keys keys' ->
    ms_verdict sigs' keys' = ms_verdict sigs keys.
Proof.
  intros sigs keys sigs' keys' excl NDs NDk Ps Pk.
  assert (Is : forall x, In x sigs' <-> In x sigs).
  { intros x. split; apply Permutation_in; [apply Permutation_sym|]; assumption. }
  assert (Ik : forall x, In x keys' <-> In x keys).
  { intros x. split; apply Permutation_in; [apply Permutation_sym|]; assumption. }
  assert (excl' : forall s k1 k2, In s sigs' -> In k1 keys' -> In k2 keys' ->
                                  chk s k1 = true -> chk s k2 = true -> k1 = k2).
  { intros s k1 k2 Hs H1 H2. apply excl; [apply Is | apply Ik | apply Ik]; assumption. }
  apply eq_true_iff_eq.
  rewrite (multisig_verdict_iff sigs keys excl NDs NDk),
          (multisig_verdict_iff sigs' keys' excl' (Permutation_NoDup Ps NDs) (Permutation_NoDup Pk NDk)).
  split.
  - apply (matchable_ext sigs' keys' sigs keys); intro x; symmetry; [apply Is | apply Ik].
  - apply (matchable_ext sigs keys sigs' keys' Is Ik).
Qed.

End MS.

(* signature = the key bytes themselves *)
Definition chk_eq (s k : bytes) : bool := bytes_eqb s k.

(* 2-of-3 passes, in either order of the signatures *)
Example ex_2_of_3 :
  ms_verdict chk_eq [[x01]; [x03]] [[x01]; [x02]; [x03]] = true.
Proof. reflexivity. Qed.
Example ex_2_of_3_rev :
  ms_verdict chk_eq [[x03]; [x01]] [[x01]; [x02]; [x03]] = true.
Proof. reflexivity. Qed.

(* the same signature twice fails, even when the key occurs twice *)
Example ex_repeated_sig :
  ms_verdict chk_eq [[x01]; [x01]] [[x01]; [x02]; [x03]] = false.
Proof. reflexivity. Qed.
Example ex_repeated_sig_dup_key :
  ms_verdict chk_eq [[x01]; [x01]] [[x01]; [x01]; [x03]] = false.
Proof. reflexivity. Qed.

(* two different signatures by the same single key fail (first-byte check) *)
Definition chk_first (s k : bytes) : bool :=
  match s, k with a :: _, b :: _ => Byte.eqb a b | _, _ => false end.
Example ex_same_key_twice :
  ms_verdict chk_first [[x01; xaa]; [x01; xbb]] [[x01]; [x02]; [x03]] = false.
Proof. reflexivity. Qed.
(* ... but pass when that key VALUE occurs at two positions of the key list *)
Example ex_same_key_two_positions :
  ms_verdict chk_first [[x01; xaa]; [x01; xbb]] [[x01]; [x01]; [x03]] = true.
Proof. reflexivity. Qed.

(* a signature lists the one-byte keys under which it verifies *)
Definition chk_mem (s k : bytes) : bool :=
  match k with [b] => existsb (Byte.eqb b) s | _ => false end.

(* Greedy matching is not maximum matching: s1 verifies under k1 and k2, s2 only under k1.
   The perfect matching s1-k2, s2-k1 exists, but the loop gives k1 to s1 and s2 finds
   nothing.  With the signatures in the other order the same inputs pass, so the verdict
   also depends on order.  The premise of [multisig_complete_strong] that fails here is the
   last one: k1 validates two signatures.  (s1 also has two keys, which completeness does not need.) *)
Example ex_greedy_incomplete :
  let s1 := [x01; x02] in let s2 := [x01] in
  let k1 := [x01] in let k2 := [x02] in
  ms_verdict chk_mem [s1; s2] [k1; k2] = false /\
  ms_verdict chk_mem [s2; s1] [k1; k2] = true /\
  NoDup [s1; s2] /\
  Forall2 (fun s k => chk_mem s k = true) [s1; s2] [k2; k1] /\
  Permutation [k1; k2] ([k2; k1] ++ []).
Proof.
  cbv zeta. split; [reflexivity|]. split; [reflexivity|]. split.
  - constructor; [simpl; intros [H|[]]; discriminate|].
    constructor; [simpl; tauto | constructor].
  - split; [repeat constructor|]. simpl. apply perm_swap.
Qed.

Print Assumptions multisig_sound.
Print Assumptions multisig_complete.
Print Assumptions multisig_order_invariant.
