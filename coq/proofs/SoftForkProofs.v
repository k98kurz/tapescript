(* C20, second half: soft-fork compatibility.
   The upgraded VM of model/SoftFork.v gives an unassigned opcode byte a new meaning: the operand
   and the pops of NOP, followed by a possible raise.  Every run of the upgraded VM in which the
   new op never raised is, step for step, a run of the old VM; in particular a script that
   authorizes on the upgraded VM without the new op ever having raised authorizes on the old VM. *)
From Coq Require Import ZArith List Bool Lia.
From Coq.Strings Require Import Byte String.
From TS Require Import Bytes Codec State Prog Ops Interp InterpLemmas Closure SoftFork.
From TS Require Import TablesCheck.
Import ListNotations.
Local Open Scope nat_scope.

(* "the fork op raised at some point": [EvEnter] is logged by fork_op just before it raises and by
   nothing else *)
Definition tainted (st : state) : Prop := exists n, In (EvEnter n) (st_log st).

(* the log only grows (the relation used with Closure.v); hence taint is never lost *)
Definition log_ext (s s' : state) : Prop := exists l, st_log s' = (l ++ st_log s)%list.
Definition Rt (s s' : state) : Prop := tainted s -> tainted s'.

Lemma log_ext_refl s : log_ext s s.
Proof. exists []. reflexivity. Qed.
Lemma log_ext_trans a b c : log_ext a b -> log_ext b c -> log_ext a c.
Proof. intros [l1 H1] [l2 H2]. exists (l2 ++ l1)%list. rewrite H2, H1, app_assoc. reflexivity. Qed.
Lemma log_ext_same s s' : st_log s' = st_log s -> log_ext s s'.
Proof. intro E. exists []. exact E. Qed.
Lemma log_ext_cons s s' e : st_log s' = e :: st_log s -> log_ext s s'.
Proof. intro E. exists [e]. exact E. Qed.
Lemma log_ext_Rt s s' : log_ext s s' -> Rt s s'.
Proof. intros [l E] [n H]. exists n. rewrite E. apply in_or_app. right. exact H. Qed.

Lemma R_out_ext_Rt A s (o : outcome A) : R_out log_ext s o -> R_out Rt s o.
Proof. destruct o; simpl; auto using log_ext_Rt. Qed.

(* outcome of a computation that started tainted, or became tainted and went on *)
Definition div_ok {A} (o : outcome A) : Prop :=
  match o with Done _ _ s | Raised _ _ s => tainted s | OutOfFuel | Unmodelled _ => True end.

Section SoftForkProofs.
Variable orc : oracle.
Variable cfg : config.
Variable fcode : nat.
Variable pred : list bytes -> bool.

Notation run_tape_f := (run_tape_f orc cfg fcode pred).
Notation fork_op := (fork_op fcode pred).
Notation dispatch_f := (dispatch_f fcode pred).

(* every action leaves the log alone or prepends one event; sub-runs do what the runner does *)
Lemma step_closed_ext : step_closed orc cfg log_ext.
Proof.
  intros run Hrun X a fr st.
  destruct a; cbn [step]; cbv zeta; try solve [simpl; apply log_ext_same; reflexivity].
  - destruct (st_stack st); simpl; apply log_ext_same; reflexivity.
  - destruct (_ <? _); [simpl; apply log_ext_refl|].
    destruct (_ <=? _); simpl; apply log_ext_same; reflexivity.
  - destruct (st_stack st); simpl; apply log_ext_refl.
  - destruct (_ && _); simpl; [apply log_ext_same; reflexivity|exact I].
  - destruct (_ <? _); simpl; apply log_ext_refl.
  - eapply after_run_closed; [exact log_ext_trans| |apply Hrun]; apply log_ext_same; reflexivity.
  - unfold new_tape. eapply after_run_closed; [exact log_ext_trans| |apply Hrun]; apply log_ext_same; reflexivity.
  - unfold new_tape. eapply try_run_closed; [exact log_ext_trans| |apply Hrun]; apply log_ext_same; reflexivity.
  - eapply after_run_closed; [exact log_ext_trans| |apply Hrun]; apply log_ext_refl.
  - simpl. eapply log_ext_cons. reflexivity.
Qed.

Theorem interp_log_grows run (Hrun : run_ok log_ext run) A (p : prog A) fr st :
  R_out log_ext st (interp orc cfg run p fr st).
Proof. apply interp_closed; [exact log_ext_refl|exact log_ext_trans|exact step_closed_ext|exact Hrun]. Qed.

(* the induction of Closure.run_tape_closed once more, for dispatch_f *)
Theorem run_tape_f_log_grows fuel tid ptr st : R_out log_ext st (run_tape_f fuel tid ptr st).
Proof.
  revert tid ptr st. induction fuel as [|f IH]; intros tid ptr st; cbn [SoftFork.run_tape_f]; [exact I|].
  destruct (List.length (to_data (nth_tape st tid)) <=? ptr); simpl; [apply log_ext_refl|].
  pose proof (interp_log_grows (fun t s => run_tape_f f t 0 s) (fun t s => IH t 0 s) unit
                (dispatch_f (N.to_nat (Byte.to_N (nth ptr (to_data (nth_tape st tid)) x00))))
                {| fr_tid := tid; fr_ptr := S ptr |} st) as Hi.
  destruct (interp orc cfg _ _ _ st) as [a fr' st'|e fr' st'| |w]; simpl in *; try exact I; try exact Hi.
  eapply R_out_trans; [exact log_ext_trans|exact Hi|apply IH].
Qed.

Theorem run_tape_log_grows fuel tid ptr st : R_out log_ext st (run_tape orc cfg fuel tid ptr st).
Proof. apply run_tape_closed; [exact log_ext_refl|exact log_ext_trans|exact step_closed_ext]. Qed.

Theorem run_tape_f_keeps_taint fuel tid ptr st : R_out Rt st (run_tape_f fuel tid ptr st).
Proof. apply R_out_ext_Rt, run_tape_f_log_grows. Qed.
Theorem run_tape_keeps_taint fuel tid ptr st : R_out Rt st (run_tape orc cfg fuel tid ptr st).
Proof. apply R_out_ext_Rt, run_tape_log_grows. Qed.

Lemma R_out_div A st (o : outcome A) : R_out Rt st o -> tainted st -> div_ok o.
Proof. destruct o; simpl; auto. Qed.

Lemma interp_tainted run (Hrun : run_ok log_ext run) A (p : prog A) fr st :
  tainted st -> div_ok (interp orc cfg run p fr st).
Proof. apply R_out_div, R_out_ext_Rt, interp_log_grows, Hrun. Qed.
Lemma run_tape_f_tainted fuel tid ptr st : tainted st -> div_ok (run_tape_f fuel tid ptr st).
Proof. apply R_out_div. apply run_tape_f_keeps_taint. Qed.

Definition op_sim (o_f o_b : outcome unit) : Prop :=
  o_f = o_b \/ exists e fr s, o_f = Raised e fr s /\ tainted s.

(* neither op uses the runner, so the two runners may differ *)
Lemma fork_op_sim2 run1 run2 fr st :
  op_sim (interp orc cfg run1 fork_op fr st) (interp orc cfg run2 NOP fr st).
Proof.
  unfold SoftFork.fork_op, NOP, read, act. cbn [bind]. cbn [interp step]. cbv zeta.
  destruct (_ <? _); [left; reflexivity|].
  unfold b2i. destruct (bytes_to_int _) as [z|]; cbn [bind interp]; [|left; reflexivity].
  unfold sert. destruct (0 <=? z)%Z; cbn [bind interp]; [|left; reflexivity].
  rewrite !interp_bind.
  match goal with |- context [interp _ _ _ (repeat_get ?n) ?fr' ?st'] =>
    destruct (le_lt_dec n (List.length (st_stack st'))) as [Hle|Hlt] end.
  - rewrite !repeat_get_ok by exact Hle.
    destruct (pred _); cbn; [left; reflexivity|].
    right. eexists _, _, _. split; [reflexivity|]. exists fcode. simpl. left. reflexivity.
  - rewrite !repeat_get_underflow by exact Hlt. left; reflexivity.
Qed.

Theorem fork_op_sim run fr st :
  interp orc cfg run fork_op fr st = interp orc cfg run NOP fr st \/
  exists e fr' st', interp orc cfg run fork_op fr st = Raised e fr' st' /\ tainted st'.
Proof. apply fork_op_sim2. Qed.

(* The second alternative ([div_ok]) also allows OutOfFuel and Unmodelled on the fork side.  With
   [False] for those two the simulation theorem is false:
   after a fork-op raise is caught by OP_TRY_EXCEPT the fork side runs the EXCEPT clause, which the
   old VM never runs, and that clause may run out of fuel or reach an unmodelled construct while
   the old VM ends normally ([ex_fuel_divergence] below is such a run).  Those two outcomes carry
   no state, so "tainted" cannot be said of them.  The corollaries below are about Done / a
   verdict and are not affected. *)
Definition sim {A} (o_f o_b : outcome A) : Prop := o_f = o_b \/ div_ok o_f.

Definition sres_div {X} (r : sres X) : Prop :=
  match r with SOk _ _ s | SRaise _ _ s => tainted s | SFuel | SUnmod _ => True end.

Section Inner.
Variable run_f run_b : nat -> state -> outcome unit.
Hypothesis Hsim : forall t s, sim (run_f t s) (run_b t s).
Hypothesis Hok : run_ok log_ext run_f.

Lemma step_sim X (a : action X) fr st :
  step orc cfg run_f a fr st = step orc cfg run_b a fr st \/ sres_div (step orc cfg run_f a fr st).
Proof.
  destruct a; try (left; reflexivity); cbn [step]; unfold new_tape; cbv zeta;
    match goal with |- context [run_f ?t ?s] => destruct (Hsim t s) as [E|D] end;
    try (rewrite E; left; reflexivity);
    right; match goal with |- context [run_f ?t ?s] => destruct (run_f t s) end; simpl in *; auto.
Qed.

Lemma interp_sim A (p : prog A) :
  forall fr st, sim (interp orc cfg run_f p fr st) (interp orc cfg run_b p fr st).
Proof.
  induction p as [a|e|w|X a k IH]; intros fr st; cbn [interp]; try (left; reflexivity).
  destruct (step_sim X a fr st) as [E|D].
  - rewrite E. destruct (step orc cfg run_b a fr st); try (left; reflexivity). apply IH.
  - right. destruct (step orc cfg run_f a fr st); simpl in D |- *; auto.
    apply interp_tainted; assumption.
Qed.

End Inner.

Hypothesis Hfcode : opcode_of_nat fcode = None.

Theorem run_tape_sim :
  forall fuel tid ptr st, sim (run_tape_f fuel tid ptr st) (run_tape orc cfg fuel tid ptr st).
Proof.
  induction fuel as [|f IH]; intros tid ptr st; cbn [SoftFork.run_tape_f run_tape]; [left; reflexivity|].
  destruct (List.length (to_data (nth_tape st tid)) <=? ptr); [left; reflexivity|].
  generalize (N.to_nat (Byte.to_N (nth ptr (to_data (nth_tape st tid)) x00))); intro code.
  assert (Hop : sim (interp orc cfg (fun t s => run_tape_f f t 0 s) (dispatch_f code)
                            {| fr_tid := tid; fr_ptr := S ptr |} st)
                    (interp orc cfg (fun t s => run_tape orc cfg f t 0 s) (dispatch code)
                            {| fr_tid := tid; fr_ptr := S ptr |} st)).
  { unfold SoftFork.dispatch_f. destruct (Nat.eqb code fcode) eqn:E.
    - apply Nat.eqb_eq in E. subst code. unfold dispatch. rewrite Hfcode.
      destruct (fork_op_sim2 (fun t s => run_tape_f f t 0 s) (fun t s => run_tape orc cfg f t 0 s)
                             {| fr_tid := tid; fr_ptr := S ptr |} st) as [H|(e & fr' & s & H & T)].
      + left; exact H.
      + right. rewrite H. exact T.
    - apply interp_sim.
      + intros t s. apply IH.
      + intros t s. apply run_tape_f_log_grows. }
  destruct Hop as [E|D].
  - rewrite E. destruct (interp orc cfg _ (dispatch code) _ st); try (left; reflexivity). apply IH.
  - right. destruct (interp orc cfg _ (dispatch_f code) _ st); simpl in D |- *; auto.
    apply run_tape_f_tainted. exact D.
Qed.

(* The honest statement of "every script that does not wrap that op in a TRY block and authorizes
   on the upgraded VM also authorizes on a VM without the fork" carries the premise [~ tainted st]:
   the upgraded run ended with no fork-op raise in its log.  The log is never cut ([run_tape_f_log_grows]), so this
   says that the fork op never raised during the run, in particular that no raise of it was caught
   by a TRY.  (A raise outside every TRY ends the run with Raised, which is not Done; a raise inside
   a TRY lets the run go on, possibly to Done / verdict true, but with the taint: see
   [taint_is_final] and the third example.)  A syntactic "contains no OP_TRY_EXCEPT" premise is not
   proved here: sub-tapes are decoded from data at run time (EVAL, definitions), so the premise
   would have to be a dynamic one anyway. *)

Theorem soft_fork_run_script fuel script vals fr st :
  run_script_f orc cfg fcode pred fuel script vals = Done tt fr st ->
  ~ tainted st ->
  run_script orc cfg fuel script vals = Done tt fr st.
Proof.
  unfold run_script_f, run_script. intros H NT.
  destruct (run_tape_sim fuel 0 0 (init_state cfg script vals)) as [E|D].
  - rewrite <- E. exact H.
  - rewrite H in D. simpl in D. contradiction.
Qed.

Definition auth_div (r : auth_result) : Prop :=
  match r with AuthVerdict _ s => tainted s | AuthFuel | AuthUnmod _ => True end.

Lemma auth_rest_f_tainted fuel scripts :
  forall prev st, tainted st -> auth_div (auth_rest_f orc cfg fcode pred fuel scripts prev st).
Proof.
  induction scripts as [|s rest IH]; intros prev st T; cbn [auth_rest_f].
  - destruct (st_stack st) as [|x [|y l]]; simpl; exact T.
  - unfold new_tape; cbv zeta.
    match goal with |- context [SoftFork.run_tape_f _ _ _ _ ?fu ?t ?p ?s] =>
      pose proof (run_tape_f_tainted fu t p s T) as H; destruct (SoftFork.run_tape_f orc cfg fcode pred fu t p s) end;
      simpl in *; auto.
Qed.

Lemma auth_rest_sim fuel scripts :
  forall prev st,
  auth_rest_f orc cfg fcode pred fuel scripts prev st = auth_rest orc cfg fuel scripts prev st \/
  auth_div (auth_rest_f orc cfg fcode pred fuel scripts prev st).
Proof.
  induction scripts as [|s rest IH]; intros prev st; cbn [auth_rest_f auth_rest]; [left; reflexivity|].
  unfold new_tape; cbv zeta.
  match goal with |- context [SoftFork.run_tape_f _ _ _ _ ?fu ?t ?p ?s] =>
    destruct (run_tape_sim fu t p s) as [E|D] end.
  - rewrite E. match goal with |- context [run_tape orc cfg ?fu ?t ?p ?s] =>
      destruct (run_tape orc cfg fu t p s) end; try (left; reflexivity). apply IH.
  - right. match goal with |- context [SoftFork.run_tape_f _ _ _ _ ?fu ?t ?p ?s] =>
      destruct (SoftFork.run_tape_f orc cfg fcode pred fu t p s) end; simpl in D |- *; auto.
    apply auth_rest_f_tainted. exact D.
Qed.

Lemma run_auth_sim fuel scripts vals :
  run_auth_scripts_f orc cfg fcode pred fuel scripts vals = run_auth_scripts orc cfg fuel scripts vals \/
  auth_div (run_auth_scripts_f orc cfg fcode pred fuel scripts vals).
Proof.
  destruct scripts as [|s rest]; [left; reflexivity|].
  unfold run_auth_scripts_f, run_auth_scripts, run_script_f, run_script.
  destruct (run_tape_sim fuel 0 0 (init_state cfg s vals)) as [E|D].
  - rewrite E. destruct (run_tape orc cfg fuel 0 0 (init_state cfg s vals)); try (left; reflexivity).
    apply auth_rest_sim.
  - right. destruct (run_tape_f fuel 0 0 (init_state cfg s vals)); simpl in D |- *; auto.
    apply auth_rest_f_tainted. exact D.
Qed.

(* any verdict, not only true: an untainted upgraded run IS the old run *)
Theorem soft_fork_auth_any fuel scripts vals b st :
  run_auth_scripts_f orc cfg fcode pred fuel scripts vals = AuthVerdict b st ->
  ~ tainted st ->
  run_auth_scripts orc cfg fuel scripts vals = AuthVerdict b st.
Proof.
  intros H NT. destruct (run_auth_sim fuel scripts vals) as [E|D].
  - rewrite <- E. exact H.
  - rewrite H in D. simpl in D. contradiction.
Qed.

Theorem soft_fork_auth fuel scripts vals st :
  run_auth_scripts_f orc cfg fcode pred fuel scripts vals = AuthVerdict true st ->
  ~ tainted st ->
  run_auth_scripts orc cfg fuel scripts vals = AuthVerdict true st.
Proof. apply soft_fork_auth_any. Qed.

(* once the fork op has raised, the taint stays to the end of the
   upgraded run, whatever TRY blocks do with the exception *)
Theorem taint_is_final fuel tid ptr st :
  tainted st ->
  match run_tape_f fuel tid ptr st with Done _ _ s | Raised _ _ s => tainted s | _ => True end.
Proof. apply run_tape_f_tainted. Qed.

End SoftForkProofs.

Module Ex.
Definition orc0 : oracle := fun _ _ => OErr OtherError.
Definition cfg0 : config := default_config 1000.
(* the forked op: "the single removed item must be true" *)
Definition pred0 (l : list bytes) : bool := match l with [x] => bytes_to_bool x | _ => true end.
Definition fc : nat := 200.

Lemma fc_unassigned : opcode_of_nat fc = None.
Proof. vm_compute. reflexivity. Qed.

Definition rf := run_script_f orc0 cfg0 fc pred0.
Definition rb := run_script orc0 cfg0.

Definition stack_of (o : outcome unit) : option (list bytes) :=
  match o with Done _ _ s => Some (st_stack s) | _ => None end.
Definition log_of (o : outcome unit) : list event :=
  match o with Done _ _ s | Raised _ _ s => st_log s | _ => [] end.
Definition raised (o : outcome unit) : option exn :=
  match o with Raised e _ _ => Some e | _ => None end.

Definition verdict (r : auth_result) : option bool :=
  match r with AuthVerdict b _ => Some b | _ => None end.

Definition op_push0 : byte := x02.
Definition op_true : byte := x01.
Definition op_try : byte := x3d.
Lemma op_bytes_ok :
  opcode_of_nat (N.to_nat (Byte.to_N op_push0)) = Some O_PUSH0 /\
  opcode_of_nat (N.to_nat (Byte.to_N op_true)) = Some O_TRUE /\
  opcode_of_nat (N.to_nat (Byte.to_N op_try)) = Some O_TRY_EXCEPT.
Proof. vm_compute. repeat split; reflexivity. Qed.

(* push x01 ; FORK 1 ; true *)
Definition s_ok : bytes := [op_push0; x01; xc8; x01; op_true].
(* push x00 ; FORK 1 ; true *)
Definition s_bad : bytes := [op_push0; x00; xc8; x01; op_true].
(* try { push x00 ; FORK 1 ; true } except { } ; true *)
Definition s_try : bytes := [op_try; x00; x05; op_push0; x00; xc8; x01; op_true; x00; x00; op_true].
(* try { push x00 ; FORK 1 } except { } ; true *)
Definition s_try2 : bytes := [op_try; x00; x04; op_push0; x00; xc8; x01; x00; x00; op_true].
(* try { push x00 ; FORK 1 } except { true ; true ; true } ; true *)
Definition s_try_long : bytes :=
  [op_try; x00; x04; op_push0; x00; xc8; x01; x00; x03; op_true; op_true; op_true; op_true].

(* the check passes: identical runs, stack [xff], empty log *)
Example ex_same :
  rf 10 s_ok [] = rb 10 s_ok [] /\ stack_of (rf 10 s_ok []) = Some [[xff]] /\ log_of (rf 10 s_ok []) = [].
Proof. vm_compute. repeat split; reflexivity. Qed.

(* the check fails outside a TRY: the upgraded VM raises (tainted), the old VM ends normally *)
Example ex_raise :
  raised (rf 10 s_bad []) = Some ScriptExecutionError /\ log_of (rf 10 s_bad []) = [EvEnter 200] /\
  stack_of (rb 10 s_bad []) = Some [[xff]] /\ log_of (rb 10 s_bad []) = [].
Proof. vm_compute. repeat split; reflexivity. Qed.

(* the check fails inside a TRY: both VMs end normally, the upgraded run is tainted, and the final
   stacks differ (the old VM went on inside the TRY body, the upgraded VM left it): without the
   [~ tainted] premise nothing relates the two final states *)
Example ex_try :
  stack_of (rf 10 s_try []) = Some [[xff]] /\ log_of (rf 10 s_try []) = [EvEnter 200] /\
  stack_of (rb 10 s_try []) = Some [[xff]; [xff]] /\ log_of (rb 10 s_try []) = [].
Proof. vm_compute. repeat split; reflexivity. Qed.

(* the same with the fork op last in the TRY body: equal stacks, but still different final states
   (the upgraded VM ran the EXCEPT path and left the exception name in the cache) *)
Example ex_try_cache :
  stack_of (rf 10 s_try2 []) = Some [[xff]] /\ stack_of (rb 10 s_try2 []) = Some [[xff]] /\
  log_of (rf 10 s_try2 []) = [EvEnter 200] /\ rf 10 s_try2 [] <> rb 10 s_try2 [].
Proof. vm_compute. repeat split; try reflexivity. discriminate. Qed.

(* why [sim] must allow OutOfFuel on the fork side: the EXCEPT clause, which only the upgraded VM
   runs, needs more fuel than is left; the old VM ends normally with the same fuel *)
Example ex_fuel_divergence :
  rf 4 s_try_long [] = OutOfFuel /\ stack_of (rb 4 s_try_long []) = Some [[xff]].
Proof. vm_compute. split; reflexivity. Qed.

(* authorization: the passing script authorizes on both VMs with the same final state; the TRY
   script authorizes on both, but the upgraded run is tainted and the final states differ *)
Example ex_auth :
  run_auth_scripts_f orc0 cfg0 fc pred0 10 [s_ok] [] = run_auth_scripts orc0 cfg0 10 [s_ok] [] /\
  verdict (run_auth_scripts_f orc0 cfg0 fc pred0 10 [s_ok] []) = Some true /\
  verdict (run_auth_scripts_f orc0 cfg0 fc pred0 10 [s_bad] []) = Some false /\
  verdict (run_auth_scripts orc0 cfg0 10 [s_bad] []) = Some true /\
  verdict (run_auth_scripts_f orc0 cfg0 fc pred0 10 [s_try2] []) = Some true /\
  verdict (run_auth_scripts orc0 cfg0 10 [s_try2] []) = Some true /\
  run_auth_scripts_f orc0 cfg0 fc pred0 10 [s_try2] [] <> run_auth_scripts orc0 cfg0 10 [s_try2] [].
Proof. vm_compute. repeat split; try reflexivity. discriminate. Qed.

(* the corollaries applied: an untainted successful upgraded run is a run of the old VM *)
Example ex_corollary : rb 10 s_ok [] = rf 10 s_ok [].
Proof.
  destruct (rf 10 s_ok []) as [[] fr st| | |] eqn:E; try (vm_compute in E; discriminate).
  apply (soft_fork_run_script orc0 cfg0 fc pred0 fc_unassigned 10 s_ok [] fr st E).
  vm_compute in E. injection E as _ <-. intros [n H]. exact H.
Qed.

End Ex.

Print Assumptions run_tape_sim.
Print Assumptions soft_fork_run_script.
Print Assumptions soft_fork_auth.
Print Assumptions fork_op_sim.
Print Assumptions run_tape_f_keeps_taint.
Print Assumptions Ex.ex_fuel_divergence.
