(* A third footprint of make_nonnative_taproot_lock that the committed script can see (finding D23; D18 = its definition 0,
   D19 = the call level it spends, both in TaprootNonNative.v): under the default flags OP_DERIVE_POINT caches the point it
   derives under the bytes key "X", so inside the non-native lock a committed script that reads cache key X finds a value,
   while under the native OP_TAPROOT nothing was cached and the read raises.  Computed on the model, replayed on the
   implementation by the C05 check. *)
From Coq Require Import ZArith List Bool.
From Coq.Strings Require Import Byte String.
From TS Require Import State Interp Builders TaprootNonNative.
Import ListNotations.
Open Scope Z_scope.

(* the toy configuration of TaprootNonNative.v with flag 2 on (its default value in functions.flags) *)
Definition toy_cfg_flag2 (limit : Z) : config :=
  {| c_max_items := 1024; c_max_item_size := 1024; c_limit := limit; c_flags := [(FKInt 2, FVBool true)]; c_sigext := [];
     c_ctplugins := []; c_contracts := []; c_now := 0 |}.

Example differ_on_cache_X :
  let script := [x0a; x01; x58; x06; x01] in    (* read_cache x58 ; pop0 ; true *)
  vres_of_auth (run_auth_scripts toy_orc (toy_cfg_flag2 64) 40 [toy_witness script; nonnative_taproot_lock toy_root x00] []) = VBool true /\
  vres_of_auth (run_auth_scripts toy_orc (toy_cfg_flag2 64) 40 [toy_witness script; taproot_lock toy_root x00] []) = VBool false.
Proof. vm_compute. split; reflexivity. Qed.

(* with flag 2 off the two locks agree on this script (both refuse: the key is absent) *)
Example agree_on_cache_X_when_flag2_off :
  let script := [x0a; x01; x58; x06; x01] in
  vres_of_auth (run_auth_scripts toy_orc (toy_cfg 64) 40 [toy_witness script; nonnative_taproot_lock toy_root x00] []) = VBool false /\
  vres_of_auth (run_auth_scripts toy_orc (toy_cfg 64) 40 [toy_witness script; taproot_lock toy_root x00] []) = VBool false.
Proof. vm_compute. split; reflexivity. Qed.

Print Assumptions differ_on_cache_X.
Print Assumptions agree_on_cache_X_when_flag2_off.
