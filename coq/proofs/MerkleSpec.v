(* C04 / C05: nothing of a supplied script runs unless it hashes to the committed root. *)
From Coq Require Import ZArith List Bool Lia.
From Coq.Strings Require Import Byte String.
From TS Require Import Bytes State Prog Ops Interp InterpLemmas NopSpec StackLemmas TapeLemmas.
Import ListNotations.
Local Open Scope nat_scope.

Section MS.
Variable orc : oracle.
Variable cfg : config.
Variable run : nat -> state -> outcome unit.

Notation fits := (fits cfg).
Notation space := (space cfg).

(* the commitment check of OP_MERKLEVAL *)
Definition merkle_commit (h_script2 h_sib : bytes) : bytes := zip_pad byte_xor h_sib h_script2.

(* OP_MERKLEVAL up to (and including) EQUAL_VERIFY, for a stack  script :: sib :: rest  *)
Theorem merkleval_binding fr st root tail script sib rest h1 h2 h3 :
  data_at fr st = root ++ tail -> List.length root = 32 ->
  st_stack st = script :: sib :: rest ->
  orc PSha256 [script] = OOk [h1] -> orc PSha256 [h1] = OOk [h2] -> orc PSha256 [sib] = OOk [h3] ->
  fits script -> fits sib -> fits h1 -> fits h2 -> fits h3 -> fits (merkle_commit h2 h3) -> fits root ->
  List.length rest + 4 <= c_max_items cfg -> 1 <= c_max_item_size cfg ->
  interp orc cfg run OP_MERKLEVAL fr st =
    if bytes_eqb root (merkle_commit h2 h3)
    then interp orc cfg run eval_body (adv fr 32) (with_stack st (script :: rest))
    else Raised ScriptExecutionError (adv fr 32) (with_stack st (script :: rest)).
Proof.
  intros Hd Hr Hs O1 O2 O3 F1 F2 F3 F4 F5 F6 F7 Hsp Hone.
  assert (Sp3 : forall a b c : bytes, space (a :: b :: c :: rest))
    by (intros; unfold StackLemmas.space; cbn [List.length]; lia).
  assert (Sp2 : forall a b : bytes, space (a :: b :: rest)) by (intros; unfold StackLemmas.space; cbn [List.length]; lia).
  assert (Sp1 : forall a : bytes, space (a :: rest)) by (intros; unfold StackLemmas.space; cbn [List.length]; lia).
  unfold OP_MERKLEVAL, read, act. cbn [bind].
  rewrite (read_exec orc cfg run _ _ fr st root tail 32 Hd)
    by (first [rewrite Hr; reflexivity | pose proof (data_at_inside fr st root tail Hd); lia]).
  rewrite Hr. set (fr' := adv fr 32).
  (* the stack after each instruction; every state is [with_stack st _] *)
  rewrite (bind_done (dup_exec orc cfg run fr' st script (sib :: rest) Hs F1 (Sp2 script sib))).
  rewrite (bind_done (sha256_exec orc cfg run fr' (with_stack st (script :: script :: sib :: rest)) script _ h1 eq_refl O1 F3
                        (Sp2 script sib))), with_stack_twice.
  rewrite (bind_done (sha256_exec orc cfg run fr' (with_stack st (h1 :: script :: sib :: rest)) h1 _ h2 eq_refl O2 F4
                        (Sp2 script sib))), with_stack_twice.
  rewrite (bind_done (swap12_exec orc cfg run fr' (with_stack st (h2 :: script :: sib :: rest)) h2 script sib rest eq_refl)),
    with_stack_twice.
  rewrite (bind_done (swap2_exec orc cfg run fr' (with_stack st (h2 :: sib :: script :: rest)) h2 sib _ eq_refl F4 F2
                        (Sp2 sib script))), with_stack_twice.
  rewrite (bind_done (sha256_exec orc cfg run fr' (with_stack st (sib :: h2 :: script :: rest)) sib _ h3 eq_refl O3 F5
                        (Sp2 h2 script))), with_stack_twice.
  rewrite (bind_done (xor_exec orc cfg run fr' (with_stack st (h3 :: h2 :: script :: rest)) h3 h2 _ eq_refl F6 (Sp1 script))),
    with_stack_twice.
  fold (merkle_commit h2 h3).
  rewrite (bind_done (put_exec orc cfg run fr' (with_stack st (merkle_commit h2 h3 :: script :: rest)) root _ eq_refl F7
                        (Sp2 _ script))), with_stack_twice.
  rewrite interp_bind.
  rewrite (equal_verify_exec orc cfg run) with (a := root) (b := merkle_commit h2 h3) (s := script :: rest);
    [|reflexivity|exact (conj (Sp1 script) Hone)].
  rewrite with_stack_twice. destruct (bytes_eqb root (merkle_commit h2 h3)); reflexivity.
Qed.

End MS.
