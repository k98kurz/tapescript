(* C05: OP_TAPROOT — script path runs the script iff (script, key) recomputes to the root; key path is CHECK_SIG under the root. *)
From Coq Require Import ZArith List Bool Lia.
From Coq.Strings Require Import Byte String.
From TS Require Import Bytes State Prog Ops Interp StateLemmas InterpLemmas NopSpec StackLemmas TapeLemmas
  ConfigSpec.
Import ListNotations.
Local Open Scope nat_scope.

Section TR.
Variable orc : oracle.
Variable cfg : config.
Variable run : nat -> state -> outcome unit.
Notation fits := (fits cfg).

(* clamp_scalar(h) with from_private_key = False on a 32-byte string: clear bit 255 *)
Definition clamp32 (h : bytes) : bytes :=
  set_nth_byte (firstn 32 h) 31 (fun b => z2b (Z.land (b2z b) 127)).

Lemma clamp32_length h : List.length h = 32 -> List.length (clamp32 h) = 32.
Proof.
  intro H. unfold clamp32, set_nth_byte. rewrite list_set_length, firstn_length. lia.
Qed.

Lemma clamp_scalar_32 h A (k : bytes -> prog A) fr st :
  List.length h = 32 ->
  interp orc cfg run (bind (clamp_scalar h false) k) fr st = interp orc cfg run (k (clamp32 h)) fr st.
Proof.
  intro H. unfold clamp_scalar, blen. rewrite H. change (Z.of_nat 32 <? 32)%Z with false. reflexivity.
Qed.

Lemma clamp_exec fr st rest h s :
  data_at fr st = x00 :: rest ->
  st_stack st = h :: s -> List.length h = 32 -> 32 <= c_max_item_size cfg -> space cfg s ->
  interp orc cfg run OP_CLAMP_SCALAR fr st = Done tt (adv fr 1) (with_stack st (clamp32 h :: s)).
Proof.
  intros Hd Hs Lh Hsz Hsp. unfold OP_CLAMP_SCALAR, read, get, put, act. cbn [bind].
  rewrite (read1 orc cfg run fr st x00 rest) by exact Hd. cbn [bind].
  rewrite (get_step orc cfg run _ _ _ st h s Hs).
  change (bytes_to_bool [x00]) with false.
  rewrite (clamp_scalar_32 h) by exact Lh.
  rewrite (put_step orc cfg run _ _ _ _ (clamp32 h) s);
    [reflexivity|reflexivity| unfold StackLemmas.fits; rewrite clamp32_length by exact Lh; lia |exact Hsp].
Qed.

(* script path: stack  root :: pubkey :: script :: rest  with a 32-byte second item *)
Theorem taproot_script_path fr st a tail root pubkey script rest hs h point agg :
  data_at fr st = a :: tail ->
  st_stack st = root :: pubkey :: script :: rest ->
  List.length root = 32 -> List.length pubkey = 32 -> List.length h = 32 ->
  orc PSha256 [script] = OOk [hs] -> orc PSha256 [pubkey ++ hs] = OOk [h] ->
  orc PBaseMult [clamp32 h] = OOk [point] ->
  orc PValidPoint [point] = OOk [[x01]] -> orc PValidPoint [pubkey] = OOk [[x01]] ->
  orc PPointAdd [point; pubkey] = OOk [agg] ->
  fits script -> List.length rest + 1 <= c_max_items cfg -> 1 <= c_max_item_size cfg ->
  interp orc cfg run OP_TAPROOT fr st =
    if bytes_eqb agg root
    then interp orc cfg run eval_body (adv fr 1) (with_stack st (script :: rest))
    else Done tt (adv fr 1) (with_stack st ([x00] :: rest)).
Proof.
  intros Hd Hs Lr Lp Lh O1 O2 O3 O4 O5 O6 F1 Hsp Hone.
  unfold OP_TAPROOT, read, get, put, act. cbn [bind].
  rewrite (read1 orc cfg run fr st a tail) by exact Hd. cbn [bind].
  rewrite (get_step orc cfg run _ _ _ st root _ Hs). unfold blen at 1. rewrite Lr.
  change (Z.of_nat 32 =? 32)%Z with true. cbn [sert bind].
  rewrite (peek_step orc cfg run _ _ _ (with_stack st (pubkey :: script :: rest)) pubkey _ eq_refl). unfold blen at 1. rewrite Lp.
  change (Z.of_nat 32 =? 32)%Z with true. cbn [bind].
  rewrite (get_step orc cfg run _ _ _ (with_stack st (pubkey :: script :: rest)) pubkey _ eq_refl).
  rewrite (get_step orc cfg run _ _ _ (with_stack st (script :: rest)) script _ eq_refl).
  rewrite (prim1_step orc cfg run _ _ _ _ hs _ _ O1), (prim1_step orc cfg run _ _ _ _ h _ _ O2).
  rewrite clamp_scalar_32 by exact Lh.
  unfold derive_point. rewrite (prim1_step orc cfg run _ _ _ _ point _ _ O3).
  unfold aggregate_points. cbn [check_points sum_with]. unfold prim_bool, prim1, prim_list, vert, act. cbn [bind].
  assert (Hb : bytes_to_bool [x01] = true) by reflexivity.
  rewrite prim_act_step, O4. cbn [bind]. rewrite Hb. cbn [bind].
  rewrite prim_act_step, O5. cbn [bind]. rewrite Hb. cbn [bind].
  rewrite prim_act_step, O6. cbn [bind].
  assert (Sp : space cfg rest) by (unfold space; lia).
  destruct (bytes_eqb agg root).
  - rewrite (put_step orc cfg run _ _ _ (with_stack st rest) script rest eq_refl F1 Sp). reflexivity.
  - rewrite (put_step orc cfg run _ _ _ (with_stack st rest) [x00] rest eq_refl Hone Sp). reflexivity.
Qed.

(* key path: second item is not 32 bytes long -> exactly the signature check of C02 with the root as key,
   after the signature extensions ran once *)
Theorem taproot_key_path fr st a tail root item rest :
  data_at fr st = a :: tail ->
  st_stack st = root :: item :: rest ->
  List.length root = 32 -> List.length item <> 32 ->
  List.length rest + 2 <= c_max_items cfg -> 32 <= c_max_item_size cfg ->
  interp orc cfg run OP_TAPROOT fr st =
    interp orc cfg run (check_sig_body (b2z a)) (adv fr 1)
           (sigext_log cfg (with_stack st (root :: item :: rest))).
Proof.
  intros Hd Hs Lr Li Hsp Hsz.
  unfold OP_TAPROOT, read, get, put, act. cbn [bind].
  rewrite (read1 orc cfg run fr st a tail) by exact Hd. cbn [bind].
  rewrite (get_step orc cfg run _ _ _ st root _ Hs). unfold blen at 1. rewrite Lr.
  change (Z.of_nat 32 =? 32)%Z with true. cbn [sert bind].
  rewrite (peek_step orc cfg run _ _ _ (with_stack st (item :: rest)) item _ eq_refl).
  replace (blen item =? 32)%Z with false by (symmetry; apply Z.eqb_neq; unfold blen; lia).
  rewrite (put_step orc cfg run _ _ _ (with_stack st (item :: rest)) root (item :: rest) eq_refl)
    by (unfold StackLemmas.fits, space; cbn [List.length]; lia).
  rewrite interp_bind, run_sig_ext_spec, be1. reflexivity.
Qed.

End TR.

Lemma clamp_runs orc cfg tid st h s :
  st_stack st = h :: s -> List.length h = 32 -> 32 <= c_max_item_size cfg -> space cfg s ->
  runs orc cfg 1 tid [x4c; x00] st (with_stack st (clamp32 h :: s)).
Proof.
  intros Hs Lh Hsz Hsp. apply (runs_op orc cfg tid x4c [x00]); [reflexivity|]. intros f p rest Hd.
  change (dispatch (N.to_nat (Byte.to_N x4c))) with OP_CLAMP_SCALAR.
  exact (clamp_exec orc cfg _ _ st rest h s Hd Hs Lh Hsz Hsp).
Qed.
