(* Computed facts about macro calls (each also checked on the real compiler by harness/asmstream.py:
   "macro-params-like-values" and the arity entries of MALFORMED):
   - substitution is simultaneous: every parameter is replaced by its own argument, once -- an argument spelled like another
     parameter's name is not substituted again (the seeded change S15-C11 of DESIGN.md section 10 substitutes one at a time);
   - the number of values must be the number of parameters: more (S16-C11 drops the surplus silently) and fewer are rejected;
   - PUSH of an empty value is rejected whichever way the value is supplied (S14-C11 assembles a bare PUSH0 byte). *)
From Coq Require Import List String.
From Coq.Strings Require Import Byte.
From TS Require Import Ops Asm Tokenizer AssemblerProofs.
Import ListNotations.
Open Scope string_scope.

Theorem macro_substitution_is_simultaneous :
  (* != m [ d1 d2 ] { PUSH d1 PUSH d2 } !m [ d2 d1 ]   is   PUSH d2 PUSH d1 *)
  asm ["!="; "m"; "["; "d1"; "d2"; "]"; "{"; "PUSH"; "d1"; "PUSH"; "d2"; "}"; "!m"; "["; "d2"; "d1"; "]"]
    = enc [IOp1 O_PUSH0 x02; IOp1 O_PUSH0 x01] /\
  asm ["PUSH"; "d2"; "PUSH"; "d1"] = enc [IOp1 O_PUSH0 x02; IOp1 O_PUSH0 x01] /\
  (* parameters spelled like hex values; both arguments are the second parameter's name *)
  asm ["!="; "m"; "["; "x0a"; "x0b"; "]"; "{"; "PUSH"; "x0a"; "PUSH"; "x0b"; "PUSH"; "x0a"; "}"; "!m"; "["; "x0b"; "x0b"; "]"]
    = enc [IOp1 O_PUSH0 x0b; IOp1 O_PUSH0 x0b; IOp1 O_PUSH0 x0b] /\
  (* an argument that is the first parameter's name, given for the second parameter *)
  asm ["!="; "m"; "["; "d1"; "d2"; "]"; "{"; "PUSH"; "d2"; "PUSH"; "d1"; "}"; "!m"; "["; "d9"; "d1"; "]"]
    = enc [IOp1 O_PUSH0 x01; IOp1 O_PUSH0 x09].
Proof. repeat split; vm_compute; reflexivity. Qed.

Theorem macro_arity_is_checked :
  asm ["!="; "m"; "["; "A"; "]"; "{"; "PUSH"; "A"; "}"; "!m"; "["; "d1"; "x0203"; "]"; "FALSE"] = Err /\
  asm ["!="; "m"; "["; "]"; "{"; "TRUE"; "}"; "!m"; "["; "d1"; "]"] = Err /\
  asm ["!="; "m"; "["; "A"; "B"; "]"; "{"; "PUSH"; "A"; "PUSH"; "B"; "}"; "!m"; "["; "d1"; "]"] = Err /\
  asm ["!="; "m"; "["; "A"; "B"; "]"; "{"; "PUSH"; "A"; "PUSH"; "B"; "}"; "!m"; "["; "d1"; "d2"; "d3"; "]"; "TRUE"] = Err /\
  asm ["!="; "m"; "["; "A"; "]"; "{"; "PUSH"; "A"; "}"; "!m"; "["; "]"; "TRUE"] = Err /\
  (* the matching call is accepted *)
  asm ["!="; "m"; "["; "A"; "B"; "]"; "{"; "PUSH"; "A"; "PUSH"; "B"; "}"; "!m"; "["; "d1"; "d2"; "]"; "TRUE"]
    = enc [IOp1 O_PUSH0 x01; IOp1 O_PUSH0 x02; IOp0 O_TRUE].
Proof. repeat split; vm_compute; reflexivity. Qed.

Theorem push_of_an_empty_value_is_rejected :
  asm ["PUSH"; "x"; "TRUE"] = Err /\
  asm ["OP_PUSH"; "x"; "TRUE"] = Err /\
  asm ["PUSH"; "x"] = Err /\
  asm ["!="; "m"; "["; "A"; "]"; "{"; "PUSH"; "A"; "}"; "!m"; "["; "x"; "]"; "TRUE"] = Err /\
  asm ["PUSH"; "~"; "{"; "}"; "TRUE"] = Err /\
  asm ["IF"; "{"; "PUSH"; "x"; "}"; "TRUE"] = Err /\
  (* the explicit one-byte-size form does carry an empty value *)
  asm ["OP_PUSH1"; "x"; "TRUE"] = enc [IVar1 O_PUSH1 []; IOp0 O_TRUE].
Proof. repeat split; vm_compute; reflexivity. Qed.

Print Assumptions macro_substitution_is_simultaneous.
Print Assumptions macro_arity_is_checked.
Print Assumptions push_of_an_empty_value_is_rejected.
