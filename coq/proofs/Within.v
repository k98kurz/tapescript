(* Programs all of whose actions lie in a class of actions.

   The judgements over programs (Discipline.disc, Budget.bud, Budget.capj, SigExtOnce.nse) each
   need, for the many helper programs that do nothing special, only that every action of the helper
   lies in a class the judgement treats uniformly.  The classes differ a little (Discipline.simple_act
   for disc and bud, Budget.loose_act for capj, SigExtOnce.act_quiet for nse); [basic_act] lies in
   all of them and in Budget.plain_act, and the helpers of Prog.v and Ops.v are shown here, once,
   to be [basic].

   Discipline.simple, Budget.plain and SigExtOnce.nse are [within] of their classes written as
   fixpoints of their own; each has a lemma that leads from [within] to it. *)
From Coq Require Import ZArith List Bool.
From Coq.Strings Require Import Byte String.
From TS Require Import State Prog Ops.
Import ListNotations.

Section Within.
Variable C : forall X, action X -> bool.

Fixpoint within {A} (p : prog A) : Prop :=
  match p with
  | Act a k => C _ a = true /\ forall x, within (k x)
  | _ => True
  end.

Lemma within_bind A B (p : prog A) (f : A -> prog B) :
  within p -> (forall a, within (f a)) -> within (bind p f).
Proof.
  intros Hp Hf. induction p as [a|e|w|X a k IH]; cbn [bind within] in *; auto.
  destruct Hp as [Ha Hk]. split; [exact Ha|]. intro x. apply IH. apply Hk.
Qed.

Lemma within_Act A X (a : action X) (k : X -> prog A) :
  C _ a = true -> (forall x, within (k x)) -> within (Act a k).
Proof. intros; split; assumption. Qed.

Lemma within_act X (a : action X) : C _ a = true -> within (act a).
Proof. intro H. split; [exact H|]. intro x. exact I. Qed.

End Within.

Lemma within_mono (C D : forall X, action X -> bool) :
  (forall X (a : action X), C X a = true -> D X a = true) ->
  forall A (p : prog A), within C p -> within D p.
Proof.
  intros H A p. induction p as [a|e|w|X a k IH]; cbn [within]; auto.
  intros [Ha Hk]. split; [apply H; exact Ha|]. intro x. apply IH, Hk.
Qed.

Create HintDb within_db.

Ltac head t := lazymatch t with ?f _ => head f | _ => t end.

(* One step of the proof that a program lies within a class: along bind, Act and case
   distinctions; a named program is looked up in within_db, and unfolded if it is not there. *)
Ltac cls1 :=
  cbv beta zeta;
  lazymatch goal with
  | |- within _ (bind _ _) => apply within_bind; [|intro]
  | |- within _ (Ret _) => exact I
  | |- within _ (Raise _) => exact I
  | |- within _ (Unmod _) => exact I
  | |- within _ (Act _ _) => apply within_Act; [reflexivity|intro]
  | |- within _ (act _) => apply within_act; reflexivity
  | |- within _ (if ?b then _ else _) => destruct b
  | |- within _ (match ?x with _ => _ end) => destruct x
  | |- within _ ?p => first [ solve [auto with within_db nocore] | let h := head p in unfold h ]
  end.
Ltac cls := repeat cls1.

(* no flag action, no sub-tape, no counter increment, no plugin event *)
Definition basic_act {X} (a : action X) : bool :=
  match a with
  | AReturnedTest | AReturnedClear | ASetPtrEnd | AReturnedSet
  | ACallDef _ | ARunSub _ _ | ARunLoop _ | ATrySub _
  | ACountIncr | ALog (EvSigExt _) => false
  | _ => true
  end.

Notation basic := (within (@basic_act)).

Lemma basic_sert c : basic (sert c).            Proof. cls. Qed.
Lemma basic_vert c : basic (vert c).            Proof. cls. Qed.
Lemma basic_tert c : basic (tert c).            Proof. cls. Qed.
Lemma basic_get : basic get.                    Proof. cls. Qed.
Lemma basic_put b : basic (put b).              Proof. cls. Qed.
Lemma basic_read n : basic (read n).            Proof. cls. Qed.
Lemma basic_read_u8 : basic read_u8.            Proof. cls. Qed.
Lemma basic_read_u16 : basic read_u16.          Proof. cls. Qed.
Lemma basic_config : basic config_.             Proof. cls. Qed.
Lemma basic_prim_list p l : basic (prim_list p l). Proof. cls. Qed.
#[export] Hint Resolve basic_sert basic_vert basic_tert basic_get basic_put basic_read
  basic_read_u8 basic_read_u16 basic_config basic_prim_list : within_db.
Lemma basic_prim1 p l : basic (prim1 p l).      Proof. cls. Qed.
#[export] Hint Resolve basic_prim1 : within_db.
Lemma basic_prim_bool p l : basic (prim_bool p l). Proof. cls. Qed.
#[export] Hint Resolve basic_prim_bool : within_db.

Lemma basic_repeat_get n : basic (repeat_get n).
Proof. induction n; cbn [repeat_get]; cls. Qed.
Lemma basic_put_all l : basic (put_all l).
Proof. induction l; cbn [put_all]; cls. Qed.
#[export] Hint Resolve basic_repeat_get basic_put_all : within_db.

Lemma basic_fl2 a : basic (fl2_prog a).         Proof. cls. Qed.
#[export] Hint Resolve basic_fl2 : within_db.
Lemma basic_i2b n : basic (i2b n).              Proof. cls. Qed.
Lemma basic_b2i b : basic (b2i b).              Proof. cls. Qed.
#[export] Hint Resolve basic_i2b basic_b2i : within_db.
Lemma basic_get_int : basic get_int.            Proof. cls. Qed.
Lemma basic_repeat_get_z n : basic (repeat_get_z n). Proof. cls. Qed.
Lemma basic_put_bool b : basic (put_bool b).    Proof. cls. Qed.
Lemma basic_cache_raw k v : basic (cache_raw k v). Proof. cls. Qed.
Lemma basic_cache_items k l : basic (cache_items k l). Proof. cls. Qed.
#[export] Hint Resolve basic_get_int basic_repeat_get_z basic_put_bool basic_cache_raw
  basic_cache_items : within_db.

Lemma basic_msg_go idx flag : forall acc, basic (msg_go idx flag acc).
Proof. induction idx; intro acc; cbn [msg_go]; cls. Qed.
#[export] Hint Resolve basic_msg_go : within_db.
Lemma basic_get_message_core f : basic (get_message_core f). Proof. cls. Qed.
#[export] Hint Resolve basic_get_message_core : within_db.

Lemma basic_put_atoms l : basic (put_atoms l).
Proof. induction l as [|a l IH]; cbn [put_atoms]; cls. Qed.
Lemma basic_put_values l : basic (put_values l).
Proof. induction l as [|a l IH]; cbn [put_values]; cls. Qed.
#[export] Hint Resolve basic_put_atoms basic_put_values : within_db.
Lemma basic_read_cache_key k : basic (read_cache_key k). Proof. cls. Qed.
Lemma basic_cache_size_key k : basic (cache_size_key k). Proof. cls. Qed.
#[export] Hint Resolve basic_read_cache_key basic_cache_size_key : within_db.

Lemma basic_fold_ints n f : forall acc, basic (fold_ints n f acc).
Proof. induction n; intro acc; cbn [fold_ints]; cls. Qed.
#[export] Hint Resolve basic_fold_ints : within_db.
Lemma basic_pydiv a b : basic (pydiv a b).      Proof. cls. Qed.
Lemma basic_pymod a b : basic (pymod a b).      Proof. cls. Qed.
#[export] Hint Resolve basic_pydiv basic_pymod : within_db.

Lemma basic_get_float_t : basic get_float_t.    Proof. cls. Qed.
Lemma basic_bytes_to_float x : basic (bytes_to_float x). Proof. cls. Qed.
Lemma basic_check_nan d : basic (check_nan d).  Proof. cls. Qed.
Lemma basic_put_float d : basic (put_float d).  Proof. cls. Qed.
#[export] Hint Resolve basic_get_float_t basic_bytes_to_float basic_check_nan basic_put_float : within_db.
Lemma basic_fold_floats n p : forall acc, basic (fold_floats n p acc).
Proof. induction n; intro acc; cbn [fold_floats]; cls. Qed.
#[export] Hint Resolve basic_fold_floats : within_db.

Lemma basic_clamp_scalar s b : basic (clamp_scalar s b). Proof. cls. Qed.
#[export] Hint Resolve basic_clamp_scalar : within_db.
Lemma basic_H_big l : basic (H_big l).          Proof. cls. Qed.
#[export] Hint Resolve basic_H_big : within_db.
Lemma basic_H_small l : basic (H_small l).      Proof. cls. Qed.
Lemma basic_derive_key s : basic (derive_key_from_seed s). Proof. cls. Qed.
Lemma basic_derive_point x : basic (derive_point x). Proof. cls. Qed.
#[export] Hint Resolve basic_H_small basic_derive_key basic_derive_point : within_db.
Lemma basic_check_points l : basic (check_points l).
Proof. induction l; cbn [check_points]; cls. Qed.
Lemma basic_sum_with p l : forall acc, basic (sum_with p acc l).
Proof. induction l; intro acc; cbn [sum_with]; cls. Qed.
#[export] Hint Resolve basic_check_points basic_sum_with : within_db.
Lemma basic_aggregate_points l : basic (aggregate_points l). Proof. cls. Qed.
Lemma basic_aggregate_scalars l : basic (aggregate_scalars l). Proof. cls. Qed.
#[export] Hint Resolve basic_aggregate_points basic_aggregate_scalars : within_db.
Lemma basic_sub_go n p : forall acc, basic (sub_go n p acc).
Proof. induction n; intro acc; cbn [sub_go]; cls. Qed.
#[export] Hint Resolve basic_sub_go : within_db.

(* the signature check itself (OP_CHECK_SIG after the plugin call and the operand), and the
   inner checks of OP_CHECK_MULTISIG, for any number of signatures and keys *)
Lemma basic_check_sig_body a : basic (check_sig_body a). Proof. cls. Qed.
#[export] Hint Resolve basic_check_sig_body : within_db.
Lemma basic_ms_find a sig keys : basic (ms_find a sig keys).
Proof. induction keys; cbn [ms_find]; cls. Qed.
#[export] Hint Resolve basic_ms_find : within_db.
Lemma basic_ms_go a sigs : forall keys confirmed, basic (ms_go a sigs keys confirmed).
Proof. induction sigs; intros keys confirmed; cbn [ms_go]; cls. Qed.
#[export] Hint Resolve basic_ms_go : within_db.

Lemma basic_ct_run l t f : basic (ct_run l t f).
Proof. induction l as [|[i p] l IH]; cbn [ct_run]; cls. Qed.
#[export] Hint Resolve basic_ct_run : within_db.
Lemma basic_ct_go idx flag : forall valid, basic (ct_go idx flag valid).
Proof. induction idx; intro valid; cbn [ct_go]; cls. Qed.
#[export] Hint Resolve basic_ct_go : within_db.

Lemma basic_decode_utf8 b : basic (decode_utf8 b). Proof. cls. Qed.
Lemma basic_swap_core i j : basic (swap_core i j). Proof. cls. Qed.
Lemma within_when C b p : within C p -> within C (when b p). Proof. intro. cls. Qed.
#[export] Hint Resolve basic_decode_utf8 basic_swap_core within_when : within_db.

Lemma basic_NOP : basic NOP. Proof. cls. Qed.

(* instructions used inside other instructions *)
Lemma basic_OP_VERIFY : basic OP_VERIFY.             Proof. cls. Qed.
Lemma basic_OP_DUP : basic OP_DUP.                   Proof. cls. Qed.
Lemma basic_OP_SHA256 : basic OP_SHA256.             Proof. cls. Qed.
Lemma basic_OP_SWAP2 : basic OP_SWAP2.               Proof. cls. Qed.
Lemma basic_OP_XOR : basic OP_XOR.                   Proof. cls. Qed.
Lemma basic_OP_EQUAL_VERIFY : basic OP_EQUAL_VERIFY. Proof. cls. Qed.
#[export] Hint Resolve basic_OP_VERIFY basic_OP_DUP basic_OP_SHA256 basic_OP_SWAP2 basic_OP_XOR
  basic_OP_EQUAL_VERIFY : within_db.

(* the instructions that set or test the flag 'returned' or run a sub-tape *)
Definition ctrl_op (o : opcode) : bool :=
  match o with
  | O_RETURN | O_CALL | O_IF | O_IF_ELSE | O_EVAL | O_MERKLEVAL | O_TRY_EXCEPT | O_LOOP
  | O_TAPROOT => true
  | _ => false
  end.

(* all other instructions but the eight that begin by running the signature plugins *)
Definition basic_op (o : opcode) : bool :=
  match o with
  | O_GET_MESSAGE | O_CHECK_SIG | O_CHECK_SIG_VERIFY | O_CHECK_MULTISIG | O_CHECK_MULTISIG_VERIFY
  | O_SIGN | O_CHECK_TEMPLATE | O_CHECK_TEMPLATE_VERIFY => false
  | _ => negb (ctrl_op o)
  end.

Lemma op_prog_basic (o : opcode) : basic_op o = true -> basic (op_prog o).
Proof. destruct o; try discriminate; intros _; cbn [op_prog]; cls. Qed.

(* A class that contains the basic actions and the plugin events contains every action of every
   instruction but the control instructions. *)
Section Class.
Variable C : forall X, action X -> bool.
Hypothesis C_basic : forall X (a : action X), basic_act a = true -> C X a = true.
Hypothesis C_sigext : forall i, C _ (ALog (EvSigExt i)) = true.

Lemma basic_within A (p : prog A) : basic p -> within C p.
Proof. apply within_mono, C_basic. Qed.

Lemma within_log_sigext l : within C (log_sigext l).
Proof.
  induction l as [|i l IH]; cbn [log_sigext]; [exact I|].
  apply within_bind; [apply within_act, C_sigext|intro; exact IH].
Qed.

Lemma within_run_sig_ext : within C run_sig_ext.
Proof. apply within_bind; [apply basic_within, basic_config|intro; apply within_log_sigext]. Qed.

Local Hint Resolve basic_within within_run_sig_ext : within_db.

Lemma op_prog_within (o : opcode) : ctrl_op o = false -> within C (op_prog o).
Proof.
  intro H. destruct (basic_op o) eqn:E; [apply basic_within, op_prog_basic, E|].
  destruct o; try discriminate E; try discriminate H; cbn [op_prog]; cls.
Qed.

End Class.
