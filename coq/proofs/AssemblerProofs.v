(* Theorems about the symbol-level model of the tapescript compiler (model/Assembler.v):
   every spelling of a program assembles to the documented encoding ([spells], [assemble_spells]);
   the decompiler's listing is one of the spellings ([assemble_listing]); the malformed families are
   rejected ([reject_*]); and the oddities / defects of the compiler, as refutations by computation. *)
From Coq Require Import ZArith List Bool Lia NArith String Ascii DecimalString DecimalZ.
From Coq.Strings Require Import Byte.
From TS Require Import Bytes Codec Ops Names Asm Tables TablesCheck BytesLemmas CodecProofs AsmProofs Tokenizer Assembler.
Import ListNotations.
Open Scope string_scope.
Open Scope list_scope.
Open Scope Z_scope.

Lemma digit_alnum : forall c, is_digit c = true -> is_alnum_c c = true.
Proof. apply char_imp_spec. vm_compute. reflexivity. Qed.
Lemma alnum_plain : forall c, is_alnum_c c = true -> plain_c c = true.
Proof. apply char_imp_spec. vm_compute. reflexivity. Qed.
Lemma digit_plain : forall c, is_digit c = true -> plain_c c = true.
Proof. intros c H. apply alnum_plain, digit_alnum, H. Qed.

Lemma digit_uint : forall d, sall is_digit (NilEmpty.string_of_uint d) = true.
Proof. induction d; cbn [NilEmpty.string_of_uint sall]; try rewrite IHd; reflexivity. Qed.

Lemma dec_nonneg : forall z, 0 <= z -> exists u, dec z = NilEmpty.string_of_uint u /\ Z.of_uint u = z.
Proof.
  intros z H. unfold dec. pose proof (DecimalZ.of_to z) as E.
  destruct z as [|p|p]; [| |lia]; cbn [Z.to_int NilEmpty.string_of_int] in *;
    eexists; (split; [reflexivity|]); exact E.
Qed.

Lemma dec_digits : forall z, 0 <= z -> sall is_digit (dec z) = true.
Proof. intros z H. destruct (dec_nonneg z H) as (u & -> & _). apply digit_uint. Qed.

Lemma nonempty_dec : forall z, nonempty (dec z) = true.
Proof. intros z. pose proof (dec_nonempty z). destruct (dec z); [congruence|reflexivity]. Qed.

Lemma digits_Z_dec : forall z, 0 <= z -> digits_Z (dec z) = Some z.
Proof.
  intros z H. unfold digits_Z. pose proof (dec_nonempty z) as N.
  destruct (dec z) eqn:E; [congruence|]. rewrite <- E.
  destruct (dec_nonneg z H) as (u & -> & Eu). rewrite NilEmpty.usu. cbn [option_map]. congruence.
Qed.

Lemma dec_neg : forall z, z < 0 -> dec z = String "-" (dec (- z)).
Proof. intros [|p|p] H; try lia. reflexivity. Qed.

Definition digs (r : string) : Prop := nonempty r = true /\ sall is_digit r = true.

(* digit strings denoting z >= 0: the canonical one with any number of leading zeros *)
Inductive sp_num (z : Z) : string -> Prop :=
| num_dec : 0 <= z -> sp_num z (dec z)
| num_zero : forall r, sp_num z r -> sp_num z (String "0" r).

Lemma sp_num_spec : forall z r, sp_num z r ->
  nonempty r = true /\ sall is_digit r = true /\ digits_Z r = Some z.
Proof.
  induction 1 as [H|r _ (N & D & V)].
  - split; [apply nonempty_dec|]. split; [apply dec_digits; exact H|apply digits_Z_dec; exact H].
  - split; [reflexivity|]. split; [cbn [sall]; rewrite D; reflexivity|].
    unfold digits_Z in *. destruct r as [|c r']; [discriminate N|].
    cbn [NilEmpty.uint_of_string] in *.
    destruct (uint_of_char c (NilEmpty.uint_of_string r')) as [u|]; [|discriminate V].
    cbn [uint_of_char option_map] in *. exact V.
Qed.

Lemma sp_num_isnumeric : forall z r, sp_num z r -> isnumeric r = true.
Proof. intros z r H. destruct (sp_num_spec z r H) as (N & D & _). unfold isnumeric. rewrite N, D. reflexivity. Qed.
Lemma sp_num_nonneg : forall z r, sp_num z r -> 0 <= z.
Proof. induction 1; assumption. Qed.

Lemma digs_lstrip : forall r, sall is_digit r = true -> lstrip_pm r = r.
Proof.
  intros [|c r] H; [reflexivity|]. cbn [sall] in H. apply andb_prop in H as [H _].
  cbn [lstrip_pm]. rewrite (char_sep is_digit c "+" H), (char_sep is_digit c "-" H) by reflexivity. reflexivity.
Qed.
Lemma digs_split_dot : forall r, sall is_digit r = true -> split_dot r = r.
Proof.
  induction r as [|c r IH]; intros H; [reflexivity|]. cbn [sall] in H. apply andb_prop in H as [H H'].
  cbn [split_dot]. rewrite (char_sep is_digit c "." H eq_refl), IH by exact H'. reflexivity.
Qed.
Lemma digs_remove_dots : forall r, sall is_digit r = true -> remove_dots r = r.
Proof.
  induction r as [|c r IH]; intros H; [reflexivity|]. cbn [sall] in H. apply andb_prop in H as [H H'].
  cbn [remove_dots]. rewrite (char_sep is_digit c "." H eq_refl), IH by exact H'. reflexivity.
Qed.
Lemma digs_us_ok : forall r b, sall is_digit r = true -> us_ok b r = (b || nonempty r).
Proof.
  induction r as [|c r IH]; intros b H; [destruct b; reflexivity|]. cbn [sall] in H. apply andb_prop in H as [H H'].
  cbn [us_ok nonempty]. rewrite (char_sep is_digit c "_" H eq_refl), H, IH by exact H'.
  rewrite orb_true_r. reflexivity.
Qed.
Lemma digs_drop_us : forall r, sall is_digit r = true -> drop_us r = r.
Proof.
  induction r as [|c r IH]; intros H; [reflexivity|]. cbn [sall] in H. apply andb_prop in H as [H H'].
  cbn [drop_us]. rewrite (char_sep is_digit c "_" H eq_refl), IH by exact H'. reflexivity.
Qed.
Lemma digs_py_uint : forall r, digs r -> py_uint r = digits_Z r.
Proof.
  intros r [N D]. unfold py_uint. rewrite digs_us_ok, N, digs_drop_us by exact D. reflexivity.
Qed.
Lemma digs_py_int : forall r, digs r -> py_int r = digits_Z r.
Proof.
  intros r [N D]. destruct r as [|c r']; [discriminate N|]. unfold py_int.
  pose proof D as D'. cbn [sall] in D'. apply andb_prop in D' as [Hc _].
  rewrite (char_sep is_digit c "-" Hc), (char_sep is_digit c "+" Hc) by reflexivity. apply digs_py_uint. split; assumption.
Qed.

(* an optional sign in front: the d-form accepted by _get_OP_PUSH0_type_args / _get_OP_PUSH2_args *)
Inductive sp_snum (z : Z) : string -> Prop :=
| sn_plain : forall r, sp_num z r -> sp_snum z r
| sn_plus : forall r, sp_num z r -> sp_snum z (String "+" r)
| sn_minus : forall r, sp_num (- z) r -> sp_snum z (String "-" r).

Lemma sp_num_digs : forall z r, sp_num z r -> digs r.
Proof. intros z r H. destruct (sp_num_spec z r H) as (N & D & _). split; assumption. Qed.

Lemma sp_snum_spec : forall z r, sp_snum z r ->
  exists sg d, r = (sg ++ d)%string /\ digs d /\ lstrip_pm r = d /\ py_int r = Some z /\
               (sg = "" \/ sg = "+" \/ sg = "-").
Proof.
  intros z r [r' H|r' H|r' H]; pose proof (sp_num_digs _ _ H) as G;
    destruct (sp_num_spec _ _ H) as (_ & D & V).
  - exists "", r'. repeat split; try apply G; auto. apply digs_lstrip; exact D.
    rewrite digs_py_int by exact G. exact V.
  - exists "+", r'. repeat split; try apply G; auto. cbn [lstrip_pm Ascii.eqb Bool.eqb orb]. apply digs_lstrip; exact D.
    unfold py_int. change (Ascii.eqb "+" "-") with false. change (Ascii.eqb "+" "+") with true. cbv iota.
    rewrite digs_py_uint by exact G. exact V.
  - exists "-", r'. repeat split; try apply G; auto. cbn [lstrip_pm Ascii.eqb Bool.eqb orb]. apply digs_lstrip; exact D.
    unfold py_int. change (Ascii.eqb "-" "-") with true. cbv iota.
    rewrite digs_py_uint by exact G. rewrite V. cbn [option_map]. rewrite Z.opp_involutive. reflexivity.
Qed.

Lemma sall_app : forall f a b, sall f (a ++ b)%string = sall f a && sall f b.
Proof. induction a as [|c a IH]; intros b; [reflexivity|]. cbn [append sall]. rewrite IH, andb_assoc. reflexivity. Qed.

Lemma split_dot_sign : forall sg d, (sg = "" \/ sg = "+" \/ sg = "-") -> sall is_digit d = true ->
  forall j, split_dot (sg ++ d)%string = (sg ++ d)%string /\
            split_dot ((sg ++ d) ++ String "." j)%string = (sg ++ d)%string.
Proof.
  intros sg d S D j.
  assert (A : split_dot d = d) by (apply digs_split_dot; exact D).
  assert (B : split_dot (d ++ String "." j)%string = d).
  { clear A. induction d as [|c d IH]; [reflexivity|]. cbn [sall] in D. apply andb_prop in D as [H H'].
    cbn [append split_dot]. rewrite (char_sep is_digit c "." H eq_refl), IH by exact H'. reflexivity. }
  destruct S as [->|[->| ->]]; cbn [append split_dot Ascii.eqb Bool.eqb]; rewrite ?A, ?B; split; reflexivity.
Qed.

(* what the readers of a d-value look at in a signed numeral *)
Lemma sp_snum_read : forall z r, sp_snum z r ->
  isnumeric (lstrip_pm r) = true /\ split_dot r = r /\ py_int r = Some z.
Proof.
  intros z r H. destruct (sp_snum_spec z r H) as (sg & d & E & [N D] & L & V & S).
  split; [rewrite L; unfold isnumeric; rewrite N, D; reflexivity|]. split; [|exact V].
  rewrite E. apply (proj1 (split_dot_sign sg d S D "")).
Qed.

(* a decimal point and anything made of digits and points after it: accepted (and ignored) by
   _get_OP_PUSH1_type_args *)
Definition is_digit_or_dot (c : ascii) : bool := is_digit c || Ascii.eqb c ".".
Inductive sp_fnum (z : Z) : string -> Prop :=
| fn_int : forall r, sp_snum z r -> sp_fnum z r
| fn_frac : forall r j, sp_snum z r -> sall is_digit_or_dot j = true -> sp_fnum z (r ++ String "." j).

Lemma remove_dots_dd : forall j, sall is_digit_or_dot j = true -> sall is_digit (remove_dots j) = true.
Proof.
  induction j as [|c j IH]; intros H; [reflexivity|]. cbn [sall] in H. apply andb_prop in H as [H H'].
  cbn [remove_dots]. destruct (Ascii.eqb c ".") eqn:E; [apply IH; exact H'|].
  unfold is_digit_or_dot in H. rewrite E, orb_false_r in H. cbn [sall]. rewrite H, IH by exact H'. reflexivity.
Qed.
Lemma remove_dots_app : forall a b, remove_dots (a ++ b)%string = (remove_dots a ++ remove_dots b)%string.
Proof.
  induction a as [|c a IH]; intros b; [reflexivity|]. cbn [append remove_dots].
  destruct (Ascii.eqb c "."); rewrite IH; reflexivity.
Qed.
Lemma lstrip_app_digs : forall d s, digs d -> lstrip_pm (d ++ s)%string = (d ++ s)%string.
Proof.
  intros [|c d] s [N D]; [discriminate N|]. cbn [sall] in D. apply andb_prop in D as [H _].
  cbn [append lstrip_pm]. rewrite (char_sep is_digit c "+" H), (char_sep is_digit c "-" H) by reflexivity. reflexivity.
Qed.
Lemma nonempty_app : forall a b, nonempty a = true -> nonempty (a ++ b)%string = true.
Proof. intros [|c a] b H; [discriminate H|reflexivity]. Qed.

Lemma sp_fnum_spec : forall z r, sp_fnum z r ->
  isnumeric (remove_dots (lstrip_pm r)) = true /\ py_int (split_dot r) = Some z.
Proof.
  intros z r [r' H|r' j H J]; destruct (sp_snum_spec _ _ H) as (sg & d & -> & G & L & V & S);
    pose proof G as [N D].
  - rewrite L, digs_remove_dots by exact D. split; [unfold isnumeric; rewrite N, D; reflexivity|].
    rewrite (proj1 (split_dot_sign sg d S D "")). exact V.
  - split.
    + assert (E : lstrip_pm ((sg ++ d) ++ String "." j)%string = (d ++ String "." j)%string).
      { destruct S as [->|[->| ->]]; cbn [append lstrip_pm Ascii.eqb Bool.eqb orb];
          apply lstrip_app_digs; exact G. }
      rewrite E, remove_dots_app, digs_remove_dots by exact D.
      cbn [remove_dots Ascii.eqb Bool.eqb]. unfold isnumeric.
      rewrite nonempty_app by exact N. rewrite sall_app, D, remove_dots_dd by exact J. reflexivity.
    + rewrite (proj2 (split_dot_sign sg d S D j)). exact V.
Qed.

(* hexadecimal in either case *)
Definition sp_hex (v : bytes) (r : string) : Prop := lower_s r = hex v.

Lemma sp_hex_unhex : forall v r, sp_hex v r -> unhex_ci r = Some v.
Proof. intros v r H. unfold unhex_ci. rewrite H. apply unhex_hex. Qed.
Lemma length_smap : forall f s, String.length (smap f s) = String.length s.
Proof. induction s; cbn [smap String.length]; congruence. Qed.
Lemma length_hex : forall v, String.length (hex v) = (2 * List.length v)%nat.
Proof.
  induction v as [|x t IH]; [reflexivity|]. cbn [hex].
  destruct (Byte.to_bits x) as (b0 & b1 & b2 & b3 & b4 & b5 & b6 & b7). cbn [String.length List.length]. lia.
Qed.
Lemma sp_hex_length : forall v r, sp_hex v r -> String.length r = (2 * List.length v)%nat.
Proof. intros v r H. rewrite <- (length_smap lower_c), <- length_hex. f_equal. exact H. Qed.

(* string values: r is the symbol without its s *)
Lemma index_char_app : forall q body junk, index_char q body = None ->
  index_char q (body ++ String q junk)%string = Some (String.length body) /\
  sfirstn (String.length body) (body ++ String q junk)%string = body.
Proof.
  induction body as [|c body IH]; intros junk H.
  - cbn [append index_char]. rewrite Ascii.eqb_refl. split; reflexivity.
  - cbn [index_char] in H. destruct (Ascii.eqb c q) eqn:E; [discriminate H|].
    destruct (index_char q body) eqn:E2; [discriminate H|].
    destruct (IH junk eq_refl) as [A B]. cbn [append index_char String.length sfirstn].
    rewrite E, A, B. split; reflexivity.
Qed.

Inductive sp_str (v : bytes) : string -> Prop :=
| str_dq : forall body junk, index_char dquote body = None -> v = str body ->
    sp_str v (String dquote (body ++ String dquote junk))
| str_sq : forall body junk, index_char squote body = None -> v = str body ->
    sp_str v (String squote (body ++ String squote junk))
| str_raw : forall c r, v = str (String c r) ->
    (c = dquote -> index_char dquote r = None) -> (c = squote -> index_char squote r = None) ->
    sp_str v (String c r).

Lemma sp_str_sval : forall v r, sp_str v r -> sval r = Ok v.
Proof.
  intros v r [body junk H ->|body junk H ->|c r' -> H1 H2]; unfold sval.
  - change (Ascii.eqb dquote dquote) with true. cbv iota.
    destruct (index_char_app dquote body junk H) as [A B]. rewrite A, B. reflexivity.
  - change (Ascii.eqb squote dquote) with false. change (Ascii.eqb squote squote) with true. cbv iota.
    destruct (index_char_app squote body junk H) as [A B]. rewrite A, B. reflexivity.
  - destruct (Ascii.eqb c dquote) eqn:E1.
    + apply Ascii.eqb_eq in E1. rewrite (H1 E1). subst c. change (Ascii.eqb dquote squote) with false. reflexivity.
    + destruct (Ascii.eqb c squote) eqn:E2; [|reflexivity].
      apply Ascii.eqb_eq in E2. rewrite (H2 E2). reflexivity.
Qed.

(* a run-time oracle for the sources that have no "~!" block *)
Definition ct0 : bytes -> res (option bytes) := fun _ => Unm.

(* symbols that are outside the model, or that parse_comptime takes out of the symbol list *)
Definition bad_symbol (s : string) : bool := mem s ["~"; "~!"; "!="] || unmodelled_symbol s.

Definition struct_syms : list string := ["{"; "}"; "("; ")"; "END_DEF"].
Definition leafb (s : string) : bool := negb (bad_symbol s) && negb (mem s struct_syms).

Lemma sall_imp : forall (f g : ascii -> bool), (forall c, f c = true -> g c = true) ->
  forall s, sall f s = true -> sall g s = true.
Proof.
  intros f g H. induction s as [|c s IH]; intros E; [reflexivity|]. cbn [sall] in *.
  apply andb_prop in E as [E1 E2]. rewrite (H c E1), IH by exact E2. reflexivity.
Qed.
Lemma sall_smap : forall f g s, sall f (smap g s) = sall (fun c => f (g c)) s.
Proof. induction s as [|c s IH]; [reflexivity|]. cbn [smap sall]. rewrite IH. reflexivity. Qed.

Definition is_hexlow (c : ascii) : bool := match unnib c with Some _ => true | None => false end.
Lemma hex_hexlow : forall v, sall is_hexlow (hex v) = true.
Proof.
  induction v as [|x t IH]; [reflexivity|]. cbn [hex].
  destruct (Byte.to_bits x) as (b0 & b1 & b2 & b3 & b4 & b5 & b6 & b7). cbn [sall].
  unfold is_hexlow at 1 2. rewrite !unnib_nib, IH. reflexivity.
Qed.
Lemma hexlow_lower_ascii : forall c, is_hexlow (lower_c c) = true -> plain_c c = true.
Proof. apply char_imp_spec. vm_compute. reflexivity. Qed.
Lemma sp_hex_ascii : forall v r, sp_hex v r -> is_ascii_s r = true.
Proof.
  intros v r H. pose proof (hex_hexlow v) as K. rewrite <- H in K. unfold lower_s in K. rewrite sall_smap in K.
  revert K. apply sall_imp. apply hexlow_lower_ascii.
Qed.
Lemma digs_ascii : forall r, sall is_digit r = true -> is_ascii_s r = true.
Proof. apply sall_imp. exact digit_plain. Qed.
Lemma dd_ascii : forall r, sall is_digit_or_dot r = true -> is_ascii_s r = true.
Proof.
  apply sall_imp. intros c H. unfold is_digit_or_dot in H. apply orb_prop in H as [H|H].
  - apply digit_plain. exact H.
  - apply Ascii.eqb_eq in H. subst c. reflexivity.
Qed.
Lemma is_ascii_app : forall a b, is_ascii_s (a ++ b)%string = is_ascii_s a && is_ascii_s b.
Proof. intros. apply sall_app. Qed.

Lemma sp_snum_ascii : forall z r, sp_snum z r -> is_ascii_s r = true.
Proof.
  intros z r H. destruct (sp_snum_spec z r H) as (sg & d & -> & [_ D] & _ & _ & S).
  rewrite is_ascii_app, (digs_ascii d D). destruct S as [->|[->| ->]]; reflexivity.
Qed.
Lemma sp_fnum_ascii : forall z r, sp_fnum z r -> is_ascii_s r = true.
Proof.
  intros z r [r' H|r' j H J].
  - apply (sp_snum_ascii z); exact H.
  - rewrite is_ascii_app, (sp_snum_ascii z r' H). cbn [is_ascii_s sall]. fold (is_ascii_s j).
    rewrite (dd_ascii j J). reflexivity.
Qed.

(* the first character of a value symbol: the prefix in either case *)
Definition pfx (l u : ascii) (c : ascii) : Prop := c = l \/ c = u.
Definition dD := pfx "d" "D".
Definition xX := pfx "x" "X".
Definition sS := pfx "s" "S".

Lemma pfx_d : forall c, dD c -> lower_c c = "d"%char.
Proof. intros c [->| ->]; reflexivity. Qed.
Lemma pfx_x : forall c, xX c -> lower_c c = "x"%char.
Proof. intros c [->| ->]; reflexivity. Qed.

Lemma pfx_s : forall c, sS c -> lower_c c = "s"%char.
Proof. intros c [->| ->]; reflexivity. Qed.

Lemma leaf_dx : forall c r, dD c \/ xX c -> is_ascii_s r = true -> leafb (String c r) = true.
Proof.
  intros c r [[->| ->]|[->| ->]] H; unfold leafb, bad_symbol, unmodelled_symbol; cbn [is_ascii_s sall] in *;
    fold (is_ascii_s r); rewrite H; reflexivity.
Qed.
Lemma leaf_s : forall c r, sS c -> leafb (String c r) = true.
Proof.
  intros c r [->| ->]; unfold leafb, bad_symbol, unmodelled_symbol; cbn [mem existsb String.eqb Ascii.eqb Bool.eqb orb];
    cbn [lower_c is_upper asc_between]; cbn; rewrite andb_false_r; reflexivity.
Qed.
Lemma isalnum_ascii : forall k, isalnum k = true -> is_ascii_s k = true.
Proof. intros k H. unfold isalnum in H. apply andb_prop in H as [_ H]. revert H. apply sall_imp. exact alnum_plain. Qed.
Lemma mem_In : forall s l, mem s l = true -> In s l.
Proof.
  intros s l H. unfold mem in H. apply existsb_exists in H as (x & I & E). apply String.eqb_eq in E. subst. exact I.
Qed.
Lemma leaf_alnum : forall k, isalnum k = true -> leafb k = true.
Proof.
  intros k H. pose proof (isalnum_ascii k H) as A.
  unfold leafb, bad_symbol, unmodelled_symbol. rewrite A. cbn [negb andb]. rewrite orb_false_r.
  destruct (mem k ["~"; "~!"; "!="]) eqn:E1.
  { apply mem_In in E1. cbn [In] in E1. destruct E1 as [<-|[<-|[<-|[]]]]; discriminate H. }
  destruct (mem k struct_syms) eqn:E2; [|reflexivity].
  apply mem_In in E2. cbn [In struct_syms] in E2. destruct E2 as [<-|[<-|[<-|[<-|[<-|[]]]]]]; discriminate H.
Qed.
Lemma digs_alnum : forall r, digs r -> isalnum r = true.
Proof. intros r [N D]. unfold isalnum. rewrite N. revert D. apply sall_imp. exact digit_alnum. Qed.
Lemma leaf_digits : forall r, digs r -> leafb r = true.
Proof. intros r D. apply leaf_alnum, digs_alnum, D. Qed.

Lemma b2z_nonneg : forall b, 0 <= b2z b.
Proof. intros b. apply b2z_range. Qed.
Lemma b2z_ltb : forall b, (b2z b <? 256) = true.
Proof. intros b. apply Z.ltb_lt, b2z_range. Qed.
Lemma b2z_range' : forall b, (0 <=? b2z b) && (b2z b <? 256) = true.
Proof. intros b. rewrite b2z_ltb, (proj2 (Z.leb_le _ _) (b2z_nonneg b)). reflexivity. Qed.

Section Values.
  Variable fl2 : Z -> Z.

  (* one byte: _get_OP_PUSH0_type_args (1-byte instructions and NOPs) *)
  Inductive sp_byte (b : byte) : string -> Prop :=
  | sb_d : forall c r z, dD c -> sp_snum z r -> int_to_bytes fl2 z = Some [b] -> sp_byte b (String c r)
  | sb_x : forall c r, xX c -> sp_hex [b] r -> sp_byte b (String c r)
  | sb_x0 : forall c, xX c -> b = x00 -> sp_byte b (String c "").      (* oddity O6 *)

  Lemma sp_byte_ok : forall b s, sp_byte b s -> val_byte fl2 s = Ok [b].
  Proof.
    intros b s [c r z C H I|c r C H|c C ->]; unfold val_byte, split_val; cbn [rbind].
    - destruct (sp_snum_read z r H) as (A & SD & V).
      rewrite (pfx_d c C); cbn [Ascii.eqb Bool.eqb andb]; rewrite A, SD, V; cbn [of_opt rbind]; unfold i2b; rewrite I.
      reflexivity.
    - pose proof (sp_hex_length _ _ H) as Len. cbn [List.length] in Len.
      rewrite (proj2 (Nat.leb_le _ _)) by lia. rewrite (sp_hex_unhex _ _ H).
      rewrite (pfx_x c C). reflexivity.
    - rewrite (pfx_x c C). reflexivity.
  Qed.

  Lemma sp_byte_leaf : forall b s, sp_byte b s -> leafb s = true.
  Proof.
    intros b s [c r z C H I|c r C H|c C _]; apply leaf_dx; auto.
    - apply (sp_snum_ascii z); exact H.
    - apply (sp_hex_ascii [b]); exact H.
  Qed.

  (* [len:1][val] operands: _get_OP_PUSH1_type_args *)
  Inductive sp_var1 (v : bytes) : string -> Prop :=
  | sv_d : forall c r z, dD c -> sp_fnum z r -> int_to_bytes fl2 z = Some v -> sp_var1 v (String c r)
  | sv_x : forall c r, xX c -> sp_hex v r -> sp_var1 v (String c r)
  | sv_s : forall c r, sS c -> sp_str v r -> sp_var1 v (String c r).

  Lemma sp_var1_ok : forall v s, sp_var1 v s -> val_var1 fl2 s = Ok v.
  Proof.
    intros v s [c r z C H I|c r C H|c r C H]; unfold val_var1, split_val; cbn [rbind].
    - destruct (sp_fnum_spec z r H) as [A B].
      rewrite (pfx_d c C); cbn [Ascii.eqb Bool.eqb andb]; rewrite A, B; cbn [of_opt rbind]; unfold i2b; rewrite I; reflexivity.
    - rewrite (pfx_x c C); cbn [Ascii.eqb Bool.eqb andb]; rewrite (sp_hex_unhex _ _ H); reflexivity.
    - rewrite (pfx_s c C); cbn [Ascii.eqb Bool.eqb andb]; apply sp_str_sval; exact H.
  Qed.
  Lemma sp_var1_leaf : forall v s, sp_var1 v s -> leafb s = true.
  Proof.
    intros v s [c r z C H I|c r C H|c r C H]; [apply leaf_dx|apply leaf_dx|apply leaf_s]; auto.
    - apply (sp_fnum_ascii z); exact H.
    - apply (sp_hex_ascii v); exact H.
  Qed.

  (* OP_PUSH2: _get_OP_PUSH2_args *)
  Inductive sp_push2 (v : bytes) : string -> Prop :=
  | s2_d : forall c r z, dD c -> sp_snum z r -> int_to_bytes fl2 z = Some v -> sp_push2 v (String c r)
  | s2_x : forall c r, xX c -> sp_hex v r -> sp_push2 v (String c r)
  | s2_s : forall c r, sS c -> sp_str v r -> sp_push2 v (String c r).

  Lemma sp_push2_ok : forall v s, sp_push2 v s -> val_push2 fl2 s = Ok v.
  Proof.
    intros v s [c r z C H I|c r C H|c r C H]; unfold val_push2, split_val; cbn [rbind].
    - destruct (sp_snum_read z r H) as (A & SD & V).
      rewrite (pfx_d c C); cbn [Ascii.eqb Bool.eqb andb]; rewrite A, SD, V; cbn [of_opt rbind]; unfold i2b; rewrite I.
      reflexivity.
    - rewrite (pfx_x c C); cbn [Ascii.eqb Bool.eqb andb]; rewrite (sp_hex_unhex _ _ H); reflexivity.
    - rewrite (pfx_s c C); cbn [Ascii.eqb Bool.eqb andb]; apply sp_str_sval; exact H.
  Qed.
  Lemma sp_push2_leaf : forall v s, sp_push2 v s -> leafb s = true.
  Proof.
    intros v s [c r z C H I|c r C H|c r C H]; [apply leaf_dx|apply leaf_dx|apply leaf_s]; auto.
    - apply (sp_snum_ascii z); exact H.
    - apply (sp_hex_ascii v); exact H.
  Qed.

  (* the PUSH pseudo-instruction: _get_OP_PUSH_args (no + sign) *)
  Inductive sp_pushv (v : bytes) : string -> Prop :=
  | sp_d : forall c r z, dD c -> sp_num z r -> int_to_bytes fl2 z = Some v -> sp_pushv v (String c r)
  | sp_dm : forall c r z, dD c -> sp_num (- z) r -> int_to_bytes fl2 z = Some v ->
      sp_pushv v (String c (String "-" r))
  | sp_x : forall c r, xX c -> sp_hex v r -> sp_pushv v (String c r)
  | sp_s : forall c r, sS c -> sp_str v r -> sp_pushv v (String c r).

  Lemma sp_pushv_ok : forall v s, sp_pushv v s -> val_push fl2 s = Ok v.
  Proof.
    intros v s [c r z C H I|c r z C H I|c r C H|c r C H]; unfold val_push, split_val; cbn [rbind].
    - pose proof (sp_num_digs _ _ H) as G. destruct (sp_num_spec _ _ H) as (_ & D & V).
      rewrite (pfx_d c C); cbn [Ascii.eqb Bool.eqb andb]; rewrite (sp_num_isnumeric _ _ H); cbn [orb];
        rewrite digs_split_dot, digs_py_int, V by assumption; cbn [of_opt rbind]; unfold i2b; rewrite I; reflexivity.
    - destruct (sp_snum_read z _ (sn_minus z r H)) as (_ & SD & V).
      rewrite (pfx_d c C); cbn [Ascii.eqb Bool.eqb andb]; rewrite (sp_num_isnumeric _ _ H);
        rewrite SD, V; cbn [of_opt rbind]; unfold i2b; rewrite I; reflexivity.
    - rewrite (pfx_x c C); cbn [Ascii.eqb Bool.eqb andb]; rewrite (sp_hex_unhex _ _ H); reflexivity.
    - rewrite (pfx_s c C); cbn [Ascii.eqb Bool.eqb andb]; apply sp_str_sval; exact H.
  Qed.
  Lemma sp_pushv_leaf : forall v s, sp_pushv v s -> leafb s = true.
  Proof.
    intros v s [c r z C H I|c r z C H I|c r C H|c r C H]; [apply leaf_dx|apply leaf_dx|apply leaf_dx|apply leaf_s]; auto.
    - apply digs_ascii. apply (sp_num_digs z r H).
    - apply (sp_snum_ascii z). apply sn_minus. exact H.
    - apply (sp_hex_ascii v); exact H.
  Qed.

  (* OP_WRITE_CACHE key: unsigned d-form (below 2^40), x, s *)
  Inductive sp_key (k : bytes) : string -> Prop :=
  | sk_d : forall c r z, dD c -> sp_num z r -> ukey z = Ok k -> sp_key k (String c r)
  | sk_x : forall c r, xX c -> sp_hex k r -> sp_key k (String c r)
  | sk_s : forall c r, sS c -> sp_str k r -> sp_key k (String c r).

  Lemma sp_key_ok : forall k s, sp_key k s -> val_key s = Ok k.
  Proof.
    intros k s [c r z C H I|c r C H|c r C H]; unfold val_key, split_val; cbn [rbind].
    - destruct (sp_num_spec _ _ H) as (_ & _ & V).
      rewrite (pfx_d c C); cbn [Ascii.eqb Bool.eqb andb]; rewrite (sp_num_isnumeric _ _ H), V; cbn [of_opt rbind]; exact I.
    - rewrite (pfx_x c C); cbn [Ascii.eqb Bool.eqb andb]; rewrite (sp_hex_unhex _ _ H); reflexivity.
    - rewrite (pfx_s c C); cbn [Ascii.eqb Bool.eqb andb]; apply sp_str_sval; exact H.
  Qed.
  Lemma sp_key_leaf : forall v s, sp_key v s -> leafb s = true.
  Proof.
    intros v s [c r z C H I|c r C H|c r C H]; [apply leaf_dx|apply leaf_dx|apply leaf_s]; auto.
    - apply digs_ascii. apply (sp_num_digs z r H).
    - apply (sp_hex_ascii v); exact H.
  Qed.

  (* OP_WRITE_CACHE count: d-form, or x-form of any length (oddity O7) *)
  Inductive sp_count (cb : byte) : string -> Prop :=
  | sc_d : forall c r, dD c -> sp_num (b2z cb) r -> sp_count cb (String c r)
  | sc_x : forall c r v, xX c -> sp_hex v r -> be_to_Z v = b2z cb -> sp_count cb (String c r).

  Lemma sp_count_ok : forall cb s, sp_count cb s -> val_count s = Ok (b2z cb).
  Proof.
    intros cb s [c r C H|c r v C H E]; unfold val_count, split_val; cbn [rbind].
    - destruct (sp_num_spec _ _ H) as (_ & _ & V).
      rewrite (pfx_d c C); cbn [Ascii.eqb Bool.eqb andb]; rewrite (sp_num_isnumeric _ _ H), V; reflexivity.
    - rewrite (pfx_x c C); cbn [Ascii.eqb Bool.eqb andb]; rewrite (sp_hex_unhex _ _ H); cbn [of_opt rbind]; rewrite E; reflexivity.
  Qed.
  Lemma sp_count_leaf : forall v s, sp_count v s -> leafb s = true.
  Proof.
    intros v s [c r C H|c r w C H E]; apply leaf_dx; auto.
    - apply digs_ascii. apply (sp_num_digs _ r H).
    - apply (sp_hex_ascii w); exact H.
  Qed.

  (* OP_SWAP / OP_CHECK_MULTISIG operands *)
  Inductive sp_index (b : byte) : string -> Prop :=
  | si_d : forall c r, dD c -> sp_num (b2z b) r -> sp_index b (String c r)
  | si_x : forall c r, xX c -> sp_hex [b] r -> sp_index b (String c r).

  Lemma sp_index_ok : forall b s, sp_index b s -> val_index s = Ok [b].
  Proof.
    intros b s [c r C H|c r C H]; unfold val_index, split_val; cbn [rbind].
    - destruct (sp_num_spec _ _ H) as (_ & _ & V).
      rewrite (pfx_d c C); cbn [Ascii.eqb Bool.eqb andb]; rewrite (sp_num_isnumeric _ _ H), V; cbn [of_opt rbind]; rewrite b2z_ltb, z2b_b2z; reflexivity.
    - pose proof (sp_hex_length _ _ H) as Len. cbn [List.length] in Len.
      rewrite (pfx_x c C); cbn [Ascii.eqb Bool.eqb andb]; rewrite Len; cbn [Nat.eqb Nat.mul Nat.add]; rewrite (sp_hex_unhex _ _ H); reflexivity.
  Qed.
  Lemma sp_index_leaf : forall v s, sp_index v s -> leafb s = true.
  Proof.
    intros v s [c r C H|c r C H]; apply leaf_dx; auto.
    - apply digs_ascii. apply (sp_num_digs _ r H).
    - apply (sp_hex_ascii [v]); exact H.
  Qed.

  (* fixed-width hexadecimal operands: OP_DIV_FLOAT / OP_MOD_FLOAT (4 bytes), OP_MERKLEVAL (32) *)
  Inductive sp_xval (v : bytes) : string -> Prop :=
  | sx_x : forall c r, xX c -> sp_hex v r -> sp_xval v (String c r).
  Lemma sp_xval_leaf : forall v s, sp_xval v s -> leafb s = true.
  Proof. intros v s [c r C H]. apply leaf_dx; auto. apply (sp_hex_ascii v); exact H. Qed.

  (* the def number: bare digits, d + digits (lower-case d only), x + two hex digits (lower-case x) *)
  Inductive sp_handle (h : byte) : string -> Prop :=
  | sh_bare : forall r, sp_num (b2z h) r -> sp_handle h r
  | sh_d : forall r, sp_snum (b2z h) r -> sp_handle h (String "d" r)
  | sh_x : forall r, sp_hex [h] r -> sp_handle h (String "x" r).

  Lemma sp_handle_ok : forall h s, sp_handle h s -> def_handle s = Ok h.
  Proof.
    intros h s [r H|r H|r H]; unfold def_handle.
    - pose proof (sp_num_digs _ _ H) as [N D]. destruct (sp_num_spec _ _ H) as (_ & _ & V).
      destruct r as [|c r']; [discriminate N|].
      pose proof D as D'. cbn [sall] in D'. apply andb_prop in D' as [Hc _].
      rewrite (char_sep is_digit c "d" Hc), (char_sep is_digit c "x" Hc), (sp_num_isnumeric _ _ H), V by reflexivity. cbn [of_opt rbind]. rewrite b2z_range', z2b_b2z. reflexivity.
    - destruct (sp_snum_spec _ _ H) as (sg & d & E & G & L & V & S).
      change (Ascii.eqb "d" "d") with true. cbv iota. rewrite V. cbn [of_opt rbind].
      rewrite b2z_range', z2b_b2z. reflexivity.
    - pose proof (sp_hex_length _ _ H) as Len. cbn [List.length] in Len.
      change (Ascii.eqb "x" "d") with false. change (Ascii.eqb "x" "x") with true. cbv iota.
      rewrite (proj2 (Nat.ltb_lt _ _)) by lia. rewrite (sp_hex_unhex _ _ H). reflexivity.
  Qed.
  Lemma sp_handle_leaf : forall h s, sp_handle h s -> leafb s = true.
  Proof.
    intros h s [r H|r H|r H].
    - apply leaf_digits. apply (sp_num_digs _ r H).
    - apply leaf_dx; [left; left; reflexivity|]. apply (sp_snum_ascii _ r H).
    - apply leaf_dx; [right; left; reflexivity|]. apply (sp_hex_ascii _ r H).
  Qed.

  (* the explicit size of "OP_PUSH1 size value" / "OP_PUSH2 size value" (_check_push_size): d + an
     integer (sign, leading zeros) or x + the hexadecimal of a non-empty big-endian byte string *)
  Inductive sp_size (n : Z) : string -> Prop :=
  | sz_d : forall c r, dD c -> sp_snum n r -> sp_size n (String c r)
  | sz_x : forall c r b, xX c -> sp_hex b r -> b <> [] -> be_to_Z b = n -> sp_size n (String c r).

  Lemma sp_size_check : forall m a v, sp_size m a ->
    check_push_size (Some a) v = if m =? blen v then Ok tt else Err.
  Proof.
    intros m a v [c r C H|c r b C H NE E]; unfold check_push_size.
    - destruct (sp_snum_spec _ _ H) as (sg & d & Q & G & _ & V & S).
      assert (N : nonempty r = true).
      { rewrite Q. destruct S as [->|[->| ->]]; try reflexivity. cbn [append]. apply G. }
      rewrite N, (pfx_d c C), V. reflexivity.
    - assert (N : nonempty r = true).
      { pose proof (sp_hex_length _ _ H) as L. destruct b; [congruence|]. cbn [List.length] in L.
        destruct r; [cbn [String.length] in L; lia|reflexivity]. }
      rewrite N, (pfx_x c C), (sp_hex_unhex _ _ H), <- E. reflexivity.
  Qed.
  Lemma sp_size_ok : forall v a, sp_size (blen v) a -> check_push_size (Some a) v = Ok tt.
  Proof. intros v a H. rewrite (sp_size_check _ a v H), Z.eqb_refl. reflexivity. Qed.
  Lemma sp_size_leaf : forall n a, sp_size n a -> leafb a = true.
  Proof.
    intros n a [c r C H|c r b C H _ _]; apply leaf_dx; auto.
    - apply (sp_snum_ascii n); exact H.
    - apply (sp_hex_ascii b); exact H.
  Qed.
End Values.

(* where a statement stands: at top level (or in blocks at top level), directly in the body of a
   DEF (parse_def resolves the aliases itself there and refuses a DEF), or in a block nested in a
   DEF body *)
Inductive ctx := Top | DefDirect | DefNested.
Definition sub_ctx (c : ctx) : ctx := match c with Top => Top | _ => DefNested end.
Definition defpre (c : ctx) (s : string) : string :=
  match c with DefDirect => match alias_of s with Some t => t | None => s end | _ => s end.
Lemma is_alias_none : forall s, is_alias s = false -> alias_of s = None.
Proof. intros s H. unfold is_alias in H. destruct (alias_of s); [discriminate H|reflexivity]. Qed.

(* the names of an opcode: its OP_ name, and every key of the generated alias table that maps to it
   (the name without OP_, the short aliases with and without OP_); the same in every context *)
Definition spell_name (c : ctx) (o : opcode) (s : string) : Prop :=
  s = opcode_name o \/ In (s, opcode_name o) gen_aliases.

(* symbols that end or separate blocks, and "{" *)
Definition term_syms : list string :=
  ["}"; "END_IF"; "ELSE"; "END_LOOP"; "EXCEPT"; "END_EXCEPT"; "END_DEF"; "END_TRY"; "{"; "("; ")"].

(* what every first symbol of a statement satisfies *)
Definition headb (s : string) : bool :=
  negb (is_comment s) && negb (mem s term_syms) && leafb s.

Lemma headb_spec : forall h, headb h = true ->
  is_comment h = false /\ mem h term_syms = false /\ leafb h = true.
Proof.
  intros h H. unfold headb in H. apply andb_prop in H as [H H3]. apply andb_prop in H as [H1 H2].
  apply negb_true_iff in H1, H2. auto.
Qed.

(* The facts about the name tables are checked on a name given as a variable and swept over the
   tables once: a check stated on [opcode_name o] leaves the kernel with the alias table under a
   match on o that cannot reduce. *)
Definition alias_chk (p : string * string) : bool :=
  let '(a, t) := p in
  String.eqb (canon a) t && headb a && negb (is_comment t) && String.eqb (canon t) t
  && match alias_of a with Some t' => String.eqb t' t | None => false end.
Lemma alias_chk_all : forallb alias_chk gen_aliases = true.
Proof. vm_compute. reflexivity. Qed.
Lemma alias_spec : forall a t, In (a, t) gen_aliases ->
  canon a = t /\ headb a = true /\ is_comment t = false /\ canon t = t /\ alias_of a = Some t.
Proof.
  intros a t I. pose proof (proj1 (forallb_forall _ _) alias_chk_all _ I) as K. unfold alias_chk in K.
  apply andb_prop in K as [K K5]. apply andb_prop in K as [K K4]. apply andb_prop in K as [K K3].
  apply andb_prop in K as [K1 K2]. apply String.eqb_eq in K1, K4. apply negb_true_iff in K3.
  destruct (alias_of a) as [t'|]; [|discriminate K5]. apply String.eqb_eq in K5. subst t'. auto.
Qed.

Definition name_chk (n : string) (k : nat) : bool :=
  String.eqb (canon n) n && negb (is_alias n) && headb n
  && match opcode_index n with Some k' => Nat.eqb k' k | None => false end.
Lemma name_chk_spec : forall n k, name_chk n k = true ->
  canon n = n /\ alias_of n = None /\ headb n = true /\ opcode_index n = Some k.
Proof.
  intros n k K. unfold name_chk in K.
  apply andb_prop in K as [K K4]. apply andb_prop in K as [K K3]. apply andb_prop in K as [K1 K2].
  apply String.eqb_eq in K1. apply negb_true_iff, is_alias_none in K2.
  destruct (opcode_index n); [|discriminate K4]. apply Nat.eqb_eq in K4. subst. auto.
Qed.
Lemma opname_chk_all :
  forallb (fun o => name_chk (opcode_name o) (Byte.to_nat (opcode_byte o))) all_opcodes = true.
Proof. vm_compute. reflexivity. Qed.
Lemma opname_spec : forall o,
  canon (opcode_name o) = opcode_name o /\ alias_of (opcode_name o) = None /\
  headb (opcode_name o) = true /\ opcode_index (opcode_name o) = Some (Byte.to_nat (opcode_byte o)).
Proof.
  intros o. apply name_chk_spec. exact (proj1 (forallb_forall _ _) opname_chk_all o (all_opcodes_In o)).
Qed.

Lemma spell_name_spec : forall c o s, spell_name c o s ->
  canon (defpre c s) = opcode_name o /\ is_comment (defpre c s) = false /\ headb s = true.
Proof.
  intros c o s [->|I].
  - destruct (opname_spec o) as (K1 & K2 & H & _). destruct (headb_spec _ H) as (Hc & _).
    assert (D : defpre c (opcode_name o) = opcode_name o) by (destruct c; cbn [defpre]; rewrite ?K2; reflexivity).
    rewrite D. auto.
  - destruct (alias_spec s _ I) as (K1 & K2 & K3 & K4 & Q). destruct (headb_spec _ K2) as (Hc & _).
    split; [|split; [|exact K2]]; destruct c; cbn [defpre]; rewrite ?Q; assumption.
Qed.

Lemma opcode_name_inj_def : forall o s, opcode_name o = s ->
  (s = "OP_DEF" -> o = O_DEF) /\ s <> "}" /\ s <> "END_DEF".
Proof. intros o s <-. destruct o; repeat split; try discriminate; reflexivity. Qed.

(* a name that is none of the special words of parse_next *)
Definition plainb (c : string) : bool :=
  match c with
  | EmptyString => false
  | String c0 _ =>
    negb (String.eqb c "@=") && negb (String.eqb c "!=") && negb (is_prefix "@#" c)
    && negb (Ascii.eqb c0 "@") && negb (Ascii.eqb c0 "!")
    && negb (String.eqb c "OP_PUSH") && negb (String.eqb c "OP_TRY")
    && negb (String.eqb c "OP_IF") && negb (String.eqb c "OP_DEF") && negb (String.eqb c "OP_LOOP")
  end.

Definition simple_op (o : opcode) : bool :=
  match o with O_IF | O_DEF | O_LOOP => false | _ => true end.
Lemma plainb_op : forall o, simple_op o = true -> plainb (opcode_name o) = true.
Proof. destruct o; intros H; try discriminate H; reflexivity. Qed.

Lemma plainb_not_def : forall n, plainb n = true -> String.eqb n "OP_DEF" = false.
Proof.
  intros [|c0 cr] H; [reflexivity|]. unfold plainb in H. apply andb_prop in H as [H _].
  apply andb_prop in H as [_ H]. apply negb_true_iff in H. exact H.
Qed.

Definition nopname_chk (n : string) : bool :=
  plainb n && String.eqb (canon n) n && negb (is_alias n) && headb n
  && match opcode_index n with Some _ => false | None => true end.
Lemma nopname_chk_spec : forall n, nopname_chk n = true ->
  plainb n = true /\ canon n = n /\ alias_of n = None /\ headb n = true /\ opcode_index n = None.
Proof.
  intros n K. unfold nopname_chk in K.
  apply andb_prop in K as [K K5]. apply andb_prop in K as [K K4]. apply andb_prop in K as [K K3].
  apply andb_prop in K as [K1 K2]. apply String.eqb_eq in K2. apply negb_true_iff, is_alias_none in K3.
  destruct (opcode_index n); [discriminate K5|]. auto.
Qed.
Lemma nop_chk_all : forallb (fun code => nopname_chk (nop_name code)) (seq 92 164) = true.
Proof. vm_compute. reflexivity. Qed.

(* the decimal numeral determines the code, so the search of nop_index stops at the code itself *)
Lemma nop_name_inj : forall a b, nop_name a = nop_name b -> a = b.
Proof.
  intros a b H. unfold nop_name in H. cbn [append] in H. injection H as H.
  apply (f_equal undec) in H. rewrite !undec_dec in H. injection H as H. apply Nat2Z.inj. exact H.
Qed.
Lemma nop_index_name : forall code, In code gen_nop_codes -> nop_index (nop_name code) = Some code.
Proof.
  intros code. unfold nop_index. induction gen_nop_codes as [|x l IH]; intros I; [destruct I|].
  cbn [find]. destruct (String.eqb (nop_name x) (nop_name code)) eqn:E.
  - apply String.eqb_eq, nop_name_inj in E. congruence.
  - destruct I as [->|I]; [rewrite String.eqb_refl in E; discriminate E|exact (IH I)].
Qed.

Lemma nop_spec : forall code, (n_opcodes <= code < 256)%nat ->
  plainb (nop_name code) = true /\ canon (nop_name code) = nop_name code /\ alias_of (nop_name code) = None /\
  headb (nop_name code) = true /\ opcode_index (nop_name code) = None /\
  nop_index (nop_name code) = Some code.
Proof.
  intros code H. rewrite n_opcodes_val in H.
  assert (I : In code (seq 92 164)) by (apply in_seq; lia).
  destruct (nopname_chk_spec _ (proj1 (forallb_forall _ _) nop_chk_all code I)) as (K1 & K2 & K3 & K4 & K5).
  repeat (split; [assumption|]). apply nop_index_name. rewrite (proj1 nop_codes_match). exact I.
Qed.

Section PnNames.
  Variable fl2 : Z -> Z.
  Variable asm : list string -> res bytes.
  Variable pn : string -> list string -> res (nat * bytes).
  Variable macs : macros.
  Variable compile : string -> res bytes.

  Lemma pn_plain : forall cur tail, is_comment cur = false -> plainb (canon cur) = true ->
    parse_next fl2 asm pn macs compile cur tail =
    match opcode_index (canon cur) with
    | Some k =>
        match opcode_of_nat k with
        | Some o => rbind (get_args fl2 o (tl tail)) (fun '(adv, args) => Ok (adv, z2b (Z.of_nat k) :: args))
        | None => Err
        end
    | None =>
        match nop_index (canon cur) with
        | Some code => rbind (args_push0 fl2 (tl tail)) (fun '(adv, args) => Ok (adv, z2b (Z.of_nat code) :: args))
        | None => Err
        end
    end.
  Proof.
    intros cur tail Hc Hp. unfold parse_next. rewrite Hc.
    destruct (canon cur) as [|c0 cr]; [discriminate Hp|]. unfold plainb in Hp.
    repeat (apply andb_prop in Hp as [Hp ?]).
    repeat match goal with H : negb _ = true |- _ => apply negb_true_iff in H; rewrite H end.
    reflexivity.
  Qed.

  Lemma pn_opcode : forall c cur tail o, spell_name c o cur -> simple_op o = true ->
    parse_next fl2 asm pn macs compile (defpre c cur) tail =
    rbind (get_args fl2 o (tl tail)) (fun '(adv, args) => Ok (adv, opcode_byte o :: args)).
  Proof.
    intros c cur tail o S P. destruct (spell_name_spec c o cur S) as (E & Hc & _).
    destruct (opname_spec o) as (_ & _ & _ & I).
    rewrite (pn_plain _ tail Hc) by (rewrite E; apply plainb_op; exact P).
    rewrite E, I, opcode_of_byte, z2b_to_nat. reflexivity.
  Qed.

  Lemma pn_nop : forall c code tail, (n_opcodes <= code < 256)%nat ->
    parse_next fl2 asm pn macs compile (defpre c (nop_name code)) tail =
    rbind (args_push0 fl2 (tl tail)) (fun '(adv, args) => Ok (adv, z2b (Z.of_nat code) :: args)).
  Proof.
    intros c code tail R. destruct (nop_spec code R) as (K1 & K2 & K3 & K4 & K5 & K6).
    assert (D : defpre c (nop_name code) = nop_name code) by (destruct c; cbn [defpre]; rewrite ?K3; reflexivity).
    rewrite D, (pn_plain _ tail (proj1 (headb_spec _ K4))) by (rewrite K2; exact K1). rewrite K2, K5, K6. reflexivity.
  Qed.
End PnNames.

Definition braces (sb : list string) : list string := "{" :: sb ++ ["}"].
Definition hd_or (nx : option string) (l : list string) : option string :=
  match l with t :: _ => Some t | [] => nx end.
Definition push_name (n : string) : Prop := n = "PUSH" \/ n = "OP_PUSH".
Definition try_name (n : string) : Prop := n = "TRY" \/ n = "OP_TRY".

Section Spells.
  Variable fl2 : Z -> Z.
  Variable ct : bytes -> res (option bytes).

  (* [stmt c nx is ss]: in context c, followed by the symbol nx (None: by the end of the source), the
     symbols ss are ONE statement that assembles to the instructions is (one instruction, except
     that a hoisted condition adds its instructions in front of the IF);
     [iftail c nx i ts]: ts is what follows IF [( cond )] for the instruction i;
     [seq c nx p ss]: ss is a sequence of statements for the program p. *)
  Inductive stmt : ctx -> option string -> list instr -> list string -> Prop :=
  (* instructions without nested bodies: any name, any value form *)
  | st_op0 : forall c nx o n, spell_name c o n -> shape_of o = ShNone -> stmt c nx [IOp0 o] [n]
  | st_op1 : forall c nx o n b v, spell_name c o n -> is_sh1 (shape_of o) = true -> sp_byte fl2 b v ->
      stmt c nx [IOp1 o b] [n; v]
  | st_nop : forall c nx code cb v, sp_byte fl2 cb v -> stmt c nx [INop code cb] [nop_name code; v]
  | st_var1 : forall c nx o n v s, spell_name c o n -> shape_of o = ShVar1 \/ shape_of o = ShVar1Int ->
      sp_var1 fl2 v s -> stmt c nx [IVar1 o v] [n; s]
  (* OP_PUSH1 / OP_PUSH2 (oddity O1): "name size value" where the size symbol denotes the length of
     the value and the value must not look like a name; or "name value" when the next symbol looks
     like a name *)
  | st_push1_2 : forall c nx n a v s, spell_name c O_PUSH1 n -> sp_size (blen v) a -> sp_var1 fl2 v s ->
      oplike s = false -> stmt c nx [IVar1 O_PUSH1 v] [n; a; s]
  | st_push1_1 : forall c t n v s, spell_name c O_PUSH1 n -> sp_var1 fl2 v s -> oplike t = true ->
      stmt c (Some t) [IVar1 O_PUSH1 v] [n; s]
  | st_push2_2 : forall c nx n a v s, spell_name c O_PUSH2 n -> sp_size (blen v) a -> sp_push2 fl2 v s ->
      oplike s = false -> stmt c nx [IPush2 v] [n; a; s]
  | st_push2_1 : forall c t n v s, spell_name c O_PUSH2 n -> sp_push2 fl2 v s -> oplike t = true ->
      stmt c (Some t) [IPush2 v] [n; s]
  | st_wc : forall c nx n k cb s1 s2, spell_name c O_WRITE_CACHE n -> sp_key k s1 -> sp_count cb s2 ->
      stmt c nx [IWriteCache k cb] [n; s1; s2]
  | st_fix : forall c nx o n v s, spell_name c o n -> sp_xval v s -> stmt c nx [IFix o v] [n; s]
  | st_swap : forall c nx n a b sa sb, spell_name c O_SWAP n -> sp_index a sa -> sp_index b sb ->
      stmt c nx [ISwap a b] [n; sa; sb]
  | st_ms : forall c nx o n f m k sf sm sk, spell_name c o n -> sp_index f sf -> sp_index m sm ->
      sp_index k sk -> stmt c nx [IMultisig o f m k] [n; sf; sm; sk]
  (* the PUSH pseudo-instruction *)
  | st_pushp : forall c nx n v s i, push_name n -> sp_pushv fl2 v s -> push_instr v = Some i ->
      stmt c nx [i] [n; s]
  (* @= k n   @k   @#k *)
  | st_setvar : forall c nx k cb cnt, isalnum k = true -> sp_num (b2z cb) cnt ->
      stmt c nx [IWriteCache (str k) cb] ["@="; k; cnt]
  | st_loadvar : forall c nx k, isalnum k = true -> stmt c nx [IVar1 O_READ_CACHE (str k)] [String "@" k]
  | st_sizevar : forall c nx k, isalnum k = true ->
      stmt c nx [IVar1 O_READ_CACHE_SIZE (str k)] [String "@" (String "#" k)]
  (* IF, with the condition inline (before the IF) or hoisted in parentheses *)
  | st_if : forall c nx n i ts, spell_name c O_IF n -> iftail c nx i ts -> stmt c nx [i] (n :: ts)
  | st_ifh : forall c nx n cond sc i ts, spell_name c O_IF n -> seq (sub_ctx c) None cond sc ->
      iftail c nx i ts -> stmt c nx (cond ++ [i]) (n :: "(" :: sc ++ ")" :: ts)
  (* TRY (END_TRY does not exist: oddity O4) *)
  | st_try_b : forall c nx n b1 sb1, try_name n -> seq (sub_ctx c) (Some "}") b1 sb1 ->
      nx <> Some "EXCEPT" -> stmt c nx [ITry b1 []] (n :: braces sb1)
  | st_try_bb : forall c nx n b1 sb1 b2 sb2, try_name n -> seq (sub_ctx c) (Some "}") b1 sb1 ->
      seq (sub_ctx c) (Some "}") b2 sb2 ->
      stmt c nx [ITry b1 b2] (n :: braces sb1 ++ "EXCEPT" :: braces sb2)
  | st_try_be : forall c nx n b1 sb1 b2 sb2, try_name n -> seq (sub_ctx c) (Some "}") b1 sb1 ->
      seq (sub_ctx c) (Some "END_EXCEPT") b2 sb2 ->
      stmt c nx [ITry b1 b2] (n :: braces sb1 ++ "EXCEPT" :: sb2 ++ ["END_EXCEPT"])
  | st_try_eb : forall c nx n b1 sb1 b2 sb2, try_name n -> seq (sub_ctx c) (Some "EXCEPT") b1 sb1 ->
      seq (sub_ctx c) (Some "}") b2 sb2 ->
      stmt c nx [ITry b1 b2] (n :: sb1 ++ "EXCEPT" :: braces sb2)
  | st_try_ee : forall c nx n b1 sb1 b2 sb2, try_name n -> seq (sub_ctx c) (Some "EXCEPT") b1 sb1 ->
      seq (sub_ctx c) (Some "END_EXCEPT") b2 sb2 ->
      stmt c nx [ITry b1 b2] (n :: sb1 ++ "EXCEPT" :: sb2 ++ ["END_EXCEPT"])
  | st_loop_b : forall c nx n b sb, spell_name c O_LOOP n -> seq (sub_ctx c) (Some "}") b sb ->
      stmt c nx [ILoop b] (n :: braces sb)
  | st_loop_e : forall c nx n b sb, spell_name c O_LOOP n -> seq (sub_ctx c) (Some "END_LOOP") b sb ->
      stmt c nx [ILoop b] (n :: sb ++ ["END_LOOP"])
  (* DEF: not directly in a DEF body; with END_DEF only outside any DEF *)
  | st_def_b : forall c nx n h hs b sb, c <> DefDirect -> spell_name c O_DEF n -> sp_handle h hs ->
      seq DefDirect (Some "}") b sb -> stmt c nx [IDef h b] (n :: hs :: braces sb)
  | st_def_e : forall nx n h hs b sb, spell_name Top O_DEF n -> sp_handle h hs ->
      seq DefDirect (Some "END_DEF") b sb -> stmt Top nx [IDef h b] (n :: hs :: sb ++ ["END_DEF"])

  with iftail : ctx -> option string -> instr -> list string -> Prop :=
  | it_b : forall c nx b sb, seq (sub_ctx c) (Some "}") b sb -> nx <> Some "ELSE" ->
      iftail c nx (IIf b) (braces sb)
  | it_e : forall c nx b sb, seq (sub_ctx c) (Some "END_IF") b sb -> iftail c nx (IIf b) (sb ++ ["END_IF"])
  | ite_bb : forall c nx b1 sb1 b2 sb2, seq (sub_ctx c) (Some "}") b1 sb1 -> seq (sub_ctx c) (Some "}") b2 sb2 ->
      iftail c nx (IIfElse b1 b2) (braces sb1 ++ "ELSE" :: braces sb2)
  | ite_be : forall c nx b1 sb1 b2 sb2, seq (sub_ctx c) (Some "}") b1 sb1 ->
      seq (sub_ctx c) (Some "END_IF") b2 sb2 ->
      iftail c nx (IIfElse b1 b2) (braces sb1 ++ "ELSE" :: sb2 ++ ["END_IF"])
  | ite_ee : forall c nx b1 sb1 b2 sb2, seq (sub_ctx c) (Some "ELSE") b1 sb1 ->
      seq (sub_ctx c) (Some "END_IF") b2 sb2 ->
      iftail c nx (IIfElse b1 b2) (sb1 ++ "ELSE" :: sb2 ++ ["END_IF"])

  with seq : ctx -> option string -> list instr -> list string -> Prop :=
  | sq_nil : forall c nx, seq c nx [] []
  | sq_cons : forall c nx is ss p sp, stmt c (hd_or nx sp) is ss -> seq c nx p sp ->
      seq c nx (is ++ p) (ss ++ sp).

  Scheme stmt_mind := Minimality for stmt Sort Prop
    with iftail_mind := Minimality for iftail Sort Prop
    with seq_mind := Minimality for seq Sort Prop.
  Combined Scheme spells_mutind from stmt_mind, iftail_mind, seq_mind.

  (* the spellings of a whole program *)
  Definition spells (p : list instr) (syms : list string) : Prop := seq Top None p syms.
End Spells.

(* nesting depth of op/cl after the symbols; None if it would go below zero *)
Fixpoint scan (op cl : string) (l : list string) (k : nat) : option nat :=
  match l with
  | [] => Some k
  | s :: t =>
    if String.eqb s cl then match k with O => None | S k' => scan op cl t k' end
    else scan op cl t (if String.eqb s op then S k else k)
  end.

Lemma scan_app : forall op cl a b k,
  scan op cl (a ++ b) k = match scan op cl a k with Some k' => scan op cl b k' | None => None end.
Proof.
  induction a as [|s a IH]; intros b k; [reflexivity|]. cbn [app scan].
  destruct (String.eqb s cl); [destruct k; [reflexivity|apply IH]|apply IH].
Qed.

(* _find_matching_brace runs over a balanced stretch *)
Lemma fmb_scan : forall op cl ss k k' opens closes idx r,
  scan op cl ss k = Some k' -> opens = (closes + 1 + k)%nat ->
  exists opens' closes',
    fmb_go op cl opens closes idx (ss ++ r) = fmb_go op cl opens' closes' (idx + List.length ss)%nat r /\
    opens' = (closes' + 1 + k')%nat.
Proof.
  induction ss as [|s ss IH]; intros k k' opens closes idx r H E.
  - cbn in H. injection H as <-. exists opens, closes. rewrite Nat.add_0_r. split; [reflexivity|exact E].
  - cbn [scan] in H. cbn [app fmb_go List.length]. destruct (String.eqb s cl).
    + destruct k as [|k1]; [discriminate H|].
      rewrite (proj2 (Nat.leb_gt _ _)) by lia.
      destruct (IH k1 k' opens (S closes) (S idx) r H ltac:(lia)) as (o' & c' & A & B).
      exists o', c'. rewrite A. split; [f_equal; lia|exact B].
    + destruct (IH _ k' (if String.eqb s op then S opens else opens) closes (S idx) r H) as (o' & c' & A & B).
      { destruct (String.eqb s op); lia. }
      exists o', c'. rewrite A. split; [f_equal; lia|exact B].
Qed.

Lemma fmb_balanced : forall op cl ss r idx,
  (forall k, scan op cl ss k = Some k) ->
  fmb_go op cl 1 0 idx (ss ++ cl :: r) = Some (idx + List.length ss)%nat.
Proof.
  intros op cl ss r idx B.
  destruct (fmb_scan op cl ss 0 0 1 0 idx (cl :: r) (B 0%nat) eq_refl)%nat as (o2 & c2 & A2 & B2).
  rewrite A2. cbn [fmb_go]. rewrite String.eqb_refl. rewrite (proj2 (Nat.leb_le _ _)) by lia. reflexivity.
Qed.

(* d = true: END_DEF must not occur *)
Definition good (d : bool) (ss : list string) : Prop :=
  (forall k, scan "{" "}" ss k = Some k) /\ (forall k, scan "(" ")" ss k = Some k) /\
  existsb bad_symbol ss = false /\ (d = true -> mem "END_DEF" ss = false).

Lemma mem_app : forall s a b, mem s (a ++ b) = mem s a || mem s b.
Proof. intros. unfold mem. apply existsb_app. Qed.

Lemma good_nil : forall d, good d [].
Proof. intros d. repeat split; reflexivity. Qed.

Lemma leafb_spec : forall s, leafb s = true ->
  bad_symbol s = false /\ String.eqb s "{" = false /\ String.eqb s "}" = false /\
  String.eqb s "(" = false /\ String.eqb s ")" = false /\ String.eqb "END_DEF" s = false.
Proof.
  intros s H. unfold leafb in H. apply andb_prop in H as [H1 H2].
  apply negb_true_iff in H1, H2. split; [exact H1|]. unfold mem, struct_syms in H2. cbn [existsb] in H2.
  repeat (apply orb_false_elim in H2 as [? H2]). repeat split; try assumption.
  rewrite String.eqb_sym. assumption.
Qed.

Lemma good_leaf : forall d s t, leafb s = true -> good d t -> good d (s :: t).
Proof.
  intros d s t L (A & B & C & D). destruct (leafb_spec s L) as (U & E1 & E2 & E3 & E4 & E5).
  repeat split.
  - intros k. cbn [scan]. rewrite E2, E1. apply A.
  - intros k. cbn [scan]. rewrite E4, E3. apply B.
  - cbn [existsb]. rewrite U, C. reflexivity.
  - intros Hd. unfold mem. cbn [existsb]. rewrite E5. apply D. exact Hd.
Qed.

Lemma good_app : forall d a b, good d a -> good d b -> good d (a ++ b).
Proof.
  intros d a b (A1 & B1 & C1 & D1) (A2 & B2 & C2 & D2). repeat split.
  - intros k. rewrite scan_app, A1. apply A2.
  - intros k. rewrite scan_app, B1. apply B2.
  - rewrite existsb_app, C1, C2. reflexivity.
  - intros Hd. rewrite mem_app, D1, D2 by exact Hd. reflexivity.
Qed.

Lemma good_braces : forall d a, good d a -> good d (braces a).
Proof.
  intros d a (A & B & C & D). unfold braces. repeat split.
  - intros k. cbn [scan String.eqb Ascii.eqb Bool.eqb]. rewrite scan_app, A. reflexivity.
  - intros k. cbn [scan String.eqb Ascii.eqb Bool.eqb]. rewrite scan_app, B. reflexivity.
  - cbn [existsb]. rewrite existsb_app, C. reflexivity.
  - intros Hd. unfold mem. cbn [existsb]. fold (mem "END_DEF" (a ++ ["}"])). rewrite mem_app, D by exact Hd. reflexivity.
Qed.

Lemma good_parens : forall d a t, good d a -> good d t -> good d ("(" :: a ++ ")" :: t).
Proof.
  intros d a t (A & B & C & D) (A' & B' & C' & D'). repeat split.
  - intros k. cbn [scan String.eqb Ascii.eqb Bool.eqb]. rewrite scan_app, A. cbn [scan String.eqb Ascii.eqb Bool.eqb]. apply A'.
  - intros k. cbn [scan String.eqb Ascii.eqb Bool.eqb]. rewrite scan_app, B. cbn [scan String.eqb Ascii.eqb Bool.eqb]. apply B'.
  - cbn [existsb]. rewrite existsb_app, C. cbn [existsb]. rewrite C'. reflexivity.
  - intros Hd. unfold mem. cbn [existsb]. fold (mem "END_DEF" (a ++ ")" :: t)). rewrite mem_app, D by exact Hd.
    unfold mem. cbn [existsb]. apply D'. exact Hd.
Qed.

Lemma good_weaken : forall d ss, good d ss -> good false ss.
Proof. intros d ss (A & B & C & _). repeat split; try assumption. discriminate. Qed.

Lemma good_enddef : forall a, good false a -> good false (a ++ ["END_DEF"]).
Proof.
  intros a (A & B & C & _). repeat split.
  - intros k. rewrite scan_app, A. reflexivity.
  - intros k. rewrite scan_app, B. reflexivity.
  - rewrite existsb_app, C. reflexivity.
  - discriminate.
Qed.

Definition in_def (c : ctx) : bool := match c with Top => false | _ => true end.
Lemma in_def_sub : forall c, in_def (sub_ctx c) = in_def c.
Proof. destruct c; reflexivity. Qed.

Lemma leaf_at : forall k, is_ascii_s k = true -> leafb (String "@" k) = true.
Proof. intros k H. unfold leafb, bad_symbol, unmodelled_symbol. cbn [is_ascii_s sall]. fold (is_ascii_s k). rewrite H. reflexivity. Qed.
Lemma leaf_at_hash : forall k, is_ascii_s k = true -> leafb (String "@" (String "#" k)) = true.
Proof. intros k H. unfold leafb, bad_symbol, unmodelled_symbol. cbn [is_ascii_s sall]. fold (is_ascii_s k). rewrite H. reflexivity. Qed.
Lemma spell_name_leaf : forall c o n, spell_name c o n -> leafb n = true.
Proof.
  intros c o n S. destruct (spell_name_spec c o n S) as (_ & _ & H). unfold headb in H.
  apply andb_prop in H as [_ H]. exact H.
Qed.
Lemma nop_name_leaf : forall code, (n_opcodes <= code < 256)%nat -> leafb (nop_name code) = true.
Proof.
  intros code R. destruct (nop_spec code R) as (_ & _ & _ & K & _). apply (headb_spec _ K).
Qed.

(* what wf says of an instruction with bodies *)
Lemma wf_body : forall b, forallb wf b && fits2 (flat_map encode1 b) = true ->
  wf_prog b = true /\ fits2 (encode b) = true.
Proof. intros b H. apply andb_prop in H. exact H. Qed.
Lemma wf_bodies : forall b1 b2,
  forallb wf b1 && fits2 (flat_map encode1 b1) && forallb wf b2 && fits2 (flat_map encode1 b2) = true ->
  (wf_prog b1 = true /\ fits2 (encode b1) = true) /\ (wf_prog b2 = true /\ fits2 (encode b2) = true).
Proof.
  intros b1 b2 H. apply andb_prop in H as [H F2]. apply andb_prop in H as [H W2]. apply andb_prop in H as [W1 F1].
  repeat split; assumption.
Qed.

Section Invariants.
  Variable fl2 : Z -> Z.

  Lemma word_name_leaf : forall n, push_name n \/ try_name n -> leafb n = true.
  Proof. intros n [[->| ->]|[->| ->]]; reflexivity. Qed.

  (* wfs: the wf hypothesis of an instruction, split into the wf and size facts of its bodies *)
  Local Ltac wfs :=
    repeat match goal with
    | H : wf_prog [_] = true |- _ => cbn [wf_prog forallb] in H; rewrite andb_true_r in H
    | H : wf_prog (_ ++ _) = true |- _ => unfold wf_prog in H; rewrite forallb_app in H
    | H : forallb wf [_] = true |- _ => cbn [forallb] in H; rewrite andb_true_r in H
    | H : wf (IIf _) = true |- _ => cbn [wf] in H
    | H : wf (IIfElse _ _) = true |- _ => cbn [wf] in H
    | H : wf (ITry _ _) = true |- _ => cbn [wf] in H
    | H : wf (ILoop _) = true |- _ => cbn [wf] in H
    | H : wf (IDef _ _) = true |- _ => cbn [wf] in H
    | H : _ && _ = true |- _ => apply andb_prop in H as [? ?]
    end.
  Local Ltac leafp :=
    first [ eapply spell_name_leaf; eassumption | apply word_name_leaf; solve [auto]
          | eapply sp_byte_leaf; eassumption | eapply sp_var1_leaf; eassumption
          | eapply sp_push2_leaf; eassumption | eapply sp_pushv_leaf; eassumption
          | eapply sp_key_leaf; eassumption | eapply sp_count_leaf; eassumption
          | eapply sp_index_leaf; eassumption | eapply sp_xval_leaf; eassumption
          | eapply sp_handle_leaf; eassumption | eapply sp_size_leaf; eassumption
          | assumption | reflexivity ].
  Local Ltac gd :=
    repeat first
      [ apply good_nil
      | assumption
      | match goal with H : _ -> good ?d ?x |- good ?d ?x => apply H; assumption end
      | apply good_leaf; [leafp|]
      | apply good_braces
      | apply good_parens
      | apply good_app ].

  (* wf is needed for the NOP code range only *)
  Lemma good_all :
    (forall c nx is ss, stmt fl2 c nx is ss -> wf_prog is = true -> good (in_def c) ss) /\
    (forall c nx i ts, iftail fl2 c nx i ts -> wf i = true -> good (in_def c) ts) /\
    (forall c nx p ss, seq fl2 c nx p ss -> wf_prog p = true -> good (in_def c) ss).
  Proof.
    apply spells_mutind; intros; rewrite ?in_def_sub in *; wfs; try solve [gd].
    - (* nop *) apply good_leaf; [|gd]. apply nop_name_leaf.
      match goal with H : wf (INop _ _) = true |- _ => cbn [wf] in H; apply andb_prop in H as [A B] end.
      apply Nat.leb_le in A. apply Nat.ltb_lt in B. lia.
    - (* setvar *) apply good_leaf; [reflexivity|]. apply good_leaf; [apply leaf_alnum; assumption|].
      apply good_leaf; [|apply good_nil]. apply leaf_digits. eapply sp_num_digs; eassumption.
    - apply good_leaf; [|apply good_nil]. apply leaf_at. apply isalnum_ascii. assumption.
    - apply good_leaf; [|apply good_nil]. apply leaf_at_hash. apply isalnum_ascii. assumption.
    - (* def, braces *)
      assert (G : good (in_def c) sb).
      { destruct c; [apply (good_weaken true)| |];
          match goal with IH : _ -> good _ sb |- _ => apply IH; assumption end. }
      gd.
    - (* def, END_DEF *)
      cbn [in_def]. apply good_leaf; [leafp|]. apply good_leaf; [leafp|]. apply good_enddef.
      apply (good_weaken true). match goal with IH : _ -> good _ sb |- _ => apply IH; assumption end.
  Qed.

  Definition good_stmt := proj1 good_all.
  Definition good_iftail := proj1 (proj2 good_all).
  Definition good_seq := proj2 (proj2 good_all).
End Invariants.

Lemma skipn_stmt : forall (A : Type) (h : A) ss l', skipn (S (List.length ss)) (h :: ss ++ l') = l'.
Proof. intros. cbn [skipn]. apply skipn_len_app. reflexivity. Qed.

Lemma index_of_mid : forall x a b, mem x a = false -> index_of x (a ++ x :: b) = Some (List.length a).
Proof.
  induction a as [|y a IH]; intros b H.
  - cbn [app index_of]. rewrite String.eqb_refl. reflexivity.
  - unfold mem in H. cbn [existsb] in H. apply orb_false_elim in H as [H1 H2].
    cbn [app index_of List.length]. rewrite String.eqb_sym, H1. rewrite IH by exact H2. reflexivity.
Qed.

Lemma not_term : forall h t, mem h term_syms = false -> mem t term_syms = true -> String.eqb h t = false.
Proof. intros h t H I. destruct (String.eqb h t) eqn:E; [|reflexivity]. apply String.eqb_eq in E. congruence. Qed.
Ltac nt H := rewrite ?(not_term _ _ H) by reflexivity.

(* what body_loop needs of its terminator sets: no symbol that can begin a statement is in them *)
Definition tsets (terms forbid : list string) : Prop :=
  forall h, mem h term_syms = false -> mem h terms = false /\ mem h forbid = false.
Lemma tsets_else : tsets ["}"; "END_IF"] [].
Proof. intros h M. unfold mem. cbn [existsb]. nt M. split; reflexivity. Qed.
Lemma tsets_except : tsets ["}"; "END_EXCEPT"] ["EXCEPT"].
Proof. intros h M. unfold mem. cbn [existsb]. nt M. split; reflexivity. Qed.
Lemma tsets_loop : tsets ["}"; "END_LOOP"] [].
Proof. intros h M. unfold mem. cbn [existsb]. nt M. split; reflexivity. Qed.

Lemma comment_head : forall q, is_comment q = true -> mem q term_syms = false /\ bad_symbol q = false.
Proof. intros q H. apply mem_In in H. cbn [In] in H. destruct H as [<-|[<-|[<-|[]]]]; split; reflexivity. Qed.

(* The five statement loops of the model (asm_loop, body_loop, if_loop, try_loop, def_loop) differ in
   what ends them and in the shape of their result; how they get through the symbols before that is
   the same, and is proved once.  [loop n idx l]: the loop with fuel n at index idx on the symbols l;
   [pre code x]: the result x with code put in front of its code; [ok]: the indices up to which the
   loop still takes a turn (def_loop stops at its search index). *)
Section Stepper.
  Variable X : Type.
  Variable loop : nat -> nat -> list string -> res X.
  Variable pre : bytes -> X -> X.
  Variable ok : nat -> Prop.

  (* one turn of the loop takes the symbols a (a statement, a comment, a macro invocation; l follows)
     and contributes code; no turn starts at a symbol that ends or opens a block *)
  Definition turn (a l : list string) (code : bytes) : Prop :=
    (exists h ss, a = h :: ss /\ mem h term_syms = false) /\
    forall n idx, ok (idx + List.length a) ->
      loop (S n) idx (a ++ l) = rbind (loop n (idx + List.length a) l) (fun x => Ok (pre code x)).

  (* [steps l r code k]: turn after turn (k symbols in all, contributing code) from l down to r *)
  Inductive steps : list string -> list string -> bytes -> nat -> Prop :=
  | steps_nil : forall r, steps r r [] 0
  | steps_cons : forall a l r code code' k, turn a l code -> steps l r code' k ->
      steps (a ++ l) r (code ++ code') (List.length a + k).

  Lemma steps_trans : forall l m r c1 k1 c2 k2, steps l m c1 k1 -> steps m r c2 k2 ->
    steps l r (c1 ++ c2) (k1 + k2).
  Proof.
    induction 1 as [|a l m code code' k T _ IH]; intros S2; [exact S2|].
    rewrite <- app_assoc, <- Nat.add_assoc. apply steps_cons; [exact T|apply IH; exact S2].
  Qed.

  Lemma steps_hd : forall l r code k, steps l r code k ->
    (l = r /\ k = 0%nat) \/ (exists h t, l = h :: t /\ mem h term_syms = false).
  Proof.
    intros l r code k [r'|a l' r' c1 c2 k' [(h & ss & -> & M) _] _]; [left; auto|right].
    exists h, (ss ++ l'). split; [reflexivity|exact M].
  Qed.

  Hypothesis pre_nil : forall x, pre [] x = x.
  Hypothesis pre_app : forall a b x, pre (a ++ b) x = pre a (pre b x).
  Hypothesis ok_le : forall i j, (i <= j)%nat -> ok j -> ok i.

  (* what the loop does after the steps decides what it does before them *)
  Lemma steps_loop : forall l r code k, steps l r code k ->
    forall n idx Y, (List.length l <= n)%nat -> ok (idx + k) ->
    (forall n', (List.length r <= n')%nat -> loop n' (idx + k) r = Y) ->
    loop n idx l = rbind Y (fun x => Ok (pre code x)).
  Proof.
    induction 1 as [r|a l r code code' k [(h & ss & Ea & _) T] _ IH]; intros n idx Y L K F.
    - rewrite Nat.add_0_r in F. rewrite (F n L). destruct Y; cbn [rbind]; rewrite ?pre_nil; reflexivity.
    - assert (N : (1 <= List.length a)%nat) by (rewrite Ea; cbn [List.length]; lia).
      rewrite app_length in L. destruct n as [|n]; [lia|].
      rewrite T by (apply (ok_le _ _ (Nat.le_add_r _ k)); rewrite <- Nat.add_assoc; exact K).
      rewrite (IH n (idx + List.length a)%nat Y) by (try lia; rewrite <- Nat.add_assoc; assumption).
      destruct Y; cbn [rbind]; rewrite ?pre_app; reflexivity.
  Qed.
End Stepper.
Arguments steps_nil {X loop pre ok} r.
Arguments steps_cons {X loop pre ok} a {l r code code' k} T S.

Definition always (_ : nat) : Prop := True.
Definition front2 (code : bytes) (x : nat * bytes) : nat * bytes := let '(i, c) := x in (i, code ++ c).
Definition front3 (code : bytes) (x : nat * bytes * option bytes) : nat * bytes * option bytes :=
  let '(i, c, e) := x in (i, code ++ c, e).

Section Run.
  Variable pn : string -> list string -> res (nat * bytes).

  (* what the loops need to know about the first symbol of a statement *)
  Definition head_ok (c : ctx) (h : string) : Prop :=
    headb h = true /\
    (c = DefDirect -> is_comment (defpre c h) = false /\ String.eqb (defpre c h) "OP_DEF" = false /\
                      mem (defpre c h) ["}"; "END_DEF"] = false).

  (* [run c l r code k]: from the symbols l, statements are parsed one after the other (k symbols in
     all, producing code) and r remains *)
  Inductive run (c : ctx) : list string -> list string -> bytes -> nat -> Prop :=
  | run_nil : forall r, run c r r [] 0
  | run_step : forall h ss l' r code code' k,
      head_ok c h -> pn (defpre c h) ((h :: ss) ++ l') = Ok (S (List.length ss), code) ->
      run c l' r code' k -> run c ((h :: ss) ++ l') r (code ++ code') (S (List.length ss) + k).

  Lemma run_length : forall c l r code k, run c l r code k -> List.length l = (k + List.length r)%nat.
  Proof.
    induction 1; [reflexivity|]. rewrite app_length, IHrun. cbn [List.length]. lia.
  Qed.

  Lemma defpre_id : forall c h, c <> DefDirect -> defpre c h = h.
  Proof. intros [] h H; try reflexivity. congruence. Qed.

  (* outside a DEF body the loops hand every symbol that ends or opens no block to parse_next *)
  Definition hands_over (X : Type) (loop : nat -> nat -> list string -> res X) (pre : bytes -> X -> X) : Prop :=
    forall h t n idx, mem h term_syms = false ->
    loop (S n) idx (h :: t) =
    rbind (pn h (h :: t)) (fun '(adv, code) =>
    rbind (loop n (idx + adv)%nat (skipn adv (h :: t))) (fun x => Ok (pre code x))).

  Lemma asm_hands_over : hands_over bytes (fun n _ => asm_loop pn n) (@app byte).
  Proof. intros h t n idx _. reflexivity. Qed.
  Lemma body_hands_over : forall terms forbid, tsets terms forbid ->
    hands_over (nat * bytes) (body_loop pn terms forbid) front2.
  Proof.
    intros terms forbid T h t n idx M. destruct (T h M) as [T1 T2]. cbn [body_loop]. rewrite T1, T2.
    destruct (pn h (h :: t)) as [[adv code]| |]; cbn [rbind]; [|reflexivity|reflexivity].
    destruct (body_loop pn terms forbid n (idx + adv) (skipn adv (h :: t))) as [[i c]| |]; reflexivity.
  Qed.
  Lemma if_hands_over : hands_over (nat * bytes * option bytes) (if_loop pn) front3.
  Proof.
    intros h t n idx M. cbn [if_loop]. nt M.
    destruct (pn h (h :: t)) as [[adv code]| |]; cbn [rbind]; [|reflexivity|reflexivity].
    destruct (if_loop pn n (idx + adv) (skipn adv (h :: t))) as [[[i c] e]| |]; reflexivity.
  Qed.
  Lemma try_hands_over : hands_over (nat * bytes * option bytes) (try_loop pn) front3.
  Proof.
    intros h t n idx M. cbn [try_loop]. nt M.
    destruct (pn h (h :: t)) as [[adv code]| |]; cbn [rbind]; [|reflexivity|reflexivity].
    destruct (try_loop pn n (idx + adv) (skipn adv (h :: t))) as [[[i c] e]| |]; reflexivity.
  Qed.

  (* symbols that parse_next takes as a whole are a turn of these loops *)
  Lemma pn_turn : forall X loop pre, hands_over X loop pre -> forall h ss l code,
    mem h term_syms = false -> pn h ((h :: ss) ++ l) = Ok (S (List.length ss), code) ->
    turn X loop pre always (h :: ss) l code.
  Proof.
    intros X loop pre H h ss l code M P. split; [exists h, ss; auto|]. intros n idx _.
    cbn [app] in *. rewrite (H h _ n idx M), P. cbn [rbind List.length]. rewrite skipn_stmt. reflexivity.
  Qed.

  Lemma run_steps : forall X loop pre, hands_over X loop pre -> forall c l r code k,
    run c l r code k -> c <> DefDirect -> steps X loop pre always l r code k.
  Proof.
    intros X loop pre H c l r code k R C. induction R as [r|h ss l' r code code' k [Hh _] P _ IH]; [apply steps_nil|].
    rewrite (defpre_id c h C) in P. apply (steps_cons (h :: ss)); [|exact IH].
    apply (pn_turn X loop pre H); [apply (headb_spec h Hh)|exact P].
  Qed.

  (* the loop of parse_def resolves the aliases itself, refuses a DEF, and skips the comments *)
  Definition upto (sidx idx : nat) : Prop := (idx <= sidx)%nat.
  Lemma def_stmt_turn : forall sidx h ss l code, head_ok DefDirect h ->
    pn (defpre DefDirect h) ((h :: ss) ++ l) = Ok (S (List.length ss), code) ->
    turn bytes (fun n idx => def_loop pn n idx sidx) (@app byte) (upto sidx) (h :: ss) l code.
  Proof.
    intros sidx h ss l code [Hh Hd] P. destruct (headb_spec h Hh) as (Hc & M & _).
    destruct (Hd eq_refl) as (_ & D1 & D2). split; [exists h, ss; auto|]. intros n idx K. unfold upto in K.
    cbn [app List.length] in *. cbn [def_loop]. rewrite (proj2 (Nat.ltb_ge _ _)) by lia. rewrite Hc.
    cbn [defpre] in P, D1, D2. rewrite D1, D2, P. cbn [rbind]. rewrite skipn_stmt. reflexivity.
  Qed.
  Lemma def_comment_turn : forall sidx q body l, is_comment q = true -> mem q body = false ->
    turn bytes (fun n idx => def_loop pn n idx sidx) (@app byte) (upto sidx) (q :: body ++ [q]) l [].
  Proof.
    intros sidx q body l Q M. split; [exists q, (body ++ [q]); split; [reflexivity|apply (comment_head q Q)]|].
    intros n idx K. unfold upto in K. cbn [List.length] in *. rewrite app_length in *. cbn [List.length] in *.
    cbn [app]. rewrite <- app_assoc. cbn [app def_loop]. rewrite (proj2 (Nat.ltb_ge _ _)) by lia.
    rewrite Q, (index_of_mid q body l M).
    replace (List.length body + 2)%nat with (S (List.length (body ++ [q]))) by (rewrite app_length; cbn [List.length]; lia).
    change (q :: body ++ q :: l) with (q :: body ++ [q] ++ l). rewrite app_assoc, skipn_stmt.
    replace (idx + List.length body + 2)%nat with (idx + S (List.length body + 1))%nat by lia.
    destruct (def_loop pn n _ sidx l); reflexivity.
  Qed.
  Lemma def_run_steps : forall sidx l r code k, run DefDirect l r code k ->
    steps bytes (fun n idx => def_loop pn n idx sidx) (@app byte) (upto sidx) l r code k.
  Proof.
    intros sidx l r code k R. induction R as [r|h ss l' r code code' k Hh P _ IH]; [apply steps_nil|].
    apply (steps_cons (h :: ss)); [apply def_stmt_turn; assumption|exact IH].
  Qed.

  Lemma asm_steps_loop : forall l r code k, steps bytes (fun n _ => asm_loop pn n) (@app byte) always l r code k ->
    forall n Y, (List.length l <= n)%nat ->
    (forall n', (List.length r <= n')%nat -> asm_loop pn n' r = Y) ->
    asm_loop pn n l = rbind Y (fun code' => Ok (code ++ code')).
  Proof.
    intros l r code k S n Y L F.
    exact (steps_loop _ _ _ _ (@app_nil_l byte) (fun a b x => eq_sym (app_assoc a b x)) (fun _ _ _ _ => I)
             l r code k S n 0%nat Y L I F).
  Qed.
  Lemma asm_steps_end : forall l code k, steps bytes (fun n _ => asm_loop pn n) (@app byte) always l [] code k ->
    forall n, (List.length l <= n)%nat -> asm_loop pn n l = Ok code.
  Proof.
    intros l code k S n L. rewrite (asm_steps_loop l [] code k S n (Ok []) L).
    - cbn [rbind]. rewrite app_nil_r. reflexivity.
    - intros [|n'] _; reflexivity.
  Qed.
  Lemma front2_nil : forall x, front2 [] x = x.
  Proof. intros [i c]. reflexivity. Qed.
  Lemma front2_app : forall a b x, front2 (a ++ b) x = front2 a (front2 b x).
  Proof. intros a b [i c]. cbn [front2]. rewrite app_assoc. reflexivity. Qed.
  Lemma body_steps_loop : forall terms forbid l r code k, steps _ (body_loop pn terms forbid) front2 always l r code k ->
    forall n idx i code', (List.length l <= n)%nat ->
    (forall n', (List.length r <= n')%nat -> body_loop pn terms forbid n' (idx + k) r = Ok (i, code')) ->
    body_loop pn terms forbid n idx l = Ok (i, code ++ code').
  Proof.
    intros terms forbid l r code k S n idx i code' L F.
    exact (steps_loop _ _ _ _ front2_nil front2_app (fun _ _ _ _ => I) l r code k S n idx (Ok (i, code')) L I F).
  Qed.
  Lemma front3_nil : forall x, front3 [] x = x.
  Proof. intros [[i c] e]. reflexivity. Qed.
  Lemma front3_app : forall a b x, front3 (a ++ b) x = front3 a (front3 b x).
  Proof. intros a b [[i c] e]. cbn [front3]. rewrite app_assoc. reflexivity. Qed.
  Lemma steps3_loop : forall loop l r code k, steps _ loop front3 always l r code k ->
    forall n idx i code' e, (List.length l <= n)%nat ->
    (forall n', (List.length r <= n')%nat -> loop n' (idx + k)%nat r = Ok (i, code', e)) ->
    loop n idx l = Ok (i, code ++ code', e).
  Proof.
    intros loop l r code k S n idx i code' e L F.
    exact (steps_loop _ _ _ _ front3_nil front3_app (fun _ _ _ _ => I) l r code k S n idx (Ok (i, code', e)) L I F).
  Qed.
  Lemma def_steps_loop : forall sidx l r code k,
    steps bytes (fun n idx => def_loop pn n idx sidx) (@app byte) (upto sidx) l r code k ->
    forall n idx code', (List.length l <= n)%nat -> (idx + k <= sidx)%nat ->
    (forall n', (List.length r <= n')%nat -> def_loop pn n' (idx + k) sidx r = Ok code') ->
    def_loop pn n idx sidx l = Ok (code ++ code').
  Proof.
    intros sidx l r code k S n idx code' L B F.
    exact (steps_loop _ _ _ _ (@app_nil_l byte) (fun a b x => eq_sym (app_assoc a b x))
             (fun i j Le Hj => Nat.le_trans _ _ _ Le Hj) l r code k S n idx (Ok code') L B F).
  Qed.
End Run.
Arguments pn_turn {pn X loop pre} H {h ss l code} M P.
Arguments run_steps {pn X loop pre} H {c l r code k} R C.
Arguments def_run_steps {pn} sidx {l r code k} R.
Arguments asm_steps_loop {pn l r code k} S n Y L F.
Arguments asm_steps_end {pn l code k} S n L.
Arguments body_steps_loop {pn terms forbid l r code k} S n idx i code' L F.
Arguments steps3_loop {loop l r code k} S n idx i code' e L F.
Arguments def_steps_loop {pn sidx l r code k} S n idx code' L B F.

Lemma mem_mid : forall x a b, mem x (a ++ x :: b) = true.
Proof. intros. rewrite mem_app. unfold mem at 2. cbn [existsb]. rewrite String.eqb_refl, orb_true_r. reflexivity. Qed.
Lemma braces_app : forall sb r, braces sb ++ r = "{" :: sb ++ "}" :: r.
Proof. intros. unfold braces. cbn [app]. rewrite <- app_assoc. reflexivity. Qed.
Lemma length_braces : forall sb, List.length (braces sb) = (List.length sb + 2)%nat.
Proof. intros. unfold braces. cbn [List.length]. rewrite app_length. cbn [List.length]. lia. Qed.
Lemma len2_r_ok : forall code, fits2 code = true -> len2_r code = Ok (len2 code).
Proof. intros code H. unfold len2_r. unfold fits2 in H. rewrite H. reflexivity. Qed.

Definition if_rest (pn : string -> list string -> res (nat * bytes)) (h : nat) (hc : bytes)
  (symbols : list string) : res (nat * bytes) :=
  rbind (block_start ["END_IF"] symbols) (fun start =>
  rbind (if_loop pn (List.length symbols) start (skipn start symbols)) (fun '(i, code, e) =>
  rbind (len2_r code) (fun l =>
    let o := match e with Some _ => O_IF_ELSE | None => O_IF end in
    let parts := match e with Some p => p | None => [] end in
    Ok ((i + h)%nat, hc ++ opcode_byte o :: l ++ code ++ parts)))).

Lemma steps_hd_not : forall X loop pre ok l e r code k x, steps X loop pre ok l (e :: r) code k ->
  String.eqb e x = false -> mem x term_syms = true -> exists s1 t, l = s1 :: t /\ String.eqb s1 x = false.
Proof.
  intros X loop pre ok l e r code k x S E I. destruct (steps_hd _ _ _ _ _ _ _ _ S) as [[-> _]|(h & t & -> & M)].
  - eauto.
  - exists h, t. split; [reflexivity|]. apply not_term; assumption.
Qed.

Arguments steps_hd_not {X loop pre ok l e r code k} x S E I.

(* A block body sb is written "{ sb }" (br = true) or "sb END_x" (br = false): the symbols in front
   of it and the symbol that ends it; when a keyword sep separates it from a second block
   ("} ELSE ..." or "... ELSE ..."), what follows the ending symbol. *)
Definition opn (br : bool) : list string := if br then ["{"] else [].
Definition cls (br : bool) (endw : string) : string := if br then "}" else endw.
Definition after (br : bool) (sep : string) (R : list string) : list string := if br then sep :: R else R.

Lemma mem_cls : forall (br : bool) (e : string) sb r, mem (if br then "}" else e) (sb ++ cls br e :: r) = true.
Proof. intros []; intros; apply mem_mid. Qed.
Lemma cls_nb : forall br e, String.eqb e "{" = false -> String.eqb (cls br e) "{" = false.
Proof. intros [] e H; [reflexivity|exact H]. Qed.
Lemma skipn_opn : forall br (kw : string) l, skipn (S (List.length (opn br))) (kw :: opn br ++ l) = l.
Proof. intros []; reflexivity. Qed.

Section Blocks.
  Variable asm : list string -> res bytes.
  Variable pn : string -> list string -> res (nat * bytes).

  Notation body_steps terms forbid := (steps (nat * bytes) (body_loop pn terms forbid) front2 always).
  Notation if_steps := (steps (nat * bytes * option bytes) (if_loop pn) front3 always).
  Notation try_steps := (steps (nat * bytes * option bytes) (try_loop pn) front3 always).
  Notation def_steps sidx := (steps bytes (fun n idx => def_loop pn n idx sidx) (@app byte) (upto sidx)).

  Lemma bs_braces : forall ends kw sb r, block_start ends (kw :: braces sb ++ r) = Ok 2%nat.
  Proof.
    intros. rewrite braces_app. cbn [block_start String.eqb Ascii.eqb Bool.eqb].
    change ("{" :: sb ++ "}" :: r) with (["{"] ++ sb ++ "}" :: r). rewrite app_assoc, mem_mid. reflexivity.
  Qed.
  Lemma bs_ended : forall ends kw l e, (exists s1 t, l = s1 :: t /\ String.eqb s1 "{" = false) ->
    mem e ends = true -> mem e l = true -> block_start ends (kw :: l) = Ok 1%nat.
  Proof.
    intros ends kw l e (s1 & t & -> & N) I M. cbn [block_start]. rewrite N.
    replace (existsb (fun e0 => mem e0 (s1 :: t)) ends) with true; [reflexivity|].
    symmetry. apply existsb_exists. exists e. split; [apply mem_In; exact I|exact M].
  Qed.

  Lemma body_loop_term : forall terms forbid n idx t r, mem t terms = true -> (1 <= n)%nat ->
    body_loop pn terms forbid n idx (t :: r) = Ok (S idx, []).
  Proof. intros terms forbid [|n] idx t r M L; [lia|]. cbn [body_loop]. rewrite M. reflexivity. Qed.

  (* body_loop on a body that steps down to one of its terminators *)
  Lemma body_loop_body : forall terms forbid sb t r code start n,
    body_steps terms forbid (sb ++ t :: r) (t :: r) code (List.length sb) -> mem t terms = true ->
    (List.length (sb ++ t :: r) <= n)%nat ->
    body_loop pn terms forbid n start (sb ++ t :: r) = Ok ((start + List.length sb + 1)%nat, code).
  Proof.
    intros terms forbid sb t r code start n S M L. rewrite <- (app_nil_r code).
    apply (body_steps_loop S); [exact L|].
    intros n' L'. rewrite body_loop_term by (try assumption; cbn [List.length] in L'; lia). f_equal. f_equal. lia.
  Qed.

  (* block_start in front of a body in either form: behind the brace a closing brace is somewhere;
     otherwise the body does not begin with a brace and one of the end words is somewhere *)
  Lemma bs_blk : forall ends br kw l e, (br = false -> exists s1 t, l = s1 :: t /\ String.eqb s1 "{" = false) ->
    mem e ends = true -> mem (if br then "}" else e) l = true ->
    block_start ends (kw :: opn br ++ l) = Ok (S (List.length (opn br))).
  Proof.
    intros ends [] kw l e N I M; cbn [opn app List.length].
    - cbn [block_start String.eqb Ascii.eqb Bool.eqb]. unfold mem in *. cbn [existsb]. rewrite M. reflexivity.
    - apply (bs_ended ends kw l e (N eq_refl) I M).
  Qed.

  Arguments body_loop_body {terms forbid sb t r code} start n S M L.

  Lemma clause_blk : forall ends terms forbid br endw sb r code,
    body_steps terms forbid (sb ++ cls br endw :: r) (cls br endw :: r) code (List.length sb) ->
    mem (cls br endw) terms = true -> String.eqb endw "{" = false -> mem endw ends = true -> fits2 code = true ->
    forall kw, parse_clause pn ends terms forbid (kw :: opn br ++ sb ++ cls br endw :: r)
               = Ok ((List.length (opn br) + List.length sb + 2)%nat, len2 code ++ code).
  Proof.
    intros ends terms forbid br endw sb r code S M E I F kw. unfold parse_clause.
    rewrite (bs_blk ends br kw _ endw (fun _ => steps_hd_not "{" S (cls_nb br _ E) eq_refl) I (mem_cls _ _ _ _)).
    cbn [rbind]. rewrite skipn_opn, (body_loop_body _ _ S M) by (cbn [List.length]; rewrite (app_length (opn br)); lia).
    cbn [rbind]. rewrite len2_r_ok by exact F. cbn [rbind]. f_equal. f_equal. lia.
  Qed.

  Lemma loop_blk : forall br sb r code,
    body_steps ["}"; "END_LOOP"] [] (sb ++ cls br "END_LOOP" :: r) (cls br "END_LOOP" :: r) code (List.length sb) ->
    fits2 code = true ->
    forall kw, parse_loop pn (kw :: opn br ++ sb ++ cls br "END_LOOP" :: r)
               = Ok ((List.length (opn br) + List.length sb + 2)%nat, opcode_byte O_LOOP :: len2 code ++ code).
  Proof.
    intros br sb r code S F kw. unfold parse_loop.
    rewrite (bs_blk ["END_LOOP"] br kw _ "END_LOOP" (fun _ => steps_hd_not "{" S (cls_nb br "END_LOOP" eq_refl) eq_refl) eq_refl (mem_cls _ _ _ _)).
    cbn [rbind]. rewrite skipn_opn, (body_loop_body _ _ S) by
      (try (destruct br; reflexivity); cbn [List.length]; rewrite (app_length (opn br)); lia).
    cbn [rbind]. rewrite len2_r_ok by exact F. cbn [rbind]. f_equal. f_equal. lia.
  Qed.

  Lemma parse_if_nohoist : forall kw s1 t, String.eqb s1 "(" = false ->
    parse_if asm pn (kw :: s1 :: t) = if_rest pn 0 [] (kw :: s1 :: t).
  Proof. intros kw s1 t H. unfold parse_if, if_rest. rewrite H. reflexivity. Qed.

  Lemma parse_if_hoist : forall kw sc rest,
    String.eqb kw "(" = false -> String.eqb kw ")" = false -> (forall k, scan "(" ")" sc k = Some k) ->
    parse_if asm pn (kw :: "(" :: sc ++ ")" :: rest) =
    rbind (asm sc) (fun hc => if_rest pn (List.length sc + 2) hc (kw :: rest)).
  Proof.
    intros kw sc rest K1 K2 B. unfold parse_if.
    change (String.eqb "(" "(") with true. cbv iota.
    assert (F : find_matching_brace (kw :: "(" :: sc ++ ")" :: rest) "(" ")" = Some (List.length sc + 2)%nat).
    { unfold find_matching_brace. cbn [fmb_go]. rewrite K2, K1. cbn [String.eqb Ascii.eqb Bool.eqb].
      rewrite (fmb_balanced "(" ")" sc rest 2 B). f_equal. lia. }
    rewrite F. cbn [of_opt rbind].
    replace (List.length sc + 2 - 2)%nat with (List.length sc) by lia.
    cbn [skipn]. rewrite firstn_len_app by reflexivity.
    destruct (asm sc) as [hc| |]; try reflexivity. cbn [rbind].
    replace (skipn (List.length sc + 2) ("(" :: sc ++ ")" :: rest)) with rest; [reflexivity|].
    replace (List.length sc + 2)%nat with (S (List.length sc + 1)) by lia. cbn [skipn].
    replace (List.length sc + 1)%nat with (List.length (sc ++ [")"])) by (rewrite app_length; reflexivity).
    change (sc ++ ")" :: rest) with (sc ++ [")"] ++ rest). rewrite app_assoc, skipn_len_app by reflexivity. reflexivity.
  Qed.

  (* the last iterations of the loop of parse_if *)
  Lemma if_loop_end : forall br n idx r, (1 <= n)%nat -> (br = true -> hd_error r <> Some "ELSE") ->
    if_loop pn n idx (cls br "END_IF" :: r) = Ok (S idx, [], None).
  Proof.
    intros br [|n] idx r L H; [lia|]. destruct br; [|reflexivity].
    cbn [cls if_loop String.eqb Ascii.eqb Bool.eqb]. destruct r as [|e r']; [reflexivity|].
    destruct (String.eqb e "ELSE") eqn:E; [|reflexivity]. apply String.eqb_eq in E. subst e. exfalso. apply (H eq_refl). reflexivity.
  Qed.
  Lemma if_loop_close_else : forall n idx R adv parts, (1 <= n)%nat ->
    parse_else pn ("ELSE" :: R) = Ok (adv, parts) ->
    if_loop pn n idx ("}" :: "ELSE" :: R) = Ok ((S idx + adv)%nat, [], Some parts).
  Proof.
    intros [|n] idx R adv parts L H; [lia|]. cbn [if_loop String.eqb Ascii.eqb Bool.eqb]. rewrite H. reflexivity.
  Qed.
  Lemma if_loop_to_else : forall br n idx R adv parts, (1 <= n)%nat ->
    parse_else pn ("ELSE" :: R) = Ok (adv, parts) ->
    if_loop pn n idx (cls br "ELSE" :: after br "ELSE" R) = Ok ((idx + List.length (opn br) + adv)%nat, [], Some parts).
  Proof.
    intros [] n idx R adv parts L H; cbn [cls after opn List.length].
    - rewrite (if_loop_close_else n idx R adv parts L H). rewrite Nat.add_1_r. reflexivity.
    - destruct n as [|n]; [lia|]. cbn [if_loop String.eqb Ascii.eqb Bool.eqb]. rewrite H, Nat.add_0_r. reflexivity.
  Qed.

  Section IfForms.
    Variables (h : nat) (hc : bytes) (kw : string).

    Lemma if_blk : forall br sb r code,
      if_steps (sb ++ cls br "END_IF" :: r) (cls br "END_IF" :: r) code (List.length sb) -> fits2 code = true ->
      (br = true -> hd_error r <> Some "ELSE") ->
      if_rest pn h hc (kw :: opn br ++ sb ++ cls br "END_IF" :: r) =
      Ok ((List.length (opn br) + List.length sb + 2 + h)%nat, hc ++ opcode_byte O_IF :: len2 code ++ code).
    Proof.
      intros br sb r code R F N. unfold if_rest.
      rewrite (bs_blk ["END_IF"] br kw _ "END_IF" (fun _ => steps_hd_not "{" R (cls_nb br "END_IF" eq_refl) eq_refl) eq_refl (mem_cls _ _ _ _)).
      cbn [rbind]. rewrite skipn_opn.
      rewrite (steps3_loop R _ (S (List.length (opn br))) (S (S (List.length (opn br)) + List.length sb)) [] None).
      - cbn [rbind]. rewrite app_nil_r, len2_r_ok by exact F. cbn [rbind]. rewrite app_nil_r. do 2 f_equal. lia.
      - cbn [List.length]. rewrite (app_length (opn br)). lia.
      - intros n' L. apply if_loop_end; [cbn [List.length] in L; lia|exact N].
    Qed.

    Lemma ifelse_blk : forall br sb1 R code1 adv parts,
      if_steps (sb1 ++ cls br "ELSE" :: after br "ELSE" R) (cls br "ELSE" :: after br "ELSE" R) code1 (List.length sb1) ->
      fits2 code1 = true -> (br = false -> mem "END_IF" R = true) ->
      parse_else pn ("ELSE" :: R) = Ok (adv, parts) ->
      if_rest pn h hc (kw :: opn br ++ sb1 ++ cls br "ELSE" :: after br "ELSE" R) =
      Ok ((2 * List.length (opn br) + List.length sb1 + 1 + adv + h)%nat,
          hc ++ opcode_byte O_IF_ELSE :: len2 code1 ++ code1 ++ parts).
    Proof.
      intros br sb1 R code1 adv parts R1 F M P. unfold if_rest.
      assert (E : mem (if br then "}" else "END_IF") (sb1 ++ cls br "ELSE" :: after br "ELSE" R) = true).
      { destruct br; [apply mem_mid|]. rewrite mem_app. unfold mem at 2. cbn [cls after existsb].
        fold (mem "END_IF" R). rewrite (M eq_refl), !orb_true_r. reflexivity. }
      rewrite (bs_blk ["END_IF"] br kw _ "END_IF" (fun _ => steps_hd_not "{" R1 (cls_nb br "ELSE" eq_refl) eq_refl) eq_refl E).
      cbn [rbind]. rewrite skipn_opn.
      rewrite (steps3_loop R1 _ (S (List.length (opn br)))
                 (S (List.length (opn br)) + List.length sb1 + List.length (opn br) + adv)%nat [] (Some parts)).
      - cbn [rbind]. rewrite app_nil_r, len2_r_ok by exact F. cbn [rbind]. do 2 f_equal. lia.
      - cbn [List.length]. rewrite (app_length (opn br)). lia.
      - intros n' L. apply if_loop_to_else; [cbn [List.length] in L; lia|exact P].
    Qed.
  End IfForms.

  (* the last iterations of the loop of parse_try *)
  Lemma try_loop_close : forall n idx r, (1 <= n)%nat -> hd_error r <> Some "EXCEPT" ->
    try_loop pn n idx ("}" :: r) = Ok (S idx, [], None).
  Proof.
    intros [|n] idx r L H; [lia|]. cbn [try_loop String.eqb Ascii.eqb Bool.eqb]. destruct r as [|e [|e2 r']]; try reflexivity.
    destruct (String.eqb e "EXCEPT") eqn:E; [|reflexivity]. apply String.eqb_eq in E. subst e. exfalso. apply H. reflexivity.
  Qed.
  Lemma try_loop_to_except : forall br n idx R adv parts, (1 <= n)%nat -> (br = true -> R <> []) ->
    parse_except pn ("EXCEPT" :: R) = Ok (adv, parts) ->
    try_loop pn n idx (cls br "EXCEPT" :: after br "EXCEPT" R) = Ok ((idx + List.length (opn br) + adv)%nat, [], Some parts).
  Proof.
    intros br [|n] idx R adv parts L N H; [lia|]. destruct br; cbn [cls after opn List.length].
    - destruct R as [|x R]; [exfalso; apply (N eq_refl); reflexivity|].
      cbn [try_loop String.eqb Ascii.eqb Bool.eqb]. rewrite H, Nat.add_1_r. reflexivity.
    - cbn [try_loop String.eqb Ascii.eqb Bool.eqb]. rewrite H, Nat.add_0_r. reflexivity.
  Qed.

  Section TryForms.
    Variable kw : string.

    Lemma try_b : forall sb r code,
      try_steps (sb ++ "}" :: r) ("}" :: r) code (List.length sb) -> fits2 code = true ->
      hd_error r <> Some "EXCEPT" ->
      parse_try pn (kw :: braces sb ++ r) =
      Ok ((List.length sb + 3)%nat, opcode_byte O_TRY_EXCEPT :: len2 code ++ code ++ [x00; x00]).
    Proof.
      intros sb r code R F N. unfold parse_try. rewrite bs_braces. cbn [rbind].
      rewrite braces_app. cbn [skipn].
      rewrite (steps3_loop R _ 2%nat (S (2 + List.length sb)) [] None).
      - cbn [rbind]. rewrite app_nil_r, len2_r_ok by exact F. cbn [rbind]. do 2 f_equal. lia.
      - cbn [List.length]. lia.
      - intros n' L. apply try_loop_close; [cbn [List.length] in L; lia|exact N].
    Qed.

    Lemma try_blk : forall br sb1 R code1 adv parts, (br = true -> R <> []) ->
      try_steps (sb1 ++ cls br "EXCEPT" :: after br "EXCEPT" R) (cls br "EXCEPT" :: after br "EXCEPT" R) code1 (List.length sb1) ->
      fits2 code1 = true -> parse_except pn ("EXCEPT" :: R) = Ok (adv, parts) ->
      parse_try pn (kw :: opn br ++ sb1 ++ cls br "EXCEPT" :: after br "EXCEPT" R) =
      Ok ((2 * List.length (opn br) + List.length sb1 + 1 + adv)%nat,
          opcode_byte O_TRY_EXCEPT :: len2 code1 ++ code1 ++ parts).
    Proof.
      intros br sb1 R code1 adv parts NE R1 F P. unfold parse_try.
      rewrite (bs_blk ["END_TRY"; "EXCEPT"] br kw _ "EXCEPT" (fun _ => steps_hd_not "{" R1 (cls_nb br "EXCEPT" eq_refl) eq_refl)
                 eq_refl (mem_cls _ _ _ _)).
      cbn [rbind]. rewrite skipn_opn.
      rewrite (steps3_loop R1 _ (S (List.length (opn br)))
                 (S (List.length (opn br)) + List.length sb1 + List.length (opn br) + adv)%nat [] (Some parts)).
      - cbn [rbind]. rewrite app_nil_r, len2_r_ok by exact F. cbn [rbind]. do 2 f_equal. lia.
      - cbn [List.length]. rewrite (app_length (opn br)). lia.
      - intros n' L. apply try_loop_to_except; [cbn [List.length] in L; lia|exact NE|exact P].
    Qed.
  End TryForms.

  Lemma def_loop_end : forall n sidx t r, (1 <= n)%nat -> In t ["}"; "END_DEF"] ->
    def_loop pn n sidx sidx (t :: r) = Ok [].
  Proof.
    intros [|n] sidx t r L I; [lia|]. cbn [def_loop]. rewrite Nat.ltb_irrefl.
    destruct I as [<-|[<-|[]]]; reflexivity.
  Qed.

  Lemma def_braces : forall kw hs h sb r code,
    def_handle hs = Ok h -> (forall k, scan "{" "}" sb k = Some k) ->
    (forall sidx, def_steps sidx (sb ++ "}" :: r) ("}" :: r) code (List.length sb)) -> fits2 code = true ->
    parse_def pn (kw :: hs :: braces sb ++ r) =
    Ok ((List.length sb + 4)%nat, opcode_byte O_DEF :: h :: len2 code ++ code).
  Proof.
    intros kw hs h sb r code H B R F. rewrite braces_app. unfold parse_def. rewrite H. cbn [rbind].
    change (String.eqb "{" "{") with true. cbv iota.
    assert (M : mem "}" (kw :: hs :: "{" :: sb ++ "}" :: r) = true).
    { change (kw :: hs :: "{" :: sb ++ "}" :: r) with ([kw; hs; "{"] ++ sb ++ "}" :: r). rewrite app_assoc. apply mem_mid. }
    rewrite M. cbn [skipn]. unfold find_matching_brace. cbn [fmb_go String.eqb Ascii.eqb Bool.eqb].
    rewrite (fmb_balanced "{" "}" sb r 1 B). cbn [of_opt rbind].
    rewrite (def_steps_loop (R _) _ 3%nat []).
    - cbn [rbind]. rewrite app_nil_r, len2_r_ok by exact F. cbn [rbind]. do 2 f_equal. lia.
    - cbn [List.length]. lia.
    - lia.
    - intros n' L. replace (3 + List.length sb)%nat with (1 + List.length sb + 2)%nat by lia.
      apply def_loop_end; [cbn [List.length] in L; lia|left; reflexivity].
  Qed.

  Lemma def_ended : forall kw hs h sb r code,
    def_handle hs = Ok h -> String.eqb kw "END_DEF" = false -> String.eqb hs "END_DEF" = false ->
    mem "END_DEF" sb = false ->
    (forall sidx, def_steps sidx (sb ++ "END_DEF" :: r) ("END_DEF" :: r) code (List.length sb)) -> fits2 code = true ->
    parse_def pn (kw :: hs :: sb ++ "END_DEF" :: r) =
    Ok ((List.length sb + 3)%nat, opcode_byte O_DEF :: h :: len2 code ++ code).
  Proof.
    intros kw hs h sb r code H K1 K2 M R F.
    destruct (steps_hd_not "{" (R 0%nat) eq_refl eq_refl) as (s2 & t & Q & N).
    assert (I : index_of "END_DEF" (kw :: hs :: sb ++ "END_DEF" :: r) = Some (2 + List.length sb)%nat).
    { cbn [index_of]. rewrite K1, K2, index_of_mid by exact M. reflexivity. }
    unfold parse_def. rewrite Q in *. rewrite H. cbn [rbind]. rewrite N, I. cbn [of_opt rbind skipn].
    rewrite <- Q in *.
    rewrite (def_steps_loop (R _) _ 2%nat []).
    - cbn [rbind]. rewrite app_nil_r, len2_r_ok by exact F. cbn [rbind]. do 2 f_equal. lia.
    - cbn [List.length]. lia.
    - lia.
    - intros n' L. apply def_loop_end; [cbn [List.length] in L; lia|right; left; reflexivity].
  Qed.
End Blocks.

Lemma encode_one : forall i, encode [i] = encode1 i.
Proof. intros. unfold encode. cbn [flat_map]. apply app_nil_r. Qed.

Lemma sub_ctx_nd : forall c, sub_ctx c <> DefDirect.
Proof. destruct c; discriminate. Qed.

Lemma hd_error_app : forall (sp r : list string) nx, hd_error r = nx -> hd_error (sp ++ r) = hd_or nx sp.
Proof. intros [|s sp] r nx H; [exact H|reflexivity]. Qed.

Lemma alias_of_at : forall k, alias_of (String "@" k) = None.
Proof. intros k. vm_compute. reflexivity. Qed.

Lemma name_head_ok : forall c o n, spell_name c o n -> (c = DefDirect -> o <> O_DEF) -> head_ok c n.
Proof.
  intros c o n S D. destruct (spell_name_spec c o n S) as (E & Hc & Hh). split; [exact Hh|].
  intros ->. specialize (D eq_refl). split; [exact Hc|].
  destruct (opcode_name_inj_def o _ eq_refl) as (A1 & A2 & A3). split.
  - destruct (String.eqb (defpre DefDirect n) "OP_DEF") eqn:Q; [|reflexivity].
    apply String.eqb_eq in Q. rewrite Q in E. exfalso. apply D. apply A1. rewrite <- E. reflexivity.
  - unfold mem. cbn [existsb]. rewrite orb_false_r.
    destruct (String.eqb (defpre DefDirect n) "}") eqn:Q1.
    { apply String.eqb_eq in Q1. rewrite Q1 in E. exfalso. apply A2. rewrite <- E. reflexivity. }
    destruct (String.eqb (defpre DefDirect n) "END_DEF") eqn:Q2; [|reflexivity].
    apply String.eqb_eq in Q2. rewrite Q2 in E. exfalso. apply A3. rewrite <- E. reflexivity.
Qed.

Lemma plain_head_ok : forall c n, headb n = true -> is_alias n = false ->
  String.eqb n "OP_DEF" = false -> head_ok c n.
Proof.
  intros c n H A D. split; [exact H|]. intros ->. cbn [defpre]. rewrite (is_alias_none n A).
  destruct (headb_spec n H) as (Hc & M & _). split; [exact Hc|]. split; [exact D|].
  unfold mem. cbn [existsb]. nt M. reflexivity.
Qed.

Lemma simple_by_shape : forall o,
  match shape_of o with ShIf | ShDef | ShLoop => False | _ => True end -> simple_op o = true.
Proof. destruct o; cbn; intros H; try reflexivity; destruct H. Qed.

Lemma digs_not_bracket : forall r, digs r -> String.eqb r "[" = false.
Proof.
  intros [|c r] [N D]; [discriminate N|]. cbn [sall] in D. apply andb_prop in D as [Hc _].
  cbn [String.eqb]. rewrite (char_sep is_digit c "[" Hc eq_refl). reflexivity.
Qed.

Lemma bad_symbol_spec : forall s, bad_symbol s = false ->
  String.eqb s "!=" = false /\ String.eqb s "~" = false /\ String.eqb s "~!" = false /\
  unmodelled_symbol s = false.
Proof.
  intros s H. unfold bad_symbol in H. apply orb_false_elim in H as [H U].
  unfold mem in H. cbn [existsb] in H. repeat (apply orb_false_elim in H as [? H]). auto.
Qed.

(* parse_comptime is the identity on symbols without "~", "~!", "!=" *)
Lemma comptime_id : forall ct asm syms, existsb bad_symbol syms = false ->
  forall n m, (List.length syms <= n)%nat -> comptime ct asm n m syms = Ok (m, syms).
Proof.
  intros ct asm. induction syms as [|s syms IH]; intros B n m L; [destruct n; reflexivity|].
  cbn [existsb] in B. apply orb_false_elim in B as [B1 B2].
  destruct (bad_symbol_spec s B1) as (E1 & E2 & E3 & _).
  cbn [List.length] in L. destruct n as [|n']; [lia|].
  cbn [comptime]. rewrite E1, E2, E3. cbn [orb]. rewrite (IH B2 n' m) by lia. reflexivity.
Qed.

Lemma bad_unmodelled : forall syms, existsb bad_symbol syms = false -> existsb unmodelled_symbol syms = false.
Proof.
  induction syms as [|s syms IH]; intros B; [reflexivity|]. cbn [existsb] in *.
  apply orb_false_elim in B as [B1 B2]. destruct (bad_symbol_spec s B1) as (_ & _ & _ & U).
  rewrite U, IH by exact B2. reflexivity.
Qed.

Lemma asm_fuel_free : forall fl2 ct f m syms, existsb bad_symbol syms = false ->
  asm_fuel fl2 ct (S f) m syms =
  rbind (asm_loop (pn_at fl2 ct f m) (List.length syms) syms) (fun code => Ok (m, code)).
Proof.
  intros fl2 ct f m syms B. cbn [asm_fuel]. rewrite comptime_id by (try exact B; apply le_n). reflexivity.
Qed.

Section Main.
  Variable fl2 : Z -> Z.
  Variable ct : bytes -> res (option bytes).
  Variable mtab : macros.
  Notation PN := (fun f => pn_at fl2 ct f mtab).
  Definition ASM (f : nat) (syms : list string) : res bytes := code_of (asm_fuel fl2 ct f mtab syms).
  Definition COMPILE (f : nat) (text : string) : res bytes :=
    rbind (get_symbols text) (fun syms => code_of (asm_fuel fl2 ct f [] syms)).

  Lemma PN_S : forall f, PN (S f) = parse_next fl2 (ASM f) (PN f) mtab (COMPILE f).
  Proof. reflexivity. Qed.

  (* the run of statements of a block, as steps of the loop that reads the block *)
  Lemma sub_steps : forall X loop pre f c l r code k, hands_over (PN f) X loop pre ->
    run (PN f) (sub_ctx c) l r code k -> steps X loop pre always l r code k.
  Proof. intros X loop pre f c l r code k H R. exact (run_steps H R (sub_ctx_nd c)). Qed.
  Arguments sub_steps {X loop pre f c l r code k} H R.

  Lemma ASM_free : forall f sc, existsb bad_symbol sc = false ->
    ASM (S f) sc = asm_loop (PN f) (List.length sc) sc.
  Proof.
    intros f sc B. unfold ASM. rewrite asm_fuel_free by exact B. destruct (asm_loop _ _ sc); reflexivity.
  Qed.

  Definition P_stmt (c : ctx) (nx : option string) (is : list instr) (ss : list string) : Prop :=
    wf_prog is = true -> forall f r, (List.length ss <= f)%nat -> hd_error r = nx ->
    exists h t, ss = h :: t /\ head_ok c h /\
                PN f (defpre c h) (ss ++ r) = Ok (List.length ss, encode is).
  Definition P_iftail (c : ctx) (nx : option string) (i : instr) (ts : list string) : Prop :=
    wf i = true -> forall f r h hc kw, (List.length ts <= f)%nat -> hd_error r = nx ->
    (exists s1 t, ts ++ r = s1 :: t /\ String.eqb s1 "(" = false) /\
    if_rest (PN f) h hc (kw :: ts ++ r) = Ok ((S (List.length ts) + h)%nat, hc ++ encode1 i).
  Definition P_seq (c : ctx) (nx : option string) (p : list instr) (sp : list string) : Prop :=
    wf_prog p = true -> forall f r, (List.length sp <= f)%nat -> hd_error r = nx ->
    run (PN f) c (sp ++ r) r (encode p) (List.length sp).

  Ltac start n rest :=
    intros W f r L Hr; destruct f as [|f']; [cbn [List.length] in L; lia|];
    exists n, rest; split; [reflexivity|].

  (* an instruction without nested bodies: the name, then the operand symbols that get_args reads *)
  Lemma L_args : forall c nx o n args i code, spell_name c o n -> encode1 i = opcode_byte o :: code ->
    (wf i = true -> simple_op o = true /\
       forall r, hd_error r = nx -> get_args fl2 o (args ++ r) = Ok (S (List.length args), code)) ->
    P_stmt c nx [i] (n :: args).
  Proof.
    intros c nx o n args i code N E G. start n args.
    cbn [wf_prog forallb] in W. rewrite andb_true_r in W. destruct (G W) as [SO A].
    split. { apply (name_head_ok c o); [exact N|]. intros _ ->. discriminate SO. }
    rewrite PN_S, (pn_opcode fl2 _ _ _ _ c n _ o N SO). cbn [app tl]. rewrite (A r Hr). cbn [rbind].
    rewrite encode_one, E. reflexivity.
  Qed.

  Lemma L_op0 : forall c nx o n, spell_name c o n -> shape_of o = ShNone -> P_stmt c nx [IOp0 o] [n].
  Proof.
    intros c nx o n N S. apply (L_args c nx o n [] (IOp0 o) [] N eq_refl). intros _.
    split; [apply simple_by_shape; rewrite S; exact I|]. intros r _. unfold get_args. rewrite S. reflexivity.
  Qed.

  Lemma L_op1 : forall c nx o n b v, spell_name c o n -> is_sh1 (shape_of o) = true -> sp_byte fl2 b v ->
    P_stmt c nx [IOp1 o b] [n; v].
  Proof.
    intros c nx o n b v N S V. apply (L_args c nx o n [v] (IOp1 o b) [b] N eq_refl). intros _.
    split; [apply simple_by_shape; destruct (shape_of o); try discriminate S; exact I|]. intros r _.
    unfold get_args. destruct (shape_of o); try discriminate S; unfold args_push0; cbn [app];
      rewrite (sp_byte_ok fl2 b v V); reflexivity.
  Qed.

  Lemma L_nop : forall c nx code cb v, sp_byte fl2 cb v -> P_stmt c nx [INop code cb] [nop_name code; v].
  Proof.
    intros c nx code cb v V. start (nop_name code) [v].
    assert (R : (n_opcodes <= code < 256)%nat).
    { cbn [wf_prog forallb wf] in W. rewrite andb_true_r in W. apply andb_prop in W as [A B].
      apply Nat.leb_le in A. apply Nat.ltb_lt in B. lia. }
    destruct (nop_spec code R) as (K1 & _ & K3 & K4 & _).
    split; [apply plain_head_ok; [exact K4|unfold is_alias; rewrite K3; reflexivity|apply plainb_not_def; exact K1]|].
    rewrite PN_S, (pn_nop fl2 _ _ _ _ c code _ R). cbn [app tl]. unfold args_push0.
    rewrite (sp_byte_ok fl2 cb v V). cbn [rbind]. rewrite encode_one. reflexivity.
  Qed.

  (* OP_PUSH1-like and OP_PUSH2 operands, once pick_val has chosen the value symbol *)
  Lemma args_push1_val : forall two syms adv s sz v, pick_val two syms = Ok (adv, s, sz) -> sp_var1 fl2 v s ->
    (blen v <? 256) = true -> check_push_size sz v = Ok tt -> args_push1 fl2 two syms = Ok (adv, len1 v :: v).
  Proof.
    intros two syms adv s sz v P V W C. unfold args_push1. rewrite P. cbn [rbind].
    rewrite (sp_var1_ok fl2 v s V). cbn [rbind]. unfold len1_r. rewrite W. cbn [rbind]. rewrite C. reflexivity.
  Qed.
  Lemma args_push2_val : forall syms adv s sz v, pick_val true syms = Ok (adv, s, sz) -> sp_push2 fl2 v s ->
    (blen v <? 65536) = true -> check_push_size sz v = Ok tt -> args_push2 fl2 syms = Ok (adv, len2 v ++ v).
  Proof.
    intros syms adv s sz v P V W C. unfold args_push2. rewrite P. cbn [rbind].
    rewrite (sp_push2_ok fl2 v s V). cbn [rbind]. unfold len2_r. rewrite W. cbn [rbind]. rewrite C. reflexivity.
  Qed.
  Lemma pick_two : forall a s r, oplike s = false -> pick_val true (a :: s :: r) = Ok (3%nat, s, Some a).
  Proof. intros a s r O. cbn [pick_val]. rewrite O. reflexivity. Qed.
  Lemma pick_one : forall s r t, hd_error r = Some t -> oplike t = true -> pick_val true (s :: r) = Ok (2%nat, s, None).
  Proof. intros s [|t' r] t H O; [discriminate H|]. injection H as ->. cbn [pick_val]. rewrite O. reflexivity. Qed.

  Lemma L_var1 : forall c nx o n v s, spell_name c o n -> shape_of o = ShVar1 \/ shape_of o = ShVar1Int ->
    sp_var1 fl2 v s -> P_stmt c nx [IVar1 o v] [n; s].
  Proof.
    intros c nx o n v s N S V. apply (L_args c nx o n [s] (IVar1 o v) (len1 v :: v) N eq_refl). intros W.
    cbn [wf] in W. apply andb_prop in W as [_ W].
    split; [apply simple_by_shape; destruct S as [S|S]; rewrite S; exact I|]. intros r _. unfold get_args.
    destruct S as [S|S]; rewrite S; apply (args_push1_val false _ _ s None); try assumption; reflexivity.
  Qed.

  Lemma L_push1_2 : forall c nx n a v s, spell_name c O_PUSH1 n -> sp_size (blen v) a -> sp_var1 fl2 v s ->
    oplike s = false -> P_stmt c nx [IVar1 O_PUSH1 v] [n; a; s].
  Proof.
    intros c nx n a v s N A V O. apply (L_args c nx O_PUSH1 n [a; s] (IVar1 O_PUSH1 v) (len1 v :: v) N eq_refl).
    intros W. split; [reflexivity|]. intros r _.
    apply (args_push1_val true _ _ s (Some a)); [apply pick_two; exact O|exact V|exact W|apply sp_size_ok; exact A].
  Qed.

  Lemma L_push1_1 : forall c t n v s, spell_name c O_PUSH1 n -> sp_var1 fl2 v s -> oplike t = true ->
    P_stmt c (Some t) [IVar1 O_PUSH1 v] [n; s].
  Proof.
    intros c t n v s N V O. apply (L_args c (Some t) O_PUSH1 n [s] (IVar1 O_PUSH1 v) (len1 v :: v) N eq_refl).
    intros W. split; [reflexivity|]. intros r Hr.
    apply (args_push1_val true _ _ s None); [apply (pick_one s r t Hr O)|exact V|exact W|reflexivity].
  Qed.

  Lemma L_push2_2 : forall c nx n a v s, spell_name c O_PUSH2 n -> sp_size (blen v) a -> sp_push2 fl2 v s ->
    oplike s = false -> P_stmt c nx [IPush2 v] [n; a; s].
  Proof.
    intros c nx n a v s N A V O. apply (L_args c nx O_PUSH2 n [a; s] (IPush2 v) (len2 v ++ v) N eq_refl).
    intros W. split; [reflexivity|]. intros r _.
    apply (args_push2_val _ _ s (Some a)); [apply pick_two; exact O|exact V|exact W|apply sp_size_ok; exact A].
  Qed.

  Lemma L_push2_1 : forall c t n v s, spell_name c O_PUSH2 n -> sp_push2 fl2 v s -> oplike t = true ->
    P_stmt c (Some t) [IPush2 v] [n; s].
  Proof.
    intros c t n v s N V O. apply (L_args c (Some t) O_PUSH2 n [s] (IPush2 v) (len2 v ++ v) N eq_refl).
    intros W. split; [reflexivity|]. intros r Hr.
    apply (args_push2_val _ _ s None); [apply (pick_one s r t Hr O)|exact V|exact W|reflexivity].
  Qed.

  Lemma L_wc : forall c nx n k cb s1 s2, spell_name c O_WRITE_CACHE n -> sp_key k s1 -> sp_count cb s2 ->
    P_stmt c nx [IWriteCache k cb] [n; s1; s2].
  Proof.
    intros c nx n k cb s1 s2 N K Cn.
    apply (L_args c nx O_WRITE_CACHE n [s1; s2] (IWriteCache k cb) (len1 k :: k ++ [cb]) N eq_refl).
    intros W. cbn [wf] in W. split; [reflexivity|]. intros r _. unfold get_args. cbn [shape_of app].
    unfold args_write_cache. rewrite (sp_key_ok k s1 K), (sp_count_ok cb s2 Cn). cbn [rbind].
    rewrite W, b2z_ltb. cbn [andb rbind]. rewrite z2b_b2z. reflexivity.
  Qed.

  Lemma L_fix : forall c nx o n v s, spell_name c o n -> sp_xval v s -> P_stmt c nx [IFix o v] [n; s].
  Proof.
    intros c nx o n v s N V. apply (L_args c nx o n [s] (IFix o v) v N eq_refl). intros W. cbn [wf] in W.
    destruct V as [ch r0 X H]. pose proof (sp_hex_length _ _ H) as Len.
    destruct (shape_of o) eqn:S; cbn [fix_len] in W; try discriminate W; apply Z.eqb_eq in W; unfold blen in W;
      (split; [apply simple_by_shape; rewrite S; exact I|]); intros r _; unfold get_args; rewrite S; cbn [app].
    - unfold args_div_float, split_val. cbn [rbind].
      replace (String.length r0) with 8%nat by lia.
      rewrite (pfx_x ch X). cbn [Ascii.eqb Bool.eqb andb]. rewrite (sp_hex_unhex _ _ H). reflexivity.
    - unfold args_merkleval, split_val. cbn [rbind String.length].
      replace (String.length r0) with 64%nat by lia.
      rewrite (pfx_x ch X). cbn [Ascii.eqb Bool.eqb andb]. rewrite (sp_hex_unhex _ _ H). reflexivity.
  Qed.

  Lemma L_swap : forall c nx n a b sa sb, spell_name c O_SWAP n -> sp_index a sa -> sp_index b sb ->
    P_stmt c nx [ISwap a b] [n; sa; sb].
  Proof.
    intros c nx n a b sa sb N A B. apply (L_args c nx O_SWAP n [sa; sb] (ISwap a b) [a; b] N eq_refl). intros _.
    split; [reflexivity|]. intros r _. unfold get_args. cbn [shape_of app].
    unfold args_swap. rewrite (sp_index_ok a sa A), (sp_index_ok b sb B). reflexivity.
  Qed.

  Lemma L_ms : forall c nx o n f m k sf sm sk, spell_name c o n -> sp_index f sf -> sp_index m sm ->
    sp_index k sk -> P_stmt c nx [IMultisig o f m k] [n; sf; sm; sk].
  Proof.
    intros c nx o n fg m k sf sm sk N A B K.
    apply (L_args c nx o n [sf; sm; sk] (IMultisig o fg m k) [fg; m; k] N eq_refl). intros W. cbn [wf] in W.
    destruct (shape_of o) eqn:S; try discriminate W.
    split; [apply simple_by_shape; rewrite S; exact I|]. intros r _. unfold get_args. rewrite S. cbn [app].
    unfold args_multisig. rewrite (sp_index_ok _ _ A), (sp_index_ok _ _ B), (sp_index_ok _ _ K). reflexivity.
  Qed.

  Lemma L_pushp : forall c nx n v s i, push_name n -> sp_pushv fl2 v s -> push_instr v = Some i ->
    P_stmt c nx [i] [n; s].
  Proof.
    intros c nx n v s i N V P. start n [s].
    split. { destruct N as [->| ->]; apply plain_head_ok; reflexivity. }
    rewrite PN_S.
    assert (E : parse_next fl2 (ASM f') (PN f') mtab (COMPILE f') (defpre c n) ([n; s] ++ r) = instr_push fl2 (tl ([n; s] ++ r))).
    { destruct N as [->| ->]; destruct c; reflexivity. }
    rewrite E. cbn [app tl]. unfold instr_push. rewrite (sp_pushv_ok fl2 v s V). cbn [rbind]. rewrite P.
    cbn [of_opt rbind]. rewrite encode_one. reflexivity.
  Qed.

  Lemma alnum_first : forall k, isalnum k = true ->
    exists c0 k', k = String c0 k' /\ Ascii.eqb c0 "=" = false /\ Ascii.eqb c0 "#" = false.
  Proof.
    intros [|c0 k'] H; [discriminate H|]. exists c0, k'. split; [reflexivity|].
    unfold isalnum in H. cbn [nonempty sall andb] in H. apply andb_prop in H as [H _].
    split; apply (char_sep is_alnum_c c0 _ H); reflexivity.
  Qed.

  Lemma L_setvar : forall c nx k cb cnt, isalnum k = true -> sp_num (b2z cb) cnt ->
    P_stmt c nx [IWriteCache (str k) cb] ["@="; k; cnt].
  Proof.
    intros c nx k cb cnt K Cn. start "@=" [k; cnt].
    split. { apply plain_head_ok; reflexivity. }
    cbn [wf_prog forallb wf] in W. rewrite andb_true_r in W.
    rewrite PN_S.
    assert (E : forall tail, parse_next fl2 (ASM f') (PN f') mtab (COMPILE f') (defpre c "@=") tail = set_variable tail).
    { intros tail. destruct c; reflexivity. }
    rewrite E. cbn [app]. unfold set_variable. rewrite (isalnum_ascii k K), K. cbn [negb].
    pose proof (sp_num_digs _ _ Cn) as G. destruct (sp_num_spec _ _ Cn) as (_ & _ & V).
    rewrite (digs_not_bracket cnt G), (sp_num_isnumeric _ _ Cn), V. cbn [of_opt rbind].
    rewrite W, b2z_ltb. cbn [andb]. rewrite z2b_b2z, encode_one. reflexivity.
  Qed.

  Lemma is_comment_at : forall k, is_comment (String "@" k) = false.
  Proof. reflexivity. Qed.
  Lemma canon_at : forall k, canon (String "@" k) = String "@" k.
  Proof. intros k. unfold canon. rewrite alias_of_at. reflexivity. Qed.
  Lemma defpre_at : forall c k, defpre c (String "@" k) = String "@" k.
  Proof. intros [] k; cbn [defpre]; rewrite ?alias_of_at; reflexivity. Qed.

  Lemma at_head_ok : forall c k, is_ascii_s k = true -> head_ok c (String "@" k).
  Proof.
    intros c k A. apply plain_head_ok.
    - unfold headb. rewrite is_comment_at. cbn [negb andb]. rewrite (leaf_at k A). reflexivity.
    - unfold is_alias. rewrite alias_of_at. reflexivity.
    - reflexivity.
  Qed.

  Lemma prefix_at_hash : forall c0 k', Ascii.eqb c0 "#" = false ->
    is_prefix "@#" (String "@" (String c0 k')) = false.
  Proof.
    intros c0 k' H. unfold is_prefix. cbn [prefix].
    destruct (ascii_dec "@" "@") as [_|N]; [|congruence].
    destruct (ascii_dec "#" c0) as [<-|_]; [discriminate H|reflexivity].
  Qed.

  Lemma prefix_at_hash_true : forall k, is_prefix "@#" (String "@" (String "#" k)) = true.
  Proof.
    intros k. unfold is_prefix. cbn [prefix].
    destruct (ascii_dec "@" "@") as [_|N]; [|congruence].
    destruct (ascii_dec "#" "#") as [_|N]; [|congruence]. destruct k; reflexivity.
  Qed.

  Lemma L_loadvar : forall c nx k, isalnum k = true -> P_stmt c nx [IVar1 O_READ_CACHE (str k)] [String "@" k].
  Proof.
    intros c nx k K. start (String "@" k) (@nil string).
    split. { apply at_head_ok. apply isalnum_ascii. exact K. }
    cbn [wf_prog forallb wf] in W. rewrite andb_true_r in W. apply andb_prop in W as [_ W].
    rewrite PN_S, defpre_at. unfold parse_next. rewrite is_comment_at, canon_at.
    destruct (alnum_first k K) as (c0 & k' & -> & E1 & E2).
    rewrite (prefix_at_hash c0 k' E2).
    cbn [String.eqb Ascii.eqb Bool.eqb]. rewrite E1. cbn [andb]. rewrite K.
    unfold read_variable, len1_r. rewrite W. cbn [rbind]. rewrite encode_one. reflexivity.
  Qed.

  Lemma L_sizevar : forall c nx k, isalnum k = true ->
    P_stmt c nx [IVar1 O_READ_CACHE_SIZE (str k)] [String "@" (String "#" k)].
  Proof.
    intros c nx k K. start (String "@" (String "#" k)) (@nil string).
    split. { apply at_head_ok. cbn [is_ascii_s sall]. fold (is_ascii_s k). rewrite (isalnum_ascii k K). reflexivity. }
    cbn [wf_prog forallb wf] in W. rewrite andb_true_r in W. apply andb_prop in W as [_ W].
    rewrite PN_S, defpre_at. unfold parse_next. rewrite is_comment_at, canon_at.
    rewrite prefix_at_hash_true. cbn [String.eqb Ascii.eqb Bool.eqb sdrop]. rewrite K.
    unfold read_variable, len1_r. rewrite W. cbn [rbind]. rewrite encode_one. reflexivity.
  Qed.

  Lemma pn_kw : forall asm pn macs compile c o n tail kwname, spell_name c o n -> opcode_name o = kwname ->
    forall (body : res (nat * bytes)),
    (forall cur, is_comment cur = false -> canon cur = kwname ->
                 parse_next fl2 asm pn macs compile cur tail = body) ->
    parse_next fl2 asm pn macs compile (defpre c n) tail = body.
  Proof.
    intros asm pn macs compile c o n tail kwname N E body H. destruct (spell_name_spec c o n N) as (A & B & _).
    apply H; [exact B|]. rewrite A. exact E.
  Qed.

  Lemma pn_if_kw : forall asm pn macs compile c n tail, spell_name c O_IF n ->
    parse_next fl2 asm pn macs compile (defpre c n) tail = parse_if asm pn tail.
  Proof.
    intros. apply (pn_kw asm pn macs compile c O_IF n tail "OP_IF" H eq_refl).
    intros cur Hc E. unfold parse_next. rewrite Hc, E. reflexivity.
  Qed.
  Lemma pn_loop_kw : forall asm pn macs compile c n tail, spell_name c O_LOOP n ->
    parse_next fl2 asm pn macs compile (defpre c n) tail = parse_loop pn tail.
  Proof.
    intros. apply (pn_kw asm pn macs compile c O_LOOP n tail "OP_LOOP" H eq_refl).
    intros cur Hc E. unfold parse_next. rewrite Hc, E. reflexivity.
  Qed.
  Lemma pn_def_kw : forall asm pn macs compile c n tail, spell_name c O_DEF n ->
    parse_next fl2 asm pn macs compile (defpre c n) tail = parse_def pn tail.
  Proof.
    intros. apply (pn_kw asm pn macs compile c O_DEF n tail "OP_DEF" H eq_refl).
    intros cur Hc E. unfold parse_next. rewrite Hc, E. reflexivity.
  Qed.
  Lemma pn_try_kw : forall asm pn macs compile c n tail, try_name n ->
    parse_next fl2 asm pn macs compile (defpre c n) tail = parse_try pn tail.
  Proof. intros asm pn macs compile c n tail [->| ->]; destruct c; reflexivity. Qed.
  Lemma try_head_ok : forall c n, try_name n -> head_ok c n.
  Proof. intros c n [->| ->]; apply plain_head_ok; reflexivity. Qed.

  Lemma blk_length : forall br (e : string) sb, List.length (opn br ++ sb ++ [e]) = (List.length (opn br) + List.length sb + 1)%nat.
  Proof. intros. rewrite !app_length. cbn [List.length]. lia. Qed.
  Lemma blk_app : forall br (e : string) sb r, (opn br ++ sb ++ [e]) ++ r = opn br ++ sb ++ e :: r.
  Proof. intros. rewrite <- !app_assoc. reflexivity. Qed.

  Lemma LI_if : forall br c nx b sb, P_seq (sub_ctx c) (Some (cls br "END_IF")) b sb ->
    (br = true -> nx <> Some "ELSE") -> P_iftail c nx (IIf b) (opn br ++ sb ++ [cls br "END_IF"]).
  Proof.
    intros br c nx b sb IH N W f r h hc kw L Hr. destruct (wf_body b W) as [Wb Fb]. rewrite blk_length in L. rewrite blk_app.
    pose proof (sub_steps (if_hands_over _) (IH Wb f (cls br "END_IF" :: r) ltac:(lia) eq_refl)) as R. split.
    - destruct br; [cbn [opn app]; eauto|]. exact (steps_hd_not "(" R eq_refl eq_refl).
    - rewrite (if_blk (PN f) h hc kw br sb r (encode b) R Fb) by (rewrite Hr; exact N).
      rewrite enc_if, blk_length. do 2 f_equal. lia.
  Qed.

  Lemma LI_ifelse : forall br1 br2 c nx b1 sb1 b2 sb2, (br1 = false -> br2 = false) ->
    P_seq (sub_ctx c) (Some (cls br1 "ELSE")) b1 sb1 -> P_seq (sub_ctx c) (Some (cls br2 "END_IF")) b2 sb2 ->
    P_iftail c nx (IIfElse b1 b2)
      (opn br1 ++ sb1 ++ cls br1 "ELSE" :: after br1 "ELSE" (opn br2 ++ sb2 ++ [cls br2 "END_IF"])).
  Proof.
    intros br1 br2 c nx b1 sb1 b2 sb2 B IH1 IH2 W f r h hc kw L Hr. destruct (wf_bodies b1 b2 W) as [[W1 F1] [W2 F2]].
    set (t2 := opn br2 ++ sb2 ++ [cls br2 "END_IF"]) in *.
    assert (E : (opn br1 ++ sb1 ++ cls br1 "ELSE" :: after br1 "ELSE" t2) ++ r
                = opn br1 ++ sb1 ++ cls br1 "ELSE" :: after br1 "ELSE" (t2 ++ r)).
    { rewrite <- !app_assoc. destruct br1; reflexivity. }
    assert (L2 : (List.length (opn br1) + List.length sb1 + 1 + List.length (opn br1) + List.length t2 <= f)%nat).
    { rewrite !app_length in L. destruct br1; cbn [after opn List.length] in *; lia. }
    rewrite E. unfold t2 in *. rewrite blk_length in L2. rewrite blk_app.
    pose proof (sub_steps (if_hands_over _)
                  (IH1 W1 f (cls br1 "ELSE" :: after br1 "ELSE" (opn br2 ++ sb2 ++ cls br2 "END_IF" :: r)) ltac:(lia) eq_refl)) as R1.
    pose proof (sub_steps (body_hands_over _ _ _ tsets_else) (IH2 W2 f (cls br2 "END_IF" :: r) ltac:(lia) eq_refl)) as R2.
    split.
    - destruct br1; [cbn [opn app]; eauto|]. exact (steps_hd_not "(" R1 eq_refl eq_refl).
    - rewrite (ifelse_blk (PN f) h hc kw br1 sb1 _ (encode b1) _ _ R1 F1
                 ltac:(intros Q; rewrite (B Q); apply mem_mid)
                 (clause_blk (PN f) ["END_IF"] _ _ br2 "END_IF" sb2 r (encode b2) R2
                    ltac:(destruct br2; reflexivity) eq_refl eq_refl F2 "ELSE")).
      rewrite enc_ifelse, !app_length. cbn [List.length]. destruct br1; cbn [after opn List.length];
        rewrite ?blk_length; do 2 f_equal; lia.
  Qed.

  Lemma L_if : forall c nx n i ts, spell_name c O_IF n -> P_iftail c nx i ts -> P_stmt c nx [i] (n :: ts).
  Proof.
    intros c nx n i ts N IH. start n ts.
    split. { apply (name_head_ok c O_IF); [exact N|]. intros _; discriminate. }
    apply wf_one in W. cbn [List.length] in L.
    destruct (IH W f' r 0%nat [] n ltac:(lia) Hr) as ((s1 & t & Q & E) & R).
    rewrite PN_S, pn_if_kw by exact N. cbn [app]. rewrite Q, (parse_if_nohoist _ _ n s1 t E), <- Q, R.
    rewrite encode_one. cbn [List.length app]. f_equal. f_equal. lia.
  Qed.

  Lemma L_ifh : forall c nx n cond sc i ts, spell_name c O_IF n ->
    seq fl2 (sub_ctx c) None cond sc -> P_seq (sub_ctx c) None cond sc -> P_iftail c nx i ts ->
    P_stmt c nx (cond ++ [i]) (n :: "(" :: sc ++ ")" :: ts).
  Proof.
    intros c nx n cond sc i ts N S IHc IH. start n ("(" :: sc ++ ")" :: ts).
    split. { apply (name_head_ok c O_IF); [exact N|]. intros _; discriminate. }
    rewrite wf_prog_app in W. apply andb_prop in W as [Wc Wi]. apply wf_one in Wi. cbn [List.length] in L. rewrite app_length in L. cbn [List.length] in L.
    destruct (leafb_spec n (spell_name_leaf c O_IF n N)) as (_ & _ & _ & K1 & K2 & _).
    destruct (good_seq fl2 _ _ _ _ S Wc) as (_ & B & U & _).
    rewrite PN_S, pn_if_kw by exact N. cbn [app]. rewrite <- app_assoc. cbn [app].
    rewrite (parse_if_hoist _ _ n sc (ts ++ r) K1 K2 B).
    destruct f' as [|f'']; [lia|].
    pose proof (IHc Wc f'' [] ltac:(lia) eq_refl) as Rc. rewrite app_nil_r in Rc.
    rewrite (ASM_free f'' sc U). rewrite (asm_steps_end (sub_steps (asm_hands_over _) Rc) _ (le_n _)). cbn [rbind].
    set (f' := Datatypes.S f'') in *.
    destruct (IH Wi f' r (List.length sc + 2)%nat (encode cond) n ltac:(lia) Hr) as (_ & R). rewrite R.
    unfold encode. rewrite flat_map_app. cbn [flat_map]. rewrite app_nil_r.
    cbn [List.length]. rewrite app_length. cbn [List.length]. f_equal. f_equal. lia.
  Qed.

  Lemma L_try_b : forall c nx n b1 sb1, try_name n -> P_seq (sub_ctx c) (Some "}") b1 sb1 ->
    nx <> Some "EXCEPT" -> P_stmt c nx [ITry b1 []] (n :: braces sb1).
  Proof.
    intros c nx n b1 sb1 N IH NX. start n (braces sb1).
    split; [apply try_head_ok; exact N|]. destruct (wf_bodies b1 [] (wf_one _ W)) as [[W1 F1] _]. cbn [List.length] in L. rewrite length_braces in L.
    pose proof (sub_steps (try_hands_over _) (IH W1 f' ("}" :: r) ltac:(lia) eq_refl)) as R.
    rewrite PN_S, pn_try_kw by exact N. cbn [app].
    rewrite (try_b (PN f') n sb1 r (encode b1) R F1) by (rewrite Hr; exact NX).
    rewrite encode_one, enc_try. cbn [List.length]. rewrite length_braces. f_equal. f_equal. lia.
  Qed.

  Lemma L_try : forall br1 br2 c nx n b1 sb1 b2 sb2, try_name n ->
    P_seq (sub_ctx c) (Some (cls br1 "EXCEPT")) b1 sb1 -> P_seq (sub_ctx c) (Some (cls br2 "END_EXCEPT")) b2 sb2 ->
    P_stmt c nx [ITry b1 b2]
      (n :: opn br1 ++ sb1 ++ cls br1 "EXCEPT" :: after br1 "EXCEPT" (opn br2 ++ sb2 ++ [cls br2 "END_EXCEPT"])).
  Proof.
    intros br1 br2 c nx n b1 sb1 b2 sb2 N IH1 IH2. start n (opn br1 ++ sb1 ++ cls br1 "EXCEPT" :: after br1 "EXCEPT" (opn br2 ++ sb2 ++ [cls br2 "END_EXCEPT"])).
    split; [apply try_head_ok; exact N|]. destruct (wf_bodies b1 b2 (wf_one _ W)) as [[W1 F1] [W2 F2]].
    set (t2 := opn br2 ++ sb2 ++ [cls br2 "END_EXCEPT"]) in *.
    assert (E : (opn br1 ++ sb1 ++ cls br1 "EXCEPT" :: after br1 "EXCEPT" t2) ++ r
                = opn br1 ++ sb1 ++ cls br1 "EXCEPT" :: after br1 "EXCEPT" (t2 ++ r)).
    { rewrite <- !app_assoc. destruct br1; reflexivity. }
    assert (L2 : (List.length (opn br1) + List.length sb1 + 1 + List.length (opn br1) + List.length t2 <= f')%nat).
    { cbn [List.length] in L. rewrite !app_length in L. destruct br1; cbn [after opn List.length] in *; lia. }
    assert (NE : br1 = true -> t2 ++ r <> []) by (intros _; unfold t2; destruct br2; [discriminate|destruct sb2; discriminate]).
    rewrite PN_S, pn_try_kw by exact N. cbn [app]. rewrite E. unfold t2 in *. rewrite blk_length in L2. rewrite blk_app in *.
    pose proof (sub_steps (try_hands_over _)
                  (IH1 W1 f' (cls br1 "EXCEPT" :: after br1 "EXCEPT" (opn br2 ++ sb2 ++ cls br2 "END_EXCEPT" :: r)) ltac:(lia) eq_refl)) as R1.
    pose proof (sub_steps (body_hands_over _ _ _ tsets_except) (IH2 W2 f' (cls br2 "END_EXCEPT" :: r) ltac:(lia) eq_refl)) as R2.
    rewrite (try_blk (PN f') n br1 sb1 _ (encode b1) _ _ NE R1 F1
               (clause_blk (PN f') ["END_EXCEPT"] _ _ br2 "END_EXCEPT" sb2 r (encode b2) R2
                  ltac:(destruct br2; reflexivity) eq_refl eq_refl F2 "EXCEPT")).
    rewrite encode_one, enc_try. cbn [List.length]. rewrite !app_length. cbn [List.length].
    destruct br1; cbn [after opn List.length]; rewrite ?blk_length; do 2 f_equal; lia.
  Qed.

  Lemma L_loop : forall br c nx n b sb, spell_name c O_LOOP n -> P_seq (sub_ctx c) (Some (cls br "END_LOOP")) b sb ->
    P_stmt c nx [ILoop b] (n :: opn br ++ sb ++ [cls br "END_LOOP"]).
  Proof.
    intros br c nx n b sb N IH. start n (opn br ++ sb ++ [cls br "END_LOOP"]).
    split. { apply (name_head_ok c O_LOOP); [exact N|]. intros _; discriminate. }
    destruct (wf_body b (wf_one _ W)) as [Wb Fb]. cbn [List.length] in L. rewrite blk_length in L.
    pose proof (sub_steps (body_hands_over _ _ _ tsets_loop) (IH Wb f' (cls br "END_LOOP" :: r) ltac:(lia) eq_refl)) as R.
    rewrite PN_S, pn_loop_kw by exact N. cbn [app]. rewrite blk_app.
    rewrite (loop_blk (PN f') br sb r (encode b) R Fb).
    rewrite encode_one, enc_loop. cbn [List.length]. rewrite blk_length. f_equal. f_equal. lia.
  Qed.

  Lemma L_def_b : forall c nx n h hs b sb, c <> DefDirect -> spell_name c O_DEF n -> sp_handle h hs ->
    seq fl2 DefDirect (Some "}") b sb -> P_seq DefDirect (Some "}") b sb ->
    P_stmt c nx [IDef h b] (n :: hs :: braces sb).
  Proof.
    intros c nx n h hs b sb C N Hh S IH. start n (hs :: braces sb).
    split. { apply (name_head_ok c O_DEF); [exact N|]. intros ->. congruence. }
    destruct (wf_body b (wf_one _ W)) as [Wb Fb]. cbn [List.length] in L. rewrite length_braces in L.
    pose proof (IH Wb f' ("}" :: r) ltac:(lia) eq_refl) as R.
    destruct (good_seq fl2 _ _ _ _ S Wb) as (B & _).
    rewrite PN_S, pn_def_kw by exact N. cbn [app].
    rewrite (def_braces (PN f') n hs h sb r (encode b) (sp_handle_ok h hs Hh) B
               (fun sidx => def_run_steps sidx R) Fb).
    rewrite encode_one, enc_def. cbn [List.length]. rewrite length_braces. f_equal. f_equal. lia.
  Qed.

  Lemma L_def_e : forall nx n h hs b sb, spell_name Top O_DEF n -> sp_handle h hs ->
    seq fl2 DefDirect (Some "END_DEF") b sb -> P_seq DefDirect (Some "END_DEF") b sb ->
    P_stmt Top nx [IDef h b] (n :: hs :: sb ++ ["END_DEF"]).
  Proof.
    intros nx n h hs b sb N Hh S IH. start n (hs :: sb ++ ["END_DEF"]).
    split. { apply (name_head_ok Top O_DEF); [exact N|]. discriminate. }
    destruct (wf_body b (wf_one _ W)) as [Wb Fb]. cbn [List.length] in L. rewrite app_length in L. cbn [List.length] in L.
    pose proof (IH Wb f' ("END_DEF" :: r) ltac:(lia) eq_refl) as R.
    destruct (good_seq fl2 _ _ _ _ S Wb) as (_ & _ & _ & M).
    destruct (leafb_spec n (spell_name_leaf Top O_DEF n N)) as (_ & _ & _ & _ & _ & K1).
    destruct (leafb_spec hs (sp_handle_leaf h hs Hh)) as (_ & _ & _ & _ & _ & K2).
    rewrite String.eqb_sym in K1, K2.
    rewrite PN_S, pn_def_kw by exact N. cbn [app]. rewrite <- app_assoc. cbn [app].
    rewrite (def_ended (PN f') n hs h sb r (encode b) (sp_handle_ok h hs Hh) K1 K2 (M eq_refl)
               (fun sidx => def_run_steps sidx R) Fb).
    rewrite encode_one, enc_def. cbn [List.length]. rewrite app_length. cbn [List.length]. f_equal. f_equal. lia.
  Qed.

  Lemma L_nil : forall c nx, P_seq c nx [] [].
  Proof. intros c nx W f r L Hr. cbn [app List.length]. apply run_nil. Qed.

  Lemma L_cons : forall c nx is ss p sp, P_stmt c (hd_or nx sp) is ss -> P_seq c nx p sp ->
    P_seq c nx (is ++ p) (ss ++ sp).
  Proof.
    intros c nx is ss p sp IH1 IH2 W f r L Hr.
    rewrite wf_prog_app in W. apply andb_prop in W as [W1 W2].
    rewrite app_length in L.
    destruct (IH1 W1 f (sp ++ r) ltac:(lia) (hd_error_app sp r nx Hr)) as (h & t & -> & Hh & P).
    pose proof (IH2 W2 f r ltac:(lia) Hr) as R.
    rewrite <- app_assoc. unfold encode. rewrite flat_map_app. fold (encode is) (encode p).
    rewrite app_length. cbn [List.length] in *.
    apply (run_step (PN f) c h t (sp ++ r) r (encode is) (encode p) (List.length sp) Hh P R).
  Qed.

  Theorem spells_correct :
    (forall c nx is ss, stmt fl2 c nx is ss -> P_stmt c nx is ss) /\
    (forall c nx i ts, iftail fl2 c nx i ts -> P_iftail c nx i ts) /\
    (forall c nx p ss, seq fl2 c nx p ss -> P_seq c nx p ss).
  Proof.
    apply spells_mutind; intros.
    - apply L_op0; assumption.
    - apply L_op1; assumption.
    - apply L_nop; assumption.
    - apply L_var1; assumption.
    - apply L_push1_2; assumption.
    - apply L_push1_1; assumption.
    - apply L_push2_2; assumption.
    - apply L_push2_1; assumption.
    - apply L_wc; assumption.
    - apply L_fix; assumption.
    - apply L_swap; assumption.
    - apply L_ms; assumption.
    - eapply L_pushp; eassumption.
    - apply L_setvar; assumption.
    - apply L_loadvar; assumption.
    - apply L_sizevar; assumption.
    - apply L_if; assumption.
    - apply L_ifh; assumption.
    - apply L_try_b; assumption.
    - rewrite braces_app. apply (L_try true true); assumption.
    - rewrite braces_app. apply (L_try true false); assumption.
    - apply (L_try false true); assumption.
    - apply (L_try false false); assumption.
    - apply (L_loop true); assumption.
    - apply (L_loop false); assumption.
    - apply L_def_b; assumption.
    - apply L_def_e; assumption.
    - apply (LI_if true); auto.
    - apply (LI_if false); [assumption|discriminate].
    - rewrite braces_app. apply (LI_ifelse true true); [discriminate|assumption|assumption].
    - rewrite braces_app. apply (LI_ifelse true false); [discriminate|assumption|assumption].
    - apply (LI_ifelse false false); [reflexivity|assumption|assumption].
    - apply L_nil.
    - apply L_cons; assumption.
  Qed.
End Main.

(* a statement and a comment as turns of the loops outside a DEF body *)
Lemma stmt_turn : forall fl2 ct m f X loop pre c nx is ss l, hands_over (pn_at fl2 ct f m) X loop pre ->
  c <> DefDirect -> stmt fl2 c nx is ss -> wf_prog is = true -> (List.length ss <= f)%nat -> hd_error l = nx ->
  turn X loop pre always ss l (encode is).
Proof.
  intros fl2 ct m f X loop pre c nx is ss l H C S W L Hl.
  destruct (proj1 (spells_correct fl2 ct m) _ _ _ _ S W f l L Hl) as (h & t & -> & [Hh _] & P).
  rewrite (defpre_id c h C) in P. apply (pn_turn H); [apply (headb_spec h Hh)|exact P].
Qed.

Lemma pn_comment : forall fl2 ct m f q body l, is_comment q = true -> mem q body = false ->
  pn_at fl2 ct (S f) m q (q :: body ++ q :: l) = Ok ((List.length body + 2)%nat, []).
Proof.
  intros fl2 ct m f q body l Q M. rewrite (PN_S fl2 ct m). unfold parse_next. rewrite Q. cbn [tl].
  rewrite (index_of_mid q body l M). reflexivity.
Qed.

Lemma comment_turn : forall fl2 ct m f X loop pre q body l, hands_over (pn_at fl2 ct (S f) m) X loop pre ->
  is_comment q = true -> mem q body = false -> turn X loop pre always (q :: body ++ [q]) l [].
Proof.
  intros fl2 ct m f X loop pre q body l H Q M. apply (pn_turn H); [apply (comment_head q Q)|].
  cbn [app]. rewrite <- app_assoc. cbn [app]. rewrite (pn_comment fl2 ct m f q body l Q M), app_length.
  cbn [List.length]. do 2 f_equal. lia.
Qed.

(* assemble is parse_comptime, then the statement loop on what parse_comptime has made of the source *)
Lemma assemble_r_comptime : forall fl2 ct w, existsb unmodelled_symbol w = false ->
  assemble_r fl2 ct w =
  rbind (comptime ct (asm_fuel fl2 ct (2 * List.length w + 1)) (List.length w) [] w) (fun '(m, a) =>
    asm_loop (pn_at fl2 ct (2 * List.length w + 1) m) (List.length a) a).
Proof.
  intros fl2 ct w U. unfold assemble_r, code_of. rewrite U.
  replace (2 * List.length w + 2)%nat with (Datatypes.S (2 * List.length w + 1)) by lia.
  change (asm_fuel fl2 ct (Datatypes.S (2 * List.length w + 1)) [] w) with
    (rbind (comptime ct (asm_fuel fl2 ct (2 * List.length w + 1)) (List.length w) [] w) (fun '(m1, new) =>
     rbind (asm_loop (pn_at fl2 ct (2 * List.length w + 1) m1) (List.length new) new) (fun code => Ok (m1, code)))).
  destruct (comptime _ _ _ _ w) as [[m a]| |]; cbn [rbind]; [|reflexivity|reflexivity].
  destruct (asm_loop _ _ a); reflexivity.
Qed.

(* the loop of assemble on a spelling, whatever the macro table and with any sufficient fuel *)
Lemma spells_loop : forall fl2 ct p syms, spells fl2 p syms -> wf_prog p = true ->
  forall m f n, (List.length syms <= f)%nat -> (List.length syms <= n)%nat ->
  asm_loop (pn_at fl2 ct f m) n syms = Ok (encode p).
Proof.
  intros fl2 ct p syms S W m f n Lf Ln.
  pose proof (proj2 (proj2 (spells_correct fl2 ct m)) _ _ _ _ S W f [] Lf eq_refl) as R.
  rewrite app_nil_r in R.
  apply (asm_steps_end (run_steps (asm_hands_over _) R ltac:(discriminate))). exact Ln.
Qed.

Lemma asm_fuel_spells : forall fl2 ct p syms, spells fl2 p syms -> wf_prog p = true ->
  forall m f, (List.length syms <= f)%nat -> asm_fuel fl2 ct (Datatypes.S f) m syms = Ok (m, encode p).
Proof.
  intros fl2 ct p syms S W m f L. destruct (good_seq fl2 _ _ _ _ S W) as (_ & _ & U & _).
  rewrite asm_fuel_free by exact U. rewrite (spells_loop fl2 ct p syms S W m f _ L (le_n _)). reflexivity.
Qed.

Theorem assemble_r_spells : forall fl2 ct p syms,
  spells fl2 p syms -> wf_prog p = true -> assemble_r fl2 ct syms = Ok (encode p).
Proof.
  intros fl2 ct p syms S W. unfold assemble_r.
  destruct (good_seq fl2 _ _ _ _ S W) as (_ & _ & U & _). rewrite (bad_unmodelled syms U).
  replace (2 * List.length syms + 2)%nat with (Datatypes.S (2 * List.length syms + 1)) by lia.
  rewrite (asm_fuel_spells fl2 ct p syms S W) by lia. reflexivity.
Qed.

Theorem assemble_spells : forall fl2 ct p syms,
  spells fl2 p syms -> wf_prog p = true -> assemble fl2 ct syms = Some (encode p).
Proof. intros fl2 ct p syms S W. unfold assemble. rewrite (assemble_r_spells fl2 ct p syms S W). reflexivity. Qed.

(* math.log2 is exact on the magnitudes of one-byte integers *)
Definition fl2_small (fl2 : Z -> Z) : Prop := forall a, 0 < a <= 128 -> fl2 a = Z.log2 a.

Lemma fl2_exact_small : fl2_small fl2_exact.
Proof. intros a _. reflexivity. Qed.

Lemma s8_range : forall b, -128 <= s8 b <= 127.
Proof. intros b. unfold s8. pose proof (b2z_range b). destruct (Z.ltb_spec (b2z b) 128); lia. Qed.
Lemma i2b_s8_exact : forall b, int_to_bytes fl2_exact (s8 b) = Some [b].
Proof.
  intros b. pose proof (forall_byte_spec (fun b => match int_to_bytes fl2_exact (s8 b) with
                                                   | Some v => bytes_eqb v [b] | None => false end)
                          ltac:(vm_compute; reflexivity) b) as K.
  cbv beta in K. destruct (int_to_bytes fl2_exact (s8 b)); [|discriminate K]. apply bytes_eqb_eq in K. subst. reflexivity.
Qed.
Lemma i2b_s8 : forall fl2, fl2_small fl2 -> forall b, int_to_bytes fl2 (s8 b) = Some [b].
Proof.
  intros fl2 F b. rewrite <- (i2b_s8_exact b). pose proof (s8_range b) as R. unfold int_to_bytes.
  destruct (Z.abs (s8 b) =? 0) eqn:E; [reflexivity|]. apply Z.eqb_neq in E.
  rewrite F by lia. reflexivity.
Qed.

Lemma lower_nib : forall a b c d, lower_c (nib a b c d) = nib a b c d.
Proof. intros [] [] [] []; reflexivity. Qed.
Lemma lower_hex : forall v, lower_s (hex v) = hex v.
Proof.
  induction v as [|x t IH]; [reflexivity|]. cbn [hex].
  destruct (Byte.to_bits x) as (b0 & b1 & b2 & b3 & b4 & b5 & b6 & b7).
  unfold lower_s in *. cbn [smap]. rewrite !lower_nib, IH. reflexivity.
Qed.
Lemma sp_hex_hex : forall v, sp_hex v (hex v).
Proof. intros v. apply lower_hex. Qed.
Lemma is_hex_hex : forall v, is_hex_s (hex v) = true.
Proof.
  intros v. pose proof (hex_hexlow v) as K. rewrite <- (lower_hex v) in K. unfold lower_s in K.
  rewrite sall_smap in K. exact K.
Qed.

Lemma sp_snum_dec : forall z, sp_snum z (dec z).
Proof.
  intros z. destruct (Z.ltb_spec z 0) as [H|H].
  - rewrite (dec_neg z H). apply sn_minus. apply num_dec. lia.
  - apply sn_plain. apply num_dec. exact H.
Qed.

Lemma oplike_x : forall r, oplike (String "x" r) = false.
Proof. intros r. vm_compute. reflexivity. Qed.

Lemma leaf_tok_d : forall z, leafb (tok_d z) = true.
Proof.
  intros z. unfold tok_d. apply leaf_dx; [left; left; reflexivity|]. apply (sp_snum_ascii z). apply sp_snum_dec.
Qed.

(* no DEF directly in the body of a DEF (the compiler refuses it: parse_def) *)
Fixpoint ldef_ok (direct : bool) (i : instr) : bool :=
  match i with
  | IDef _ body => negb direct && forallb (ldef_ok true) body
  | IIf body | ILoop body => forallb (ldef_ok false) body
  | IIfElse b1 b2 | ITry b1 b2 => forallb (ldef_ok false) b1 && forallb (ldef_ok false) b2
  | _ => true
  end.
Definition is_direct (c : ctx) : bool := match c with DefDirect => true | _ => false end.
Lemma is_direct_sub : forall c, is_direct (sub_ctx c) = false.
Proof. destruct c; reflexivity. Qed.

Section Listing.
  Variable fl2 : Z -> Z.
  Variable ct : bytes -> res (option bytes).
  Hypothesis F : fl2_small fl2.

  Definition nxok (nx : option string) : Prop := nx <> Some "ELSE" /\ nx <> Some "EXCEPT".

  Lemma name_self : forall c o, spell_name c o (opcode_name o).
  Proof. intros. left. reflexivity. Qed.

  Lemma sp_byte_tok_d : forall b, sp_byte fl2 b (tok_d (s8 b)).
  Proof. intros b. apply (sb_d fl2 b "d" _ (s8 b)); [left; reflexivity|apply sp_snum_dec|apply i2b_s8; exact F]. Qed.
  Lemma sp_byte_tok_x : forall b, sp_byte fl2 b (tok_x [b]).
  Proof. intros b. apply sb_x; [left; reflexivity|apply sp_hex_hex]. Qed.
  Lemma sp_index_tok_d : forall b, sp_index b (tok_d (b2z b)).
  Proof. intros b. apply si_d; [left; reflexivity|]. apply num_dec. apply b2z_nonneg. Qed.
  Lemma sp_index_tok_x : forall b, sp_index b (tok_x [b]).
  Proof. intros b. apply si_x; [left; reflexivity|apply sp_hex_hex]. Qed.
  Lemma sp_var1_tok_x : forall v, sp_var1 fl2 v (tok_x v).
  Proof. intros v. apply sv_x; [left; reflexivity|apply sp_hex_hex]. Qed.

  Lemma name_not_kw : forall o, opcode_name o <> "ELSE" /\ opcode_name o <> "EXCEPT".
  Proof. destruct o; split; discriminate. Qed.
  Lemma nop_not_kw : forall code, nop_name code <> "ELSE" /\ nop_name code <> "EXCEPT".
  Proof. intros code. unfold nop_name. cbn [append]. split; discriminate. Qed.

  (* The listing's tokens, each passed through a map g that keeps the names, the braces and keywords,
     the x-values and the unsigned numbers, and at most changes the case of the d of a d-value: the
     identity (the symbols of the listing) and norm_token (what get_symbols makes of its text). *)
  Section TokenMap.
    Variable g : string -> string.
    Hypothesis g_name : forall o, g (opcode_name o) = opcode_name o.
    Hypothesis g_nop : forall code, g (nop_name code) = nop_name code.
    Hypothesis g_kw : g "OP_TRY" = "OP_TRY" /\ g "{" = "{" /\ g "}" = "}" /\ g "ELSE" = "ELSE" /\ g "EXCEPT" = "EXCEPT".
    Hypothesis g_x : forall v, g (tok_x v) = tok_x v.
    Hypothesis g_num : forall z, 0 <= z -> g (dec z) = dec z /\ g (tok_d z) = tok_d z.
    Hypothesis g_d : forall z, exists c, dD c /\ g (tok_d z) = String c (dec z).

    Definition gtoks (p : list instr) : list string := map g (ptoks fl2 p).

    Lemma gtoks_cons : forall i p, gtoks (i :: p) = map g (ptoks1 fl2 i) ++ gtoks p.
    Proof. intros. unfold gtoks, ptoks. cbn [flat_map]. apply map_app. Qed.

    Lemma nxok_head : forall p nx, nxok nx -> nxok (hd_or nx (gtoks p)).
    Proof.
      intros [|i p] nx N; [exact N|]. rewrite gtoks_cons.
      assert (E : exists t r0, ptoks1 fl2 i = t :: r0 /\ g t = t /\ t <> "ELSE" /\ t <> "EXCEPT").
      { destruct i; cbn [ptoks1 simple_toks]; try destruct (shape_of o); do 2 eexists; (split; [reflexivity|]);
          first [ split; [apply g_name|apply name_not_kw]
                | split; [apply g_nop|apply nop_not_kw]
                | split; [apply g_kw|split; discriminate] ]. }
      destruct E as (t & r0 & -> & S & A & B). cbn [map app hd_or]. rewrite S.
      split; intros Q; injection Q as Q; [exact (A Q)|exact (B Q)].
    Qed.

    Definition LP (i : instr) : Prop := forall c nx, wf i = true -> ldef_ok (is_direct c) i = true -> nxok nx ->
      stmt fl2 c nx [i] (map g (ptoks1 fl2 i)).
    Definition LPs (p : list instr) : Prop := forall c nx, wf_prog p = true ->
      forallb (ldef_ok (is_direct c)) p = true -> nxok nx -> seq fl2 c nx p (gtoks p).

    Lemma LPs_of : forall p, Forall LP p -> LPs p.
    Proof.
      induction 1 as [|i p Hi Hp IH]; intros c nx W D N.
      - apply sq_nil.
      - rewrite wf_prog_cons in W. apply andb_prop in W as [Wi Wp].
        cbn [forallb] in D. apply andb_prop in D as [Di Dp].
        rewrite gtoks_cons. apply (sq_cons fl2 c nx [i] _ p (gtoks p)); [|apply IH; assumption].
        apply Hi; try assumption. apply nxok_head; assumption.
    Qed.

    Lemma map_g_block : forall b l,
      map g ("{" :: flat_map (ptoks1 fl2) b ++ "}" :: l) = braces (gtoks b) ++ map g l.
    Proof.
      intros b l. destruct g_kw as (_ & Ko & Kc & _). rewrite map_cons, map_app, map_cons, Ko, Kc.
      symmetry. apply braces_app.
    Qed.
    Lemma LPs_body : forall b c, Forall LP b -> wf_prog b = true -> forallb (ldef_ok false) b = true ->
      seq fl2 (sub_ctx c) (Some "}") b (gtoks b).
    Proof.
      intros b c H W D. apply (LPs_of b H); [exact W|rewrite is_direct_sub; exact D|split; discriminate].
    Qed.

    Lemma sp_byte_g_d : forall b, sp_byte fl2 b (g (tok_d (s8 b))).
    Proof.
      intros b. destruct (g_d (s8 b)) as (c & C & ->).
      apply (sb_d fl2 b c _ (s8 b)); [exact C|apply sp_snum_dec|apply i2b_s8; exact F].
    Qed.
    Lemma sp_size_g_d : forall z, sp_size z (g (tok_d z)).
    Proof. intros z. destruct (g_d z) as (c & C & ->). apply sz_d; [exact C|apply sp_snum_dec]. Qed.
    Lemma sp_var1_g_int : forall v, sp_var1 fl2 v (g (int_tok fl2 v)).
    Proof.
      intros v. unfold int_tok. destruct v as [|x t]; [rewrite g_x; apply sp_var1_tok_x|].
      destruct (bytes_to_int (x :: t)) as [z|]; [|rewrite g_x; apply sp_var1_tok_x].
      destruct (int_to_bytes fl2 z) as [v'|] eqn:E; [|rewrite g_x; apply sp_var1_tok_x].
      destruct (bytes_eqb v' (x :: t)) eqn:B; [|rewrite g_x; apply sp_var1_tok_x].
      apply bytes_eqb_eq in B. subst v'. destruct (g_d z) as (c & C & ->).
      apply (sv_d fl2 _ c _ z); [exact C| |exact E]. apply fn_int. apply sp_snum_dec.
    Qed.

    Lemma LP_all : forall i, LP i.
    Proof.
      destruct g_kw as (Kt & Ko & Kc & Ke & Kx).
      induction i using instr_ind'; intros cx nx W D N; cbn [wf] in W; cbn [ptoks1 simple_toks].
      - cbn [map]. rewrite g_name. destruct (shape_of o) eqn:S; try discriminate W.
        apply st_op0; [apply name_self|exact S].
      - destruct (shape_of o) eqn:S; try discriminate W; cbn [map]; rewrite g_name, ?g_x;
          apply st_op1; try apply name_self; try (rewrite S; reflexivity).
        + apply sp_byte_g_d.
        + apply sp_byte_tok_x.
      - apply andb_prop in W as [W1 W2]. destruct (shape_of o) eqn:S; try discriminate W1;
          cbn [map]; rewrite g_name, ?g_x.
        + pose proof (shape_unique _ _ _ S eq_refl) as ->.
          apply st_push1_2; [apply name_self|apply sp_size_g_d|apply sp_var1_tok_x|apply oplike_x].
        + apply st_var1; [apply name_self|left; exact S|apply sp_var1_tok_x].
        + apply st_var1; [apply name_self|right; exact S|apply sp_var1_g_int].
      - cbn [map]. rewrite g_name, g_x, (proj2 (g_num _ (b2z_nonneg c))).
        apply st_wc; [apply name_self|apply sk_x; [left; reflexivity|apply sp_hex_hex]|].
        apply sc_d; [left; reflexivity|]. apply num_dec. apply b2z_nonneg.
      - cbn [map]. rewrite g_name, g_x.
        apply st_push2_2; [apply name_self|apply sp_size_g_d| |apply oplike_x].
        apply s2_x; [left; reflexivity|apply sp_hex_hex].
      - cbn [map]. rewrite g_name, g_x.
        apply st_fix; [apply name_self|]. apply sx_x; [left; reflexivity|apply sp_hex_hex].
      - cbn [map]. rewrite g_name, !(proj2 (g_num _ (b2z_nonneg _))).
        apply st_swap; [apply name_self|apply sp_index_tok_d|apply sp_index_tok_d].
      - cbn [map]. rewrite g_name, g_x, !(proj2 (g_num _ (b2z_nonneg _))).
        apply st_ms; [apply name_self|apply sp_index_tok_x|apply sp_index_tok_d|apply sp_index_tok_d].
      - apply andb_prop in W as [W _]. cbn [ldef_ok] in D. apply andb_prop in D as [D1 D2]. apply negb_true_iff in D1.
        rewrite map_cons, map_cons, g_name, (proj1 (g_num _ (b2z_nonneg h))), (map_g_block body []), app_nil_r.
        apply st_def_b; [intros ->; discriminate D1|apply name_self|apply sh_bare, num_dec, b2z_nonneg|].
        apply (LPs_of _ H DefDirect); [exact W|exact D2|split; discriminate].
      - apply andb_prop in W as [W _]. cbn [ldef_ok] in D.
        rewrite map_cons, g_name, (map_g_block body []), app_nil_r.
        apply st_if; [apply name_self|]. apply it_b; [apply LPs_body; assumption|apply N].
      - apply andb_prop in W as [W _]. apply andb_prop in W as [W W2]. apply andb_prop in W as [W1 _].
        cbn [ldef_ok] in D. apply andb_prop in D as [D1 D2].
        rewrite map_cons, g_name, (map_g_block b1), map_cons, Ke, (map_g_block b2 []), app_nil_r.
        apply st_if; [apply name_self|]. apply ite_bb; apply LPs_body; assumption.
      - apply andb_prop in W as [W _]. apply andb_prop in W as [W W2]. apply andb_prop in W as [W1 _].
        cbn [ldef_ok] in D. apply andb_prop in D as [D1 D2].
        destruct (flat_map (ptoks1 fl2) b2) as [|t2 ts2] eqn:E2.
        + assert (b2 = []) as ->.
          { destruct b2 as [|i2 b2']; [reflexivity|]. exfalso. cbn [flat_map] in E2.
            apply app_eq_nil in E2 as [E2 _]. exact (ptoks1_nonempty _ _ E2). }
          cbn [app]. rewrite map_cons, Kt, (map_g_block b1 []), app_nil_r.
          apply st_try_b; [right; reflexivity|apply LPs_body; assumption|apply N].
        + rewrite <- E2. cbn [app]. rewrite map_cons, Kt, (map_g_block b1), map_cons, Kx, (map_g_block b2 []), app_nil_r.
          apply st_try_bb; [right; reflexivity|apply LPs_body; assumption|apply LPs_body; assumption].
      - apply andb_prop in W as [W _]. cbn [ldef_ok] in D.
        rewrite map_cons, g_name, (map_g_block body []), app_nil_r.
        apply st_loop_b; [apply name_self|apply LPs_body; assumption].
      - cbn [map]. rewrite g_nop. apply st_nop. apply sp_byte_g_d.
    Qed.

    Theorem listing_spells_map : forall p, wf_prog p = true -> forallb (ldef_ok false) p = true ->
      spells fl2 p (map g (ptoks fl2 p)).
    Proof.
      intros p W D. apply (LPs_of p); [|exact W|exact D|split; discriminate].
      apply Forall_forall. intros i _. apply LP_all.
    Qed.
  End TokenMap.

  Theorem listing_spells : forall p, wf_prog p = true -> forallb (ldef_ok false) p = true ->
    spells fl2 p (ptoks fl2 p).
  Proof.
    intros p W D. rewrite <- (map_id (ptoks fl2 p)). apply listing_spells_map; try assumption; try reflexivity.
    - repeat split.
    - intros z _. split; reflexivity.
    - intros z. exists "d"%char. split; [left|]; reflexivity.
  Qed.

  Theorem assemble_listing : forall p ind, wf_prog p = true -> forallb (ldef_ok false) p = true ->
    assemble fl2 ct (tokens_of (print fl2 ind p)) = Some (encode p).
  Proof.
    intros p ind W D. rewrite tokens_print. apply assemble_spells; [apply listing_spells; assumption|exact W].
  Qed.

  Corollary assemble_parse_listing : forall p ind, wf_prog p = true -> forallb (ldef_ok false) p = true ->
    assemble fl2 ct (tokens_of (print fl2 ind p)) =
    option_map encode (parse_listing fl2 (tokens_of (print fl2 ind p))).
  Proof.
    intros p ind W D. rewrite assemble_listing, listing_roundtrip by assumption. reflexivity.
  Qed.

  (* on what the decompiler lists for valid byte code *)
  Corollary assemble_decompile : forall b ls, decompile fl2 b = Some ls ->
    (forall p, decode b = Some p -> forallb (ldef_ok false) p = true) ->
    assemble fl2 ct (tokens_of ls) = Some b.
  Proof.
    intros b ls H D. destruct (decompile_sound fl2 b ls H) as (p & -> & E & W & _).
    rewrite assemble_listing; [congruence|exact W|]. apply D. rewrite <- E. apply decode_encode. exact W.
  Qed.
End Listing.

Section Rejections.
  Variable fl2 : Z -> Z.
  Variable ct : bytes -> res (option bytes).
  Notation PN := (fun f => pn_at fl2 ct f []).
  (* the general form: a prefix that is a spelling, then symbols on which parse_next raises *)
  Theorem reject_after : forall nx p sp rest,
    seq fl2 Top nx p sp -> wf_prog p = true -> hd_error rest = nx ->
    existsb bad_symbol rest = false ->
    (forall f n', asm_loop (PN (S f)) (S n') rest = Err) ->
    assemble_r fl2 ct (sp ++ rest) = Err.
  Proof.
    intros nx p sp rest S W Hr U E. unfold assemble_r.
    destruct (good_seq fl2 _ _ _ _ S W) as (_ & _ & U1 & _).
    assert (UU : existsb bad_symbol (sp ++ rest) = false) by (rewrite existsb_app, U1, U; reflexivity).
    rewrite (bad_unmodelled _ UU).
    replace (2 * List.length (sp ++ rest) + 2)%nat with (Datatypes.S (2 * List.length (sp ++ rest) + 1)) by lia.
    rewrite asm_fuel_free by exact UU.
    pose proof (proj2 (proj2 (spells_correct fl2 ct [])) _ _ _ _ S W (2 * List.length (sp ++ rest) + 1)%nat rest
                  ltac:(rewrite app_length; lia) Hr) as R.
    rewrite (asm_steps_loop (run_steps (asm_hands_over _) R ltac:(discriminate)) _ Err (le_n _));
      [reflexivity|].
    intros n' L. replace (2 * List.length (sp ++ rest) + 1)%nat with (Datatypes.S (2 * List.length (sp ++ rest))) by lia.
    destruct rest as [|x rest']; [|destruct n'; [cbn [List.length] in L; lia|apply E]].
    (* rest = []: the hypothesis E is then false *)
    specialize (E O O). destruct n'; discriminate E.
  Qed.

  Lemma asm_loop_err : forall f n' c rest, PN (S f) c (c :: rest) = Err ->
    asm_loop (PN (S f)) (S n') (c :: rest) = Err.
  Proof. intros f n' c rest H. cbn [asm_loop]. rewrite H. reflexivity. Qed.

  Lemma get_args_nil : forall o, shape_of o <> ShNone -> get_args fl2 o [] = Err.
  Proof. intros o H. unfold get_args. destruct (shape_of o); try reflexivity. congruence. Qed.

  (* after a prefix, the name of an instruction without bodies whose operand symbols get_args refuses *)
  Lemma reject_args : forall p sp o n rest, seq fl2 Top (Some n) p sp -> wf_prog p = true ->
    spell_name Top o n -> simple_op o = true -> existsb bad_symbol rest = false ->
    get_args fl2 o rest = Err -> assemble_r fl2 ct (sp ++ n :: rest) = Err.
  Proof.
    intros p sp o n rest S W N SO U E. apply (reject_after (Some n) p sp (n :: rest) S W eq_refl).
    - cbn [existsb]. destruct (leafb_spec n (spell_name_leaf Top o n N)) as (U' & _). rewrite U'. exact U.
    - intros f n'. apply asm_loop_err. rewrite (PN_S fl2 ct []).
      change n with (defpre Top n) at 1. rewrite (pn_opcode fl2 _ _ _ _ Top n _ o N SO). cbn [tl]. rewrite E. reflexivity.
  Qed.

  Theorem reject_operand_missing : forall p sp o n,
    seq fl2 Top (Some n) p sp -> wf_prog p = true ->
    spell_name Top o n -> simple_op o = true -> shape_of o <> ShNone ->
    assemble_r fl2 ct (sp ++ [n]) = Err.
  Proof.
    intros p sp o n S W N SO SH. apply (reject_args p sp o n [] S W N SO eq_refl). apply get_args_nil. exact SH.
  Qed.

  Theorem reject_operand_missing_nop : forall p sp code,
    seq fl2 Top (Some (nop_name code)) p sp -> wf_prog p = true -> (n_opcodes <= code < 256)%nat ->
    assemble_r fl2 ct (sp ++ [nop_name code]) = Err.
  Proof.
    intros p sp code S W R. apply (reject_after _ p sp [nop_name code] S W eq_refl).
    - cbn [existsb]. destruct (leafb_spec _ (nop_name_leaf code R)) as (U & _). rewrite U. reflexivity.
    - intros f n'. apply asm_loop_err. rewrite (PN_S fl2 ct []).
      change (nop_name code) with (defpre Top (nop_name code)) at 1. rewrite (pn_nop fl2 _ _ _ _ Top code _ R).
      reflexivity.
  Qed.

  Theorem reject_operand_missing_push : forall p sp n,
    seq fl2 Top (Some n) p sp -> wf_prog p = true -> push_name n ->
    assemble_r fl2 ct (sp ++ [n]) = Err.
  Proof.
    intros p sp n S W N. apply (reject_after (Some n) p sp [n] S W eq_refl).
    - destruct N as [->| ->]; reflexivity.
    - intros f n'. apply asm_loop_err. rewrite (PN_S fl2 ct []). destruct N as [->| ->]; reflexivity.
  Qed.

  (* the second operand of two, the third of three *)
  Theorem reject_second_operand_missing : forall p sp o n v,
    seq fl2 Top (Some n) p sp -> wf_prog p = true -> spell_name Top o n ->
    shape_of o = ShSwap \/ shape_of o = ShMultisig \/ shape_of o = ShWriteCache ->
    bad_symbol v = false ->
    assemble_r fl2 ct (sp ++ [n; v]) = Err.
  Proof.
    intros p sp o n v S W N SH U. apply (reject_args p sp o n [v] S W N).
    - apply simple_by_shape. destruct SH as [H|[H|H]]; rewrite H; exact I.
    - cbn [existsb]. rewrite U. reflexivity.
    - unfold get_args. destruct SH as [H|[H|H]]; rewrite H; reflexivity.
  Qed.

  Lemma i2b_one_byte_range : CodecProofs.fl2_ok fl2 -> forall z b, int_to_bytes fl2 z = Some [b] -> -128 <= z <= 127.
  Proof.
    intros F z b H. destruct (int_roundtrip fl2 F z) as (b' & E & D & _). rewrite H in E. injection E as <-.
    rewrite s8_spec in D. injection D as <-. apply s8_range.
  Qed.

  Lemma val_byte_out_of_range : CodecProofs.fl2_ok fl2 -> forall c r z, dD c -> sp_snum z r ->
    ~ (-128 <= z <= 127) -> val_byte fl2 (String c r) = Err.
  Proof.
    intros F c r z C H R. unfold val_byte, split_val. cbn [rbind].
    destruct (sp_snum_read z r H) as (A & SD & V).
    assert (K : rbind (i2b fl2 z) (fun v => match v with [_] => Ok v | _ => Err end) = Err).
    { unfold i2b. destruct (int_to_bytes fl2 z) as [[|b [|b2 t]]|] eqn:I; try reflexivity.
      exfalso. apply R. apply (i2b_one_byte_range F z b I). }
    rewrite (pfx_d c C); cbn [Ascii.eqb Bool.eqb andb]; rewrite A, SD, V; cbn [of_opt rbind]; exact K.
  Qed.

  Lemma val_byte_hex_too_long : forall c r, xX c -> (2 < String.length r)%nat -> val_byte fl2 (String c r) = Err.
  Proof.
    intros c r C L. unfold val_byte, split_val. cbn [rbind].
    rewrite (proj2 (Nat.leb_gt _ _)) by lia. rewrite (pfx_x c C). reflexivity.
  Qed.

  Lemma val_index_out_of_range : forall c r z, dD c -> sp_num z r -> 256 <= z -> val_index (String c r) = Err.
  Proof.
    intros c r z C H R. unfold val_index, split_val. cbn [rbind].
    destruct (sp_num_spec _ _ H) as (_ & _ & V).
    rewrite (pfx_d c C); cbn [Ascii.eqb Bool.eqb andb]; rewrite (sp_num_isnumeric _ _ H), V; cbn [of_opt rbind];
      rewrite (proj2 (Z.ltb_ge _ _)) by lia; reflexivity.
  Qed.

  Theorem reject_bad_byte_operand : forall p sp o n v rest,
    seq fl2 Top (Some n) p sp -> wf_prog p = true -> spell_name Top o n -> is_sh1 (shape_of o) = true ->
    val_byte fl2 v = Err -> existsb bad_symbol (v :: rest) = false ->
    assemble_r fl2 ct (sp ++ n :: v :: rest) = Err.
  Proof.
    intros p sp o n v rest S W N SH E U. apply (reject_args p sp o n (v :: rest) S W N); [|exact U|].
    - apply simple_by_shape. destruct (shape_of o); try discriminate SH; exact I.
    - unfold get_args. destruct (shape_of o); try discriminate SH; unfold args_push0; rewrite E; reflexivity.
  Qed.

  Theorem reject_bad_swap_operand : forall p sp n a b rest,
    seq fl2 Top (Some n) p sp -> wf_prog p = true -> spell_name Top O_SWAP n ->
    val_index a = Err \/ (exists va, val_index a = Ok va /\ val_index b = Err) ->
    existsb bad_symbol (a :: b :: rest) = false ->
    assemble_r fl2 ct (sp ++ n :: a :: b :: rest) = Err.
  Proof.
    intros p sp n a b rest S W N E U. apply (reject_args p sp O_SWAP n (a :: b :: rest) S W N eq_refl U).
    unfold get_args. cbn [shape_of]. unfold args_swap.
    destruct E as [E|(va & E1 & E2)]; [rewrite E; reflexivity|]. rewrite E1, E2. reflexivity.
  Qed.

  (* the explicit size of OP_PUSH1 / OP_PUSH2 does not denote the length of the value
     (_check_push_size; D20 of DESIGN.md section 7) *)
  Lemma sp_size_mismatch : forall m a v, sp_size m a -> m <> blen v -> check_push_size (Some a) v = Err.
  Proof. intros m a v H D. apply Z.eqb_neq in D. rewrite (sp_size_check m a v H), D. reflexivity. Qed.

  Theorem reject_push1_size : forall p sp n a v s rest,
    seq fl2 Top (Some n) p sp -> wf_prog p = true -> spell_name Top O_PUSH1 n ->
    sp_var1 fl2 v s -> oplike s = false -> check_push_size (Some a) v = Err ->
    existsb bad_symbol (a :: rest) = false ->
    assemble_r fl2 ct (sp ++ n :: a :: s :: rest) = Err.
  Proof.
    intros p sp n a v s rest S W N V O E U.
    apply (reject_args p sp O_PUSH1 n (a :: s :: rest) S W N eq_refl).
    - cbn [existsb] in *. destruct (leafb_spec s (sp_var1_leaf fl2 v s V)) as (U2 & _).
      apply orb_false_elim in U as [Ua Ur]. rewrite U2, Ua, Ur. reflexivity.
    - unfold get_args. cbn [shape_of]. unfold args_push1. rewrite (pick_two a s rest O). cbn [rbind].
      rewrite (sp_var1_ok fl2 v s V). cbn [rbind]. unfold len1_r.
      destruct (blen v <? 256); [|reflexivity]. cbn [rbind]. rewrite E. reflexivity.
  Qed.

  Theorem reject_push2_size : forall p sp n a v s rest,
    seq fl2 Top (Some n) p sp -> wf_prog p = true -> spell_name Top O_PUSH2 n ->
    sp_push2 fl2 v s -> oplike s = false -> check_push_size (Some a) v = Err ->
    existsb bad_symbol (a :: rest) = false ->
    assemble_r fl2 ct (sp ++ n :: a :: s :: rest) = Err.
  Proof.
    intros p sp n a v s rest S W N V O E U.
    apply (reject_args p sp O_PUSH2 n (a :: s :: rest) S W N eq_refl).
    - cbn [existsb] in *. destruct (leafb_spec s (sp_push2_leaf fl2 v s V)) as (U2 & _).
      apply orb_false_elim in U as [Ua Ur]. rewrite U2, Ua, Ur. reflexivity.
    - unfold get_args. cbn [shape_of]. unfold args_push2. rewrite (pick_two a s rest O). cbn [rbind].
      rewrite (sp_push2_ok fl2 v s V). cbn [rbind]. unfold len2_r.
      destruct (blen v <? 65536); [|reflexivity]. cbn [rbind]. rewrite E. reflexivity.
  Qed.

  (* an unknown name; among them a closing brace, END_ word, ELSE, EXCEPT or parenthesis without
     its opening statement *)
  Definition unknown_name (n : string) : Prop :=
    is_comment n = false /\ opcode_index (canon n) = None /\ nop_index (canon n) = None /\
    String.eqb (canon n) "OP_PUSH" = false /\ String.eqb (canon n) "OP_TRY" = false /\
    match canon n with String c _ => Ascii.eqb c "@" = false /\ Ascii.eqb c "!" = false | EmptyString => True end.

  Lemma pn_unknown : forall asm pn macs compile n tail, unknown_name n -> parse_next fl2 asm pn macs compile n tail = Err.
  Proof.
    intros asm pn macs compile n tail (A & B & C & D & E & G). unfold parse_next. rewrite A.
    destruct (canon n) as [|c0 cr] eqn:Q; [reflexivity|]. destruct G as [G1 G2].
    rewrite B, C, D, E, G1, G2.
    assert (X1 : String.eqb (String c0 cr) "@=" = false).
    { cbn [String.eqb]. rewrite G1. reflexivity. }
    assert (X2 : String.eqb (String c0 cr) "!=" = false).
    { cbn [String.eqb]. rewrite G2. reflexivity. }
    assert (X3 : is_prefix "@#" (String c0 cr) = false).
    { unfold is_prefix. cbn [prefix]. destruct (ascii_dec "@" c0) as [<-|_]; [discriminate G1|reflexivity]. }
    rewrite X1, X2, X3. reflexivity.
  Qed.

  Theorem reject_unknown_name : forall nx p sp n rest,
    seq fl2 Top nx p sp -> wf_prog p = true -> nx = Some n -> unknown_name n ->
    existsb bad_symbol (n :: rest) = false ->
    assemble_r fl2 ct (sp ++ n :: rest) = Err.
  Proof.
    intros nx p sp n rest S W -> K U. apply (reject_after _ p sp (n :: rest) S W eq_refl U).
    intros f n'. apply asm_loop_err. rewrite (PN_S fl2 ct []). apply pn_unknown. exact K.
  Qed.

  Definition unknown_nameb (n : string) : bool :=
    negb (is_comment n)
    && match opcode_index (canon n) with None => true | Some _ => false end
    && match nop_index (canon n) with None => true | Some _ => false end
    && negb (String.eqb (canon n) "OP_PUSH") && negb (String.eqb (canon n) "OP_TRY")
    && match canon n with String c _ => negb (Ascii.eqb c "@") && negb (Ascii.eqb c "!") | EmptyString => true end.
  Lemma unknown_nameb_spec : forall n, unknown_nameb n = true -> unknown_name n.
  Proof.
    intros n H. unfold unknown_nameb in H. unfold unknown_name.
    apply andb_prop in H as [H H6]. apply andb_prop in H as [H H5]. apply andb_prop in H as [H H4].
    apply andb_prop in H as [H H3]. apply andb_prop in H as [H1 H2]. apply negb_true_iff in H1, H4, H5.
    destruct (opcode_index (canon n)); [discriminate H2|]. destruct (nop_index (canon n)); [discriminate H3|].
    repeat (split; [assumption || reflexivity|]).
    destruct (canon n) as [|c r]; [exact I|]. apply andb_prop in H6 as [A B]. apply negb_true_iff in A, B. auto.
  Qed.

  Lemma unknown_specials : Forall unknown_name
    ["}"; "{"; "("; ")"; "ELSE"; "END_IF"; "END_DEF"; "END_LOOP"; "END_TRY"; "EXCEPT"; "END_EXCEPT";
     "OP_NOP92"; "NOP91"; "NOP256"; "NOP092"; "FOO"; "OP_FOO"; "true"; "op_true"].
  Proof.
    apply Forall_forall. intros n I. apply unknown_nameb_spec. revert n I. apply forallb_forall.
    vm_compute. reflexivity.
  Qed.

  Corollary reject_extra_close : forall p sp rest,
    seq fl2 Top (Some "}") p sp -> wf_prog p = true -> existsb bad_symbol rest = false ->
    assemble_r fl2 ct (sp ++ "}" :: rest) = Err.
  Proof.
    intros p sp rest S W U. apply (reject_unknown_name _ p sp "}" rest S W eq_refl); [|exact U].
    exact (Forall_inv unknown_specials).
  Qed.

  Lemma block_start_unclosed : forall ends kw t, mem "}" t = false ->
    block_start ends (kw :: "{" :: t) = Err.
  Proof.
    intros ends kw t H. cbn [block_start]. change (String.eqb "{" "{") with true. cbv iota.
    assert (mem "}" ("{" :: t) = false) as ->; [|reflexivity].
    unfold mem in *. cbn [existsb]. rewrite H. reflexivity.
  Qed.

  Theorem reject_unclosed_block : forall p sp n rest,
    seq fl2 Top (Some n) p sp -> wf_prog p = true ->
    spell_name Top O_IF n \/ spell_name Top O_LOOP n \/ try_name n ->
    mem "}" rest = false -> existsb bad_symbol rest = false ->
    assemble_r fl2 ct (sp ++ n :: "{" :: rest) = Err.
  Proof.
    intros p sp n rest S W N M U. apply (reject_after (Some n) p sp (n :: "{" :: rest) S W eq_refl).
    - cbn [existsb]. rewrite U.
      assert (bad_symbol n = false) as ->; [|reflexivity].
      destruct N as [N|[N|[->| ->]]]; try reflexivity;
        destruct (leafb_spec n (spell_name_leaf Top _ n N)) as (U' & _); exact U'.
    - intros f n'. apply asm_loop_err. rewrite (PN_S fl2 ct []). destruct N as [N|[N|N]].
      + change n with (defpre Top n) at 1. rewrite pn_if_kw by exact N.
        rewrite parse_if_nohoist by reflexivity. unfold if_rest. rewrite block_start_unclosed by exact M. reflexivity.
      + change n with (defpre Top n) at 1. rewrite pn_loop_kw by exact N.
        unfold parse_loop. rewrite block_start_unclosed by exact M. reflexivity.
      + change n with (defpre Top n) at 1. rewrite pn_try_kw by exact N.
        unfold parse_try. rewrite block_start_unclosed by exact M. reflexivity.
  Qed.

  Theorem reject_unclosed_def : forall p sp n h hs rest,
    seq fl2 Top (Some n) p sp -> wf_prog p = true -> spell_name Top O_DEF n -> sp_handle h hs ->
    mem "}" rest = false -> existsb bad_symbol rest = false ->
    assemble_r fl2 ct (sp ++ n :: hs :: "{" :: rest) = Err.
  Proof.
    intros p sp n h hs rest S W N Hh M U.
    apply (reject_after (Some n) p sp (n :: hs :: "{" :: rest) S W eq_refl).
    - cbn [existsb]. rewrite U.
      destruct (leafb_spec n (spell_name_leaf Top _ n N)) as (U1 & _).
      destruct (leafb_spec hs (sp_handle_leaf h hs Hh)) as (U2 & _). rewrite U1, U2. reflexivity.
    - intros f n'. apply asm_loop_err. rewrite (PN_S fl2 ct []).
      change n with (defpre Top n) at 1. rewrite pn_def_kw by exact N.
      unfold parse_def. rewrite (sp_handle_ok h hs Hh). cbn [rbind].
      change (String.eqb "{" "{") with true. cbv iota.
      destruct (leafb_spec n (spell_name_leaf Top _ n N)) as (_ & _ & K1 & _).
      destruct (leafb_spec hs (sp_handle_leaf h hs Hh)) as (_ & _ & K2 & _).
      assert (mem "}" (n :: hs :: "{" :: rest) = false) as ->; [|reflexivity].
      unfold mem in *. cbn [existsb]. rewrite (String.eqb_sym "}" n), (String.eqb_sym "}" hs), K1, K2, M. reflexivity.
  Qed.
End Rejections.

(* Names are case-insensitive in the source: get_symbols upper-cases every spelling of a name
   (norm_token), and assemble compares the upper-case names. *)

Definition keyword_syms : list string :=
  ["PUSH"; "OP_PUSH"; "TRY"; "OP_TRY"; "{"; "}"; "("; ")"; "ELSE"; "END_IF"; "END_DEF"; "END_LOOP";
   "EXCEPT"; "END_EXCEPT"].
Definition all_names : list string :=
  gen_opcode_names ++ map fst gen_aliases ++ map nop_name gen_nop_codes ++ keyword_syms.

(* a name does not look like a value after upper-casing *)
Definition not_valuelike (n : string) : bool :=
  match n with
  | EmptyString => true
  | String c r =>
    negb (Ascii.eqb c "D" && isnumeric r) && negb (Ascii.eqb c "X" && is_hex_s r)
    && negb (Ascii.eqb c "S" && match r with String q _ => Ascii.eqb q dquote || Ascii.eqb q squote | _ => true end)
    && negb (Ascii.eqb c "!") && negb (Ascii.eqb c "@")
    && negb (Ascii.eqb c "d") && negb (Ascii.eqb c "x") && negb (Ascii.eqb c "s")
  end.
Lemma names_not_valuelike : forallb not_valuelike all_names = true.
Proof. vm_compute. reflexivity. Qed.

Lemma upper_digit : forall c, is_digit c = true -> upper_c c = c.
Proof. intros c H. apply Ascii.eqb_eq. revert c H. apply char_imp_spec. vm_compute. reflexivity. Qed.
Lemma upper_digits : forall r, sall is_digit r = true -> upper_s r = r.
Proof.
  induction r as [|c r IH]; intros H; [reflexivity|]. cbn [sall] in H. apply andb_prop in H as [H1 H2].
  unfold upper_s in *. cbn [smap]. rewrite upper_digit, IH by assumption. reflexivity.
Qed.
Lemma hex_upper : forall c, is_hexlow (lower_c c) = true -> is_hexlow (lower_c (upper_c c)) = true.
Proof. apply char_imp_spec. vm_compute. reflexivity. Qed.
Lemma is_hex_upper : forall r, is_hex_s r = true -> is_hex_s (upper_s r) = true.
Proof.
  induction r as [|c r IH]; intros H; [reflexivity|]. unfold is_hex_s in *. cbn [sall] in H.
  apply andb_prop in H as [H1 H2]. unfold upper_s. cbn [smap sall]. fold (upper_s r).
  rewrite IH by exact H2. fold (is_hexlow (lower_c c)) in H1. fold (is_hexlow (lower_c (upper_c c))).
  rewrite hex_upper by exact H1. reflexivity.
Qed.

Theorem names_case_insensitive : forall n t, In n all_names -> upper_s t = n -> norm_token t = n.
Proof.
  intros n t I E. pose proof (proj1 (forallb_forall _ _) names_not_valuelike n I) as K.
  subst n. destruct t as [|c r]; [reflexivity|]. unfold norm_token.
  unfold upper_s in K. cbn [smap not_valuelike] in K. fold (upper_s r) in K.
  repeat (apply andb_prop in K as [K ?]).
  repeat match goal with H : negb _ = true |- _ => apply negb_true_iff in H end.
  destruct (Ascii.eqb c "d") eqn:Ed.
  { apply Ascii.eqb_eq in Ed. subst c. destruct (isnumeric r) eqn:N; [|reflexivity].
    exfalso. unfold isnumeric in N. apply andb_prop in N as [N1 N2].
    rewrite (upper_digits r N2) in K. unfold isnumeric in K. rewrite N1, N2 in K. discriminate K. }
  destruct (Ascii.eqb c "x") eqn:Ex.
  { apply Ascii.eqb_eq in Ex. subst c. destruct (is_hex_s r) eqn:N; [|reflexivity].
    exfalso. rewrite (is_hex_upper r N) in *.
    match goal with H : Ascii.eqb (upper_c "x") "X" && true = false |- _ => discriminate H end. }
  destruct (Ascii.eqb c "s") eqn:Es.
  { apply Ascii.eqb_eq in Es. subst c. destruct r as [|q r']; [exfalso|].
    - match goal with H : Ascii.eqb (upper_c "s") "S" && _ = false |- _ => discriminate H end.
    - destruct (Ascii.eqb q dquote || Ascii.eqb q squote) eqn:Q; [|reflexivity]. exfalso.
      assert (upper_c q = q) as Uq.
      { apply orb_prop in Q as [Q|Q]; apply Ascii.eqb_eq in Q; subst q; reflexivity. }
      match goal with H : Ascii.eqb (upper_c "s") "S" && _ = false |- _ =>
        unfold upper_s in H; cbn [smap] in H; rewrite Uq, Q in H; discriminate H end. }
  destruct (Ascii.eqb c "!") eqn:E1.
  { apply Ascii.eqb_eq in E1. subst c. exfalso.
    match goal with H : Ascii.eqb (upper_c "!") "!" = false |- _ => discriminate H end. }
  destruct (Ascii.eqb c "@") eqn:E2.
  { apply Ascii.eqb_eq in E2. subst c. exfalso.
    match goal with H : Ascii.eqb (upper_c "@") "@" = false |- _ => discriminate H end. }
  reflexivity.
Qed.

Lemma alias_targets : forallb (fun p => match opcode_index (snd p) with Some _ => true | None => false end)
                        gen_aliases = true.
Proof. vm_compute. reflexivity. Qed.

Theorem every_alias_spells : forall a t, In (a, t) gen_aliases -> exists o, t = opcode_name o /\ spell_name Top o a.
Proof.
  intros a t I. pose proof (proj1 (forallb_forall _ _) alias_targets _ I) as K. cbn [snd] in K.
  destruct (opcode_index t) as [k|] eqn:E; [|discriminate K].
  unfold opcode_index in E. rewrite <- opcode_names_match in E.
  assert (X : exists o, t = opcode_name o).
  { clear -E. revert k E. generalize all_opcodes. induction l as [|o l IH]; intros k E; [discriminate E|].
    cbn [map index_of] in E. destruct (String.eqb (opcode_name o) t) eqn:Q.
    - apply String.eqb_eq in Q. eauto.
    - destruct (index_of t (map opcode_name l)) eqn:E2; [|discriminate E]. eapply IH. reflexivity. }
  destruct X as (o & ->). exists o. split; [reflexivity|]. right. exact I.
Qed.

(* Behaviours of the compiler that look like defects, as computations of the model; every source
   below was run through the real compiler (parsing.compile_script) with the same outcome (see also
   the self-tests at the end of model/Assembler.v). *)

Definition asm (syms : list string) : res bytes := assemble_r fl2_exact ct0 syms.
Definition enc (p : list instr) : res bytes := Ok (encode p).

(* A1, A2 (oddity O1; D20 of DESIGN.md section 7).  _check_push_size compares the size operand of
   "OP_PUSH1 size value" / "OP_PUSH2 size value" with the length of the value: "push1 d99 x0102 true"
   and "push1 x0102 x0304 true" (where the second symbol does not look like a name, so the first is
   taken for a size) are rejected, as is every size form that does not denote the length of the value
   ([reject_push1_size], [reject_push2_size] with [sp_size_mismatch]); the sizes that do are accepted.
   Without the check the first assembles to 03 02 0102 01 and the second to 03 02 0304 01, the first
   value dropped. *)
Theorem fixed_push1_size_checked :
  asm ["PUSH1"; "d99"; "x0102"; "TRUE"] = Err /\
  asm ["PUSH2"; "d99"; "x0102"; "TRUE"] = Err /\
  asm ["PUSH1"; "x0102"; "x0304"; "TRUE"] = Err /\
  asm ["PUSH1"; "x2"; "x0102"; "TRUE"] = Err /\
  asm ["PUSH1"; "d2.0"; "x0102"; "TRUE"] = Err /\
  asm ["PUSH1"; "x"; "x"; "TRUE"] = Err /\
  asm ["PUSH1"; "d2"; "x0102"; "TRUE"] = enc [IVar1 O_PUSH1 [x01; x02]; IOp0 O_TRUE] /\
  asm ["PUSH1"; "D+2"; "x0102"; "TRUE"] = enc [IVar1 O_PUSH1 [x01; x02]; IOp0 O_TRUE] /\
  asm ["PUSH1"; "d0"; "x"; "TRUE"] = enc [IVar1 O_PUSH1 []; IOp0 O_TRUE] /\
  asm ["PUSH2"; "x0002"; "x0102"; "TRUE"] = enc [IPush2 [x01; x02]; IOp0 O_TRUE].
Proof. repeat split; vm_compute; reflexivity. Qed.

(* A3 (O1).  the one-operand form "push1 value" is rejected at the end of the source and before
   END_LOOP, EXCEPT, END_EXCEPT, TRY, PUSH, @k, a comment -- which are not in the list that the
   lookahead consults -- while it is accepted before a closing brace, END_IF, an opcode name *)
Theorem finding_push1_lookahead :
  asm ["PUSH1"; "x0102"] = Err /\
  asm ["LOOP"; "PUSH1"; "x01"; "END_LOOP"] = Err /\
  asm ["LOOP"; "{"; "PUSH1"; "x01"; "}"] = enc [ILoop [IVar1 O_PUSH1 [x01]]] /\
  asm ["TRY"; "PUSH1"; "x01"; "EXCEPT"; "TRUE"; "END_EXCEPT"] = Err /\
  asm ["PUSH1"; "x01"; "TRY"; "{"; "TRUE"; "}"] = Err /\
  asm ["PUSH1"; "x01"; "PUSH"; "x02"] = Err /\
  asm ["PUSH1"; "x01"; "@k"] = Err /\
  asm ["PUSH1"; "x01"; "#"; "C"; "#"] = Err /\
  asm ["PUSH1"; "x01"; "TRUE"] = enc [IVar1 O_PUSH1 [x01]; IOp0 O_TRUE].
Proof. repeat split; vm_compute; reflexivity. Qed.

(* A4 (O2; D21 of DESIGN.md section 7).  parse_def resolves an alias directly inside a DEF body
   through the alias table as everywhere else; prefixing 'OP_' instead turns OP_RCZ into OP_OP_RCZ
   and rejects "def 0 { op_rcz x01 }". *)
Theorem fixed_def_alias :
  asm ["DEF"; "0"; "{"; "OP_RCZ"; "x01"; "}"] = enc [IDef x00 [IVar1 O_READ_CACHE_SIZE [x01]]] /\
  asm ["DEF"; "0"; "{"; "RCZ"; "x01"; "}"] = enc [IDef x00 [IVar1 O_READ_CACHE_SIZE [x01]]] /\
  asm ["DEF"; "0"; "{"; "ADD"; "d2"; "}"] = enc [IDef x00 [IOp1 O_ADD_INTS x02]] /\
  asm ["OP_RCZ"; "x01"] = enc [IVar1 O_READ_CACHE_SIZE [x01]] /\
  asm ["DEF"; "0"; "{"; "DEF"; "1"; "{"; "TRUE"; "}"; "}"] = Err.
Proof. repeat split; vm_compute; reflexivity. Qed.

(* the names accepted directly in a DEF body are those accepted everywhere *)
Theorem spell_name_any_context : forall c c' o s, spell_name c o s <-> spell_name c' o s.
Proof. intros. unfold spell_name. tauto. Qed.

(* A5 (O4).  "try true end_try": END_TRY is announced by parse_try's own check (and error message)
   but never handled *)
Theorem finding_end_try :
  asm ["TRY"; "TRUE"; "END_TRY"] = Err /\
  asm ["TRY"; "{"; "TRUE"; "}"] = enc [ITry [IOp0 O_TRUE] []].
Proof. split; vm_compute; reflexivity. Qed.

(* A6 (O3).  unbalanced or mismatched block terminators are accepted: "if { if { true }" (one brace
   missing), "loop { if { true end_if }" (END_IF closes a brace block) *)
Theorem finding_unbalanced_accepted :
  asm ["IF"; "{"; "IF"; "{"; "TRUE"; "}"] = enc [IIf [IIf [IOp0 O_TRUE]]] /\
  asm ["LOOP"; "{"; "IF"; "{"; "TRUE"; "END_IF"; "}"] = enc [ILoop [IIf [IOp0 O_TRUE]]].
Proof. split; vm_compute; reflexivity. Qed.

(* A7.  OP_DEF inside an OP_DEF body is refused only at the first level: "def 0 { def 1 { true } }"
   is rejected, "def 0 { if { def 1 { true } } }" is accepted; and the decompiler's listing of byte
   code with a DEF directly in a DEF body cannot be compiled again, so the premise [ldef_ok] of
   [assemble_listing] is necessary *)
Theorem finding_def_in_def :
  asm ["DEF"; "0"; "{"; "DEF"; "1"; "{"; "TRUE"; "}"; "}"] = Err /\
  asm ["DEF"; "0"; "{"; "IF"; "{"; "DEF"; "1"; "{"; "TRUE"; "}"; "}"; "}"]
    = enc [IDef x00 [IIf [IDef x01 [IOp0 O_TRUE]]]].
Proof. split; vm_compute; reflexivity. Qed.

Theorem assemble_listing_needs_ldef_ok :
  exists p, wf_prog p = true /\ decode (encode p) = Some p /\
            assemble fl2_exact ct0 (tokens_of (print fl2_exact 0 p)) = None /\
            parse_listing fl2_exact (tokens_of (print fl2_exact 0 p)) = Some p.
Proof. exists [IDef x00 [IDef x01 [IOp0 O_TRUE]]]. repeat split; vm_compute; reflexivity. Qed.

(* A8.  an ELSE after a brace block always belongs to that block: in
   "if if { true } else false end_if" the inner IF takes the ELSE and the END_IF, and the outer IF
   just ends with the source *)
Theorem finding_dangling_else :
  asm ["IF"; "IF"; "{"; "TRUE"; "}"; "ELSE"; "FALSE"; "END_IF"]
    = enc [IIf [IIfElse [IOp0 O_TRUE] [IOp0 O_FALSE]]].
Proof. vm_compute. reflexivity. Qed.

(* The relation is inhabited:  if ( true ) { push d1 } else { push x0102 } @= k 1 @k *)

Lemma assoc_In : forall a t l, assoc a l = Some t -> In (a, t) l.
Proof.
  induction l as [|[k v] l IH]; intros H; [discriminate H|]. cbn [assoc] in H.
  destruct (String.eqb k a) eqn:E.
  - apply String.eqb_eq in E. injection H as ->. subst. left. reflexivity.
  - right. apply IH. exact H.
Qed.
Lemma alias_name : forall c a o, alias_of a = Some (opcode_name o) -> spell_name c o a.
Proof. intros c a o H. right. apply assoc_In; exact H. Qed.

Definition example_prog : list instr :=
  [IOp0 O_TRUE; IIfElse [IOp1 O_PUSH0 x01] [IVar1 O_PUSH1 [x01; x02]];
   IWriteCache (str "k") x01; IVar1 O_READ_CACHE (str "k")].
Definition example_syms : list string :=
  ["IF"; "("; "TRUE"; ")"; "{"; "PUSH"; "d1"; "}"; "ELSE"; "{"; "PUSH"; "x0102"; "}"; "@="; "k"; "1"; "@k"].

Lemma example_if : forall nx, stmt fl2_exact Top nx
  [IOp0 O_TRUE; IIfElse [IOp1 O_PUSH0 x01] [IVar1 O_PUSH1 [x01; x02]]]
  ["IF"; "("; "TRUE"; ")"; "{"; "PUSH"; "d1"; "}"; "ELSE"; "{"; "PUSH"; "x0102"; "}"].
Proof.
  intros nx.
  apply (st_ifh fl2_exact Top _ "IF" [IOp0 O_TRUE] ["TRUE"] (IIfElse [IOp1 O_PUSH0 x01] [IVar1 O_PUSH1 [x01; x02]])
           (braces ["PUSH"; "d1"] ++ "ELSE" :: braces ["PUSH"; "x0102"])).
  - apply alias_name; reflexivity.
  - apply (sq_cons fl2_exact _ None [IOp0 O_TRUE] ["TRUE"] [] []); [|apply sq_nil].
    apply st_op0; [apply alias_name; reflexivity|reflexivity].
  - apply ite_bb.
    + apply (sq_cons fl2_exact _ _ [IOp1 O_PUSH0 x01] ["PUSH"; "d1"] [] []); [|apply sq_nil].
      apply (st_pushp fl2_exact _ _ "PUSH" [x01] "d1"); [left; reflexivity| |reflexivity].
      apply (sp_d fl2_exact _ "d" "1" 1); [left; reflexivity| |reflexivity].
      apply (num_dec 1). discriminate.
    + apply (sq_cons fl2_exact _ _ [IVar1 O_PUSH1 [x01; x02]] ["PUSH"; "x0102"] [] []); [|apply sq_nil].
      apply (st_pushp fl2_exact _ _ "PUSH" [x01; x02] "x0102"); [left; reflexivity| |reflexivity].
      apply sp_x; [left; reflexivity|reflexivity].
Qed.

Example example_spells : spells fl2_exact example_prog example_syms.
Proof.
  unfold spells, example_prog, example_syms.
  apply (sq_cons fl2_exact Top None [IOp0 O_TRUE; IIfElse [IOp1 O_PUSH0 x01] [IVar1 O_PUSH1 [x01; x02]]]
           ["IF"; "("; "TRUE"; ")"; "{"; "PUSH"; "d1"; "}"; "ELSE"; "{"; "PUSH"; "x0102"; "}"]
           [IWriteCache (str "k") x01; IVar1 O_READ_CACHE (str "k")] ["@="; "k"; "1"; "@k"]).
  - apply example_if.
  - apply (sq_cons fl2_exact Top None [IWriteCache (str "k") x01] ["@="; "k"; "1"] [IVar1 O_READ_CACHE (str "k")] ["@k"]).
    + apply st_setvar; [reflexivity|]. apply (num_dec 1). discriminate.
    + apply (sq_cons fl2_exact Top None [IVar1 O_READ_CACHE (str "k")] ["@k"] [] []); [|apply sq_nil].
      apply st_loadvar. reflexivity.
Qed.

Example example_assembles : assemble fl2_exact ct0 example_syms = Some (encode example_prog).
Proof. apply assemble_spells; [apply example_spells|reflexivity]. Qed.

(* != name [ args ] { template } *)
Definition defsyms (name : string) (args tmpl : list string) : list string :=
  "!=" :: name :: "[" :: args ++ "]" :: "{" :: tmpl ++ ["}"].
Definition def_ok (name : string) (args tmpl : list string) : Prop :=
  is_ascii_s name = true /\ isalnum (lower_s name) = true /\
  Forall (fun a => isalnum a = true) args /\ (forall k, scan "{" "}" tmpl k = Some k) /\
  existsb unmodelled_symbol tmpl = false.
Definition mac_of (args tmpl : list string) : macro := {| m_args := args; m_template := tmpl |}.

Definition alnum_not := str_sep isalnum.
Definition lower_alnum_not := str_sep (fun s => isalnum (lower_s s)).

Lemma scan_neutral : forall op cl l, Forall (fun a => String.eqb a cl = false /\ String.eqb a op = false) l ->
  forall k, scan op cl l k = Some k.
Proof.
  induction 1 as [|a l [A B] F IH]; intros k; [reflexivity|]. cbn [scan]. rewrite A, B. apply IH.
Qed.
Lemma alnum_scan : forall op cl l, isalnum op = false -> isalnum cl = false ->
  Forall (fun a => isalnum a = true) l -> forall k, scan op cl l k = Some k.
Proof.
  intros op cl l O C F. apply scan_neutral. revert F. apply Forall_impl. intros a A.
  split; apply alnum_not; assumption.
Qed.
Lemma all_alnum_ok : forall l, Forall (fun a => isalnum a = true) l -> all_alnum_r l = Ok tt.
Proof.
  induction 1 as [|a l A F IH]; [reflexivity|]. cbn [all_alnum_r]. unfold alnum_r.
  rewrite (isalnum_ascii a A), A. cbn [negb rbind]. exact IH.
Qed.
Lemma alnum_unmodelled : forall l, Forall (fun a => isalnum a = true) l -> existsb unmodelled_symbol l = false.
Proof.
  induction 1 as [|a l A F IH]; [reflexivity|]. cbn [existsb]. rewrite IH, orb_false_r.
  unfold unmodelled_symbol. rewrite (isalnum_ascii a A). reflexivity.
Qed.

Lemma nth_error_mid : forall (A : Type) (a : list A) x b, nth_error (a ++ x :: b) (List.length a) = Some x.
Proof. induction a; intros; [reflexivity|]. cbn [app List.length nth_error]. apply IHa. Qed.
Lemma firstn_skipn_mid : forall (A : Type) (a b c : list A),
  firstn (List.length b) (skipn (List.length a) (a ++ b ++ c)) = b.
Proof. intros. rewrite skipn_len_app by reflexivity. apply firstn_len_app. reflexivity. Qed.

Lemma skipn_app_plus : forall (A : Type) (a b : list A) k, skipn (List.length a + k) (a ++ b) = skipn k b.
Proof. induction a; intros; [reflexivity|]. cbn [List.length plus app skipn]. apply IHa. Qed.

Lemma define_macro_ok : forall name args tmpl rest, def_ok name args tmpl ->
  define_macro (defsyms name args tmpl ++ rest) =
  Ok (List.length (defsyms name args tmpl), lower_s name, mac_of args tmpl).
Proof.
  intros name args tmpl rest (A & N & FA & B & _). unfold defsyms. cbn [app]. unfold define_macro.
  assert (An : is_ascii_s (lower_s name) = true) by (apply isalnum_ascii; exact N).
  unfold alnum_r at 1. rewrite An, N. cbn [negb rbind]. change (String.eqb "[" "[") with true. cbv iota.
  assert (N1 : String.eqb name "]" = false) by (apply lower_alnum_not; [exact N|reflexivity]).
  assert (N2 : String.eqb name "[" = false) by (apply lower_alnum_not; [exact N|reflexivity]).
  assert (N3 : String.eqb name "}" = false) by (apply lower_alnum_not; [exact N|reflexivity]).
  assert (N4 : String.eqb name "{" = false) by (apply lower_alnum_not; [exact N|reflexivity]).
  (* the closing bracket *)
  assert (F1 : find_matching_brace ("!=" :: name :: "[" :: (args ++ "]" :: "{" :: tmpl ++ ["}"]) ++ rest) "[" "]"
               = Some (3 + List.length args)%nat).
  { unfold find_matching_brace. cbn [fmb_go String.eqb Ascii.eqb Bool.eqb]. rewrite N1, N2.
    cbn [String.eqb Ascii.eqb Bool.eqb]. rewrite <- app_assoc. cbn [app].
    apply (fmb_balanced "[" "]" args). apply alnum_scan; [reflexivity|reflexivity|exact FA]. }
  rewrite F1. cbn [of_opt rbind].
  replace (3 + List.length args - 3)%nat with (List.length args) by lia.
  cbn [skipn]. rewrite <- app_assoc. cbn [app].
  rewrite firstn_len_app by reflexivity. rewrite (all_alnum_ok args FA). cbn [rbind].
  assert (E2 : nth_error ("!=" :: name :: "[" :: args ++ "]" :: "{" :: (tmpl ++ ["}"]) ++ rest)
                 (Datatypes.S (3 + List.length args)) = Some "{").
  { replace (Datatypes.S (3 + List.length args)) with (3 + List.length (args ++ ["]"]))%nat
      by (rewrite app_length; cbn [List.length]; lia).
    change (args ++ "]" :: "{" :: (tmpl ++ ["}"]) ++ rest)
      with (args ++ ["]"] ++ "{" :: (tmpl ++ ["}"]) ++ rest). rewrite app_assoc.
    cbn [plus nth_error]. apply nth_error_mid. }
  rewrite E2. change (String.eqb "{" "{") with true. cbv iota.
  assert (F2 : find_matching_brace ("!=" :: name :: "[" :: args ++ "]" :: "{" :: (tmpl ++ ["}"]) ++ rest) "{" "}"
               = Some (5 + List.length args + List.length tmpl)%nat).
  { unfold find_matching_brace. cbn [fmb_go String.eqb Ascii.eqb Bool.eqb]. rewrite N3, N4.
    cbn [String.eqb Ascii.eqb Bool.eqb].
    assert (G : forall l o c i r, Forall (fun a => isalnum a = true) l ->
                fmb_go "{" "}" o c i (l ++ r) = fmb_go "{" "}" o c (i + List.length l) r).
    { induction l as [|a l IH]; intros o c i r F; [rewrite Nat.add_0_r; reflexivity|].
      inversion F as [|a' l' Ha Fl]; subst. cbn [app fmb_go List.length].
      rewrite (alnum_not a "}" Ha eq_refl), (alnum_not a "{" Ha eq_refl). rewrite IH by exact Fl. f_equal. lia. }
    rewrite (G args 0 0 3 _ FA)%nat. cbn [fmb_go String.eqb Ascii.eqb Bool.eqb].
    rewrite <- app_assoc. cbn [app].
    rewrite (fmb_balanced "{" "}" tmpl rest _ B). f_equal; lia. }
  rewrite F2. cbn [of_opt rbind]. f_equal. f_equal.
  - f_equal. cbn [List.length]. rewrite app_length. cbn [List.length]. rewrite app_length. cbn [List.length]. lia.
  - unfold mac_of. f_equal.
    replace (5 + List.length args + List.length tmpl - (3 + List.length args + 2))%nat with (List.length tmpl) by lia.
    replace (3 + List.length args + 2)%nat with (3 + (List.length args + 2))%nat by lia.
    cbn [plus skipn]. rewrite skipn_app_plus. cbn [skipn]. rewrite <- app_assoc. apply firstn_len_app. reflexivity.
Qed.

Definition def3 : Type := (string * list string * list string)%type.
Definition def3_ok (d : def3) : Prop := let '(n, a, t) := d in def_ok n a t.
Definition defs_syms (ds : list def3) : list string := flat_map (fun '(n, a, t) => defsyms n a t) ds.
(* the macro table after the definitions (newest first) *)
Fixpoint table_of (ds : list def3) (m : macros) : macros :=
  match ds with
  | [] => m
  | (n, a, t) :: r => table_of r ((lower_s n, mac_of a t) :: m)
  end.

Section MacroTheorems.
  Variable fl2 : Z -> Z.
  Variable ct : bytes -> res (option bytes).
  Variable asm : macros -> list string -> res (macros * bytes).

  Lemma comptime_pass : forall s1, existsb bad_symbol s1 = false -> forall n m rest,
    comptime ct asm (List.length s1 + n) m (s1 ++ rest) =
    rbind (comptime ct asm n m rest) (fun '(m', new) => Ok (m', s1 ++ new)).
  Proof.
    induction s1 as [|s s1 IH]; intros B n m rest.
    - cbn [List.length plus app]. destruct (comptime ct asm n m rest) as [[m' new]| |]; reflexivity.
    - cbn [existsb] in B. apply orb_false_elim in B as [B1 B2].
      destruct (bad_symbol_spec s B1) as (E1 & E2 & E3 & _).
      cbn [List.length plus app comptime]. rewrite E1, E2, E3. cbn [orb]. rewrite (IH B2 n m rest).
      destruct (comptime ct asm n m rest) as [[m' new]| |]; reflexivity.
  Qed.

  Lemma comptime_def : forall n m name args tmpl rest, def_ok name args tmpl ->
    comptime ct asm (Datatypes.S n) m (defsyms name args tmpl ++ rest) =
    comptime ct asm n ((lower_s name, mac_of args tmpl) :: m) rest.
  Proof.
    intros n m name args tmpl rest D.
    pose proof (define_macro_ok name args tmpl rest D) as E. unfold defsyms in *. cbn [app] in *.
    cbn [comptime]. change (String.eqb "!=" "!=") with true. cbv iota. rewrite E. cbn [rbind].
    change ("!=" :: name :: "[" :: (args ++ "]" :: "{" :: tmpl ++ ["}"]) ++ rest)
      with (("!=" :: name :: "[" :: args ++ "]" :: "{" :: tmpl ++ ["}"]) ++ rest).
    rewrite skipn_len_app by reflexivity. reflexivity.
  Qed.

  Lemma comptime_defs : forall ds, Forall def3_ok ds -> forall n m rest,
    comptime ct asm (List.length ds + n) m (defs_syms ds ++ rest) = comptime ct asm n (table_of ds m) rest.
  Proof.
    induction 1 as [|[[nm a] t] ds D F IH]; intros n m rest; [reflexivity|].
    unfold defs_syms. cbn [flat_map List.length plus table_of]. rewrite <- app_assoc.
    rewrite (comptime_def _ m nm a t _ D). apply IH.
  Qed.
End MacroTheorems.

Lemma def_unmodelled : forall name args tmpl, def_ok name args tmpl ->
  existsb unmodelled_symbol (defsyms name args tmpl) = false.
Proof.
  intros name args tmpl (A & _ & FA & _ & U). unfold defsyms. cbn [existsb].
  rewrite existsb_app. cbn [existsb]. rewrite existsb_app. cbn [existsb].
  rewrite (alnum_unmodelled args FA), U. unfold unmodelled_symbol at 2. rewrite A. reflexivity.
Qed.
Lemma defs_unmodelled : forall ds, Forall def3_ok ds -> existsb unmodelled_symbol (defs_syms ds) = false.
Proof.
  induction 1 as [|[[nm a] t] ds D F IH]; [reflexivity|]. unfold defs_syms. cbn [flat_map].
  rewrite existsb_app, (def_unmodelled nm a t D). exact IH.
Qed.
Lemma defs_length : forall ds, (List.length ds <= List.length (defs_syms ds))%nat.
Proof.
  induction ds as [|[[nm a] t] ds IH]; [apply le_n|]. unfold defs_syms in *. cbn [flat_map List.length].
  rewrite app_length. unfold defsyms at 1. cbn [List.length]. lia.
Qed.

Theorem definitions_emit_no_code : forall fl2 ct ds, Forall def3_ok ds -> assemble_r fl2 ct (defs_syms ds) = Ok [].
Proof.
  intros fl2 ct ds F. rewrite (assemble_r_comptime fl2 ct _ (defs_unmodelled ds F)).
  set (L := List.length (defs_syms ds)). pose proof (defs_length ds) as Ld. fold L in Ld.
  assert (E : forall a, comptime ct a L [] (defs_syms ds) = Ok (table_of ds [], [])).
  { intros a. replace L with (List.length ds + (L - List.length ds))%nat by lia.
    rewrite <- (app_nil_r (defs_syms ds)). rewrite (comptime_defs _ _ ds F).
    destruct (L - List.length ds)%nat; reflexivity. }
  rewrite E. reflexivity.
Qed.

(* adding an unused definition anywhere at top level does not change the result *)
Theorem unused_definition : forall fl2 ct p s1 s2 name args tmpl,
  spells fl2 p (s1 ++ s2) -> wf_prog p = true -> def_ok name args tmpl ->
  assemble_r fl2 ct (s1 ++ defsyms name args tmpl ++ s2) = Ok (encode p) /\
  assemble_r fl2 ct (s1 ++ s2) = Ok (encode p).
Proof.
  intros fl2 ct p s1 s2 name args tmpl S W D. split; [|apply assemble_r_spells; assumption].
  destruct (good_seq fl2 _ _ _ _ S W) as (_ & _ & U & _).
  rewrite existsb_app in U. apply orb_false_elim in U as [U1 U2].
  rewrite assemble_r_comptime
    by (rewrite existsb_app, (bad_unmodelled s1 U1), existsb_app, (def_unmodelled _ _ _ D), (bad_unmodelled s2 U2); reflexivity).
  set (L := List.length (s1 ++ defsyms name args tmpl ++ s2)).
  assert (EL : L = (List.length s1 + Datatypes.S (List.length args + List.length tmpl + 5 + List.length s2))%nat).
  { unfold L, defsyms. rewrite app_length. cbn [app List.length]. rewrite !app_length. cbn [List.length].
    rewrite !app_length. cbn [List.length]. lia. }
  assert (E : forall a, comptime ct a L [] (s1 ++ defsyms name args tmpl ++ s2) =
                        Ok ([(lower_s name, mac_of args tmpl)], s1 ++ s2)).
  { intros a. rewrite EL. rewrite (comptime_pass _ _ s1 U1). rewrite (comptime_def _ _ _ _ name args tmpl s2 D).
    rewrite comptime_id by (try exact U2; lia). reflexivity. }
  rewrite E. cbn [rbind]. apply (spells_loop fl2 ct p (s1 ++ s2) S W); rewrite ?app_length in *; lia.
Qed.

Lemma skipn_block : forall (A : Type) (a b x : A) l post,
  skipn (Datatypes.S (2 + List.length l)) (a :: b :: l ++ x :: post) = post.
Proof.
  intros. replace (Datatypes.S (2 + List.length l)) with (List.length (a :: b :: l ++ [x]))
    by (cbn [List.length]; rewrite app_length; cbn [List.length]; lia).
  change (a :: b :: l ++ x :: post) with (a :: b :: l ++ [x] ++ post).
  rewrite app_assoc. change (a :: b :: (l ++ [x]) ++ post) with ((a :: b :: l ++ [x]) ++ post).
  apply skipn_len_app. reflexivity.
Qed.

(* the symbol that opens a block (rt: run-time), and the value it stands for: its code, or what the
   run of its code leaves on the stack (through the parameter ct) *)
Definition bsym (rt : bool) : string := if rt then "~!" else "~".
Definition bval (ct : bytes -> res (option bytes)) (rt : bool) (code : bytes) : res (option bytes) :=
  if rt then ct code else Ok (Some code).

Lemma comptime_core : forall fl2 ct rt pS S pre post F n,
  spells fl2 pS S -> wf_prog pS = true -> existsb bad_symbol pre = false -> (List.length S <= F)%nat ->
  comptime ct (asm_fuel fl2 ct (Datatypes.S F)) (List.length pre + Datatypes.S n) []
    (pre ++ bsym rt :: "{" :: S ++ "}" :: post) =
  rbind (bval ct rt (encode pS)) (fun top =>
  rbind (comptime ct (asm_fuel fl2 ct (Datatypes.S F)) n [] post) (fun '(m2, new) =>
    Ok (m2, pre ++ match top with Some v => tok_x v :: new | None => new end))).
Proof.
  intros fl2 ct rt pS S pre post F n SS WS U1 LF.
  destruct (good_seq fl2 _ _ _ _ SS WS) as (BS & _ & US & _).
  rewrite (comptime_pass _ _ pre U1).
  assert (Fm : find_matching_brace (bsym rt :: "{" :: S ++ "}" :: post) "{" "}" = Some (2 + List.length S)%nat).
  { unfold find_matching_brace. destruct rt; cbn [bsym fmb_go String.eqb Ascii.eqb Bool.eqb];
      apply (fmb_balanced "{" "}" S post 2 BS). }
  destruct rt; cbn [bsym bval comptime String.eqb Ascii.eqb Bool.eqb orb] in *; rewrite Fm; cbn [of_opt rbind];
    replace (2 + List.length S - 2)%nat with (List.length S) by lia;
    change (skipn 2 (?b :: "{" :: S ++ "}" :: post)) with (S ++ "}" :: post);
    rewrite firstn_len_app by reflexivity; rewrite (asm_fuel_spells fl2 ct pS S SS WS) by exact LF; cbn [rbind]; rewrite skipn_block.
  - destruct (ct (encode pS)) as [[v|]| |]; cbn [rbind]; try reflexivity;
      destruct (comptime ct (asm_fuel fl2 ct (Datatypes.S F)) n [] post) as [[m2 new]| |]; reflexivity.
  - destruct (comptime ct (asm_fuel fl2 ct (Datatypes.S F)) n [] post) as [[m2 new]| |]; reflexivity.
Qed.

Lemma block_unmodelled : forall fl2 rt pS S pre post, spells fl2 pS S -> wf_prog pS = true ->
  existsb unmodelled_symbol pre = false -> existsb unmodelled_symbol post = false ->
  existsb unmodelled_symbol (pre ++ bsym rt :: "{" :: S ++ "}" :: post) = false.
Proof.
  intros fl2 rt pS S pre post SS WS U1 U2. destruct (good_seq fl2 _ _ _ _ SS WS) as (_ & _ & US & _).
  rewrite existsb_app, U1. cbn [existsb]. rewrite existsb_app, (bad_unmodelled S US). cbn [existsb].
  rewrite U2. destruct rt; reflexivity.
Qed.

Lemma block_length : forall (b : string) (S pre post : list string),
  List.length (pre ++ b :: "{" :: S ++ "}" :: post) =
  (List.length pre + Datatypes.S (List.length S + 2 + List.length post))%nat.
Proof. intros. rewrite app_length. cbn [List.length]. rewrite app_length. cbn [List.length]. lia. Qed.

(* any number of blocks: [ctsrc w a]: w is the symbol list as written, a the list after parse_comptime
   (each block replaced by the value symbol x<hex> of what it stands for, or by nothing when the run
   leaves an empty stack) *)
Section RunBlocks.
  Variable fl2 : Z -> Z.
  Variable ct : bytes -> res (option bytes).

  Inductive ctsrc : list string -> list string -> Prop :=
  | cs_plain : forall s, existsb bad_symbol s = false -> ctsrc s s
  | cs_blk : forall rt pre pS S top rest rest', existsb bad_symbol pre = false ->
      spells fl2 pS S -> wf_prog pS = true -> bval ct rt (encode pS) = Ok top -> ctsrc rest rest' ->
      ctsrc (pre ++ bsym rt :: "{" :: S ++ "}" :: rest)
            (pre ++ match top with Some v => tok_x v :: rest' | None => rest' end).

  Lemma ctsrc_app_plain : forall s w a, existsb bad_symbol s = false -> ctsrc w a -> ctsrc (s ++ w) (s ++ a).
  Proof.
    intros s w a U H. destruct H as [r Ur|rt pre pS S top rest rest' Up SS WS C R].
    - apply cs_plain. rewrite existsb_app, U, Ur. reflexivity.
    - rewrite !app_assoc. apply (cs_blk rt _ pS); try assumption. rewrite existsb_app, U, Up. reflexivity.
  Qed.

  Lemma ctsrc_facts : forall w a, ctsrc w a ->
    (List.length a <= List.length w)%nat /\ existsb unmodelled_symbol w = false /\
    forall F n, (List.length w <= F)%nat -> (List.length w <= n)%nat ->
    comptime ct (asm_fuel fl2 ct (Datatypes.S F)) n [] w = Ok ([], a).
  Proof.
    induction 1 as [s U|rt pre pS S top rest rest' U SS WS C R (IL & IU & IH)].
    - split; [apply le_n|]. split; [apply bad_unmodelled; exact U|].
      intros F n _ Ln. apply comptime_id; assumption.
    - split; [|split].
      + rewrite block_length, app_length. destruct top; cbn [List.length]; lia.
      + apply (block_unmodelled fl2 rt pS S pre rest SS WS (bad_unmodelled pre U) IU).
      + intros F n LF Ln. rewrite block_length in LF, Ln.
        replace n with (List.length pre + Datatypes.S (n - List.length pre - 1))%nat by lia.
        rewrite (comptime_core fl2 ct rt pS S pre rest _ _ SS WS U) by lia. rewrite C. cbn [rbind].
        rewrite IH by lia. reflexivity.
  Qed.

  (* what the statement loop does on the symbols after parse_comptime decides the result *)
  Theorem comptime_run_rewrite : forall w a code, ctsrc w a ->
    (forall m f n, (List.length a <= f)%nat -> (List.length a <= n)%nat ->
                   asm_loop (pn_at fl2 ct f m) n a = Ok code) ->
    assemble_r fl2 ct w = Ok code.
  Proof.
    intros w a code Cs Lp. destruct (ctsrc_facts w a Cs) as (La & U & E). rewrite (assemble_r_comptime fl2 ct w U).
    pose proof (E (2 * List.length w)%nat (List.length w) ltac:(lia) (le_n _)) as E1.
    replace (Datatypes.S (2 * List.length w)) with (2 * List.length w + 1)%nat in E1 by lia.
    rewrite E1. cbn [rbind]. apply Lp; lia.
  Qed.

  (* one block in a spelling of the program p *)
  Lemma comptime_one : forall rt pS S top p pre post,
    spells fl2 pS S -> wf_prog pS = true -> bval ct rt (encode pS) = Ok top ->
    spells fl2 p (pre ++ match top with Some v => tok_x v :: post | None => post end) -> wf_prog p = true ->
    assemble_r fl2 ct (pre ++ bsym rt :: "{" :: S ++ "}" :: post) = Ok (encode p).
  Proof.
    intros rt pS S top p pre post SS WS C SP WP.
    destruct (good_seq fl2 _ _ _ _ SP WP) as (_ & _ & UP & _).
    rewrite existsb_app in UP. apply orb_false_elim in UP as [U1 U2].
    assert (U3 : existsb bad_symbol post = false).
    { destruct top; [cbn [existsb] in U2; apply orb_false_elim in U2 as [_ U2]|]; exact U2. }
    apply (comptime_run_rewrite _ _ _ (cs_blk rt pre pS S top post post U1 SS WS C (cs_plain post U3))).
    intros m f n Lf Ln. apply (spells_loop fl2 ct p _ SP WP); assumption.
  Qed.
End RunBlocks.

(* a comptime block in an operand position is the value symbol x<hex of its code> *)
Theorem comptime_block : forall fl2 ct pS S p pre post,
  spells fl2 pS S -> wf_prog pS = true ->
  spells fl2 p (pre ++ tok_x (encode pS) :: post) -> wf_prog p = true ->
  assemble_r fl2 ct (pre ++ "~" :: "{" :: S ++ "}" :: post) = Ok (encode p).
Proof.
  intros fl2 ct pS S p pre post SS WS. exact (comptime_one fl2 ct false pS S (Some (encode pS)) p pre post SS WS eq_refl).
Qed.

(* e.g. push ~ { S } is the PUSH of the assembled bytes of S *)
Corollary push_comptime : forall fl2 ct pS S i, spells fl2 pS S -> wf_prog pS = true ->
  push_instr (encode pS) = Some i ->
  assemble_r fl2 ct ("PUSH" :: "~" :: "{" :: S ++ ["}"]) = Ok (encode1 i).
Proof.
  intros fl2 ct pS S i SS WS P. rewrite <- encode_one.
  apply (comptime_block fl2 ct pS S [i] ["PUSH"] [] SS WS).
  - apply (sq_cons fl2 Top None [i] ["PUSH"; tok_x (encode pS)] [] []); [|apply sq_nil].
    apply (st_pushp fl2 Top _ "PUSH" (encode pS) _ i); [left; reflexivity| |exact P].
    apply sp_x; [left; reflexivity|apply sp_hex_hex].
  - cbn [wf_prog forallb]. rewrite andb_true_r. apply (push_minimal _ _ P).
Qed.

(* a run-time block in an operand position is the value symbol x<hex of the top stack item> *)
Theorem comptime_run_block : forall fl2 ct pS S v p pre post,
  spells fl2 pS S -> wf_prog pS = true -> ct (encode pS) = Ok (Some v) ->
  spells fl2 p (pre ++ tok_x v :: post) -> wf_prog p = true ->
  assemble_r fl2 ct (pre ++ "~!" :: "{" :: S ++ "}" :: post) = Ok (encode p).
Proof. intros fl2 ct pS S v p pre post. exact (comptime_one fl2 ct true pS S (Some v) p pre post). Qed.

(* e.g. push ~! { S } is the PUSH of the top stack item *)
Corollary push_comptime_run : forall fl2 ct pS S v i, spells fl2 pS S -> wf_prog pS = true ->
  ct (encode pS) = Ok (Some v) -> push_instr v = Some i ->
  assemble_r fl2 ct ("PUSH" :: "~!" :: "{" :: S ++ ["}"]) = Ok (encode1 i).
Proof.
  intros fl2 ct pS S v i SS WS C P. rewrite <- encode_one.
  apply (comptime_run_block fl2 ct pS S v [i] ["PUSH"] [] SS WS C).
  - apply (sq_cons fl2 Top None [i] ["PUSH"; tok_x v] [] []); [|apply sq_nil].
    apply (st_pushp fl2 Top _ "PUSH" v _ i); [left; reflexivity| |exact P].
    apply sp_x; [left; reflexivity|apply sp_hex_hex].
  - cbn [wf_prog forallb]. rewrite andb_true_r. apply (push_minimal _ _ P).
Qed.

(* oddity C1: when the run leaves an empty stack the block contributes NO symbol (and no error) *)
Theorem comptime_run_empty : forall fl2 ct pS S p pre post,
  spells fl2 pS S -> wf_prog pS = true -> ct (encode pS) = Ok None ->
  spells fl2 p (pre ++ post) -> wf_prog p = true ->
  assemble_r fl2 ct (pre ++ "~!" :: "{" :: S ++ "}" :: post) = Ok (encode p).
Proof. intros fl2 ct pS S p pre post. exact (comptime_one fl2 ct true pS S None p pre post). Qed.

(* when the run raises, the whole assembly raises, whatever follows the block *)
Theorem comptime_run_error : forall fl2 ct pS S pre post,
  spells fl2 pS S -> wf_prog pS = true -> ct (encode pS) = Err ->
  existsb bad_symbol pre = false -> existsb unmodelled_symbol post = false ->
  assemble_r fl2 ct (pre ++ "~!" :: "{" :: S ++ "}" :: post) = Err.
Proof.
  intros fl2 ct pS S pre post SS WS C U1 U2.
  pose proof (block_unmodelled fl2 true pS S pre post SS WS (bad_unmodelled pre U1) U2) as UU. cbn [bsym] in UU.
  rewrite (assemble_r_comptime fl2 ct _ UU).
  set (L := List.length (pre ++ "~!" :: "{" :: S ++ "}" :: post)).
  pose proof (block_length "~!" S pre post) as EL. fold L in EL.
  pose proof (comptime_core fl2 ct true pS S pre post (2 * L) (List.length S + 2 + List.length post) SS WS U1 ltac:(lia)) as K.
  cbn [bsym bval] in K. rewrite C, <- EL in K. replace (Datatypes.S (2 * L)) with (2 * L + 1)%nat in K by lia.
  rewrite K. reflexivity.
Qed.

(* changing the symbol that follows a statement *)
Definition renx_ok (nx nx' : option string) : Prop :=
  nx' = nx \/ ((forall t, nx = Some t -> oplike t = false) /\ nx' <> Some "ELSE" /\ nx' <> Some "EXCEPT").

Section Renx.
  Variable fl2 : Z -> Z.
  Variable ct : bytes -> res (option bytes).

  Lemma iftail_renx : forall c nx i ts, iftail fl2 c nx i ts -> forall nx', renx_ok nx nx' -> iftail fl2 c nx' i ts.
  Proof.
    intros c nx i ts H nx' R. inversion H; subst; try (econstructor; eassumption).
    apply it_b; [assumption|]. destruct R as [->|(_ & R & _)]; assumption.
  Qed.

  Lemma stmt_renx : forall c nx is ss, stmt fl2 c nx is ss -> forall nx', renx_ok nx nx' -> stmt fl2 c nx' is ss.
  Proof.
    intros c nx is ss H nx' R. inversion H; subst; try (econstructor; eassumption).
    - (* push1, one operand *)
      destruct R as [->|(R & _)]; [apply st_push1_1; assumption|].
      rewrite (R t eq_refl) in *. discriminate.
    - destruct R as [->|(R & _)]; [apply st_push2_1; assumption|].
      rewrite (R t eq_refl) in *. discriminate.
    - apply st_if; [assumption|]. eapply iftail_renx; eassumption.
    - apply st_ifh; [assumption|assumption|]. eapply iftail_renx; eassumption.
    - apply st_try_b; [assumption|assumption|]. destruct R as [->|(_ & _ & R)]; assumption.
  Qed.

  Lemma seq_renx : forall c nx p sp, seq fl2 c nx p sp -> forall nx', renx_ok nx nx' -> seq fl2 c nx' p sp.
  Proof.
    induction 1 as [|c nx is ss p sp St _ IH]; intros nx' R; [apply sq_nil|].
    apply sq_cons; [|apply IH; exact R]. destruct sp as [|t sp']; [|exact St].
    cbn [hd_or] in *. exact (stmt_renx _ _ _ _ St nx' R).
  Qed.

  Lemma seq_app : forall c nx p1 s1, seq fl2 c nx p1 s1 -> forall nx' p2 s2, seq fl2 c nx' p2 s2 ->
    nx = hd_or nx' s2 -> seq fl2 c nx' (p1 ++ p2) (s1 ++ s2).
  Proof.
    induction 1 as [|c nx is ss p sp St _ IH]; intros nx' p2 s2 S2 E; [exact S2|].
    rewrite <- !app_assoc. apply sq_cons; [|exact (IH nx' p2 s2 S2 E)].
    destruct sp as [|t sp']; [|exact St]. cbn [hd_or app] in *. subst nx. exact St.
  Qed.
End Renx.

(* !name [ vals ] *)
Definition invocation (nm : string) (vals : list string) : list string :=
  String "!" nm :: "[" :: vals ++ ["]"].

Lemma alias_of_bang : forall k, alias_of (String "!" k) = None.
Proof. intros k. vm_compute. reflexivity. Qed.

Section MacroExpansion.
  Variable fl2 : Z -> Z.
  Variable ct : bytes -> res (option bytes).

  (* a top-level source with invocations of the macros of the table M (second list), the same
     source with every invocation textually replaced by the instantiated template (third list),
     and the program both stand for.  An invocation: the name is alphanumeric and in the table, the
     argument symbols are ordinary symbols other than brackets, as many as the macro has
     parameters; the instantiated template is left unchanged by the re-tokenisation
     (compile_script(' '.join(src))) and is a spelling of a program [pi] on its own.
     B bounds the length of the instantiated templates (for the fuel). *)
  Inductive mseq (B : nat) (M : macros) : list instr -> list string -> list string -> Prop :=
  | mq_nil : mseq B M [] [] []
  | mq_stmt : forall is ss p msp esp, stmt fl2 Top (hd_or None msp) is ss -> mseq B M p msp esp ->
      mseq B M (is ++ p) (ss ++ msp) (ss ++ esp)
  | mq_inv : forall nm vals mac pi p msp esp,
      isalnum nm = true -> macro_lookup (lower_s nm) M = Some mac ->
      List.length vals = List.length (m_args mac) ->
      Forall (fun v => leafb v = true /\ String.eqb v "[" = false /\ String.eqb v "]" = false) vals ->
      get_symbols (join_spaces (instantiate mac vals)) = Ok (instantiate mac vals) ->
      spells fl2 pi (instantiate mac vals) -> (List.length (instantiate mac vals) + 2 <= B)%nat ->
      mseq B M p msp esp ->
      mseq B M (pi ++ p) (invocation nm vals ++ msp) (instantiate mac vals ++ esp).

  Lemma bang_facts : forall nm, isalnum nm = true ->
    is_comment (String "!" nm) = false /\ canon (String "!" nm) = String "!" nm /\
    String.eqb (String "!" nm) "!=" = false /\ is_prefix "@#" (String "!" nm) = false /\
    bad_symbol (String "!" nm) = false.
  Proof.
    intros nm A. split; [reflexivity|]. split; [unfold canon; rewrite alias_of_bang; reflexivity|].
    assert (E : String.eqb nm "=" = false) by (apply alnum_not; [exact A|reflexivity]).
    split; [cbn [String.eqb Ascii.eqb Bool.eqb]; exact E|].
    split; [unfold is_prefix; cbn [prefix]; destruct (ascii_dec "@" "!") as [Q|_]; [discriminate Q|reflexivity]|].
    unfold bad_symbol, unmodelled_symbol. cbn [is_ascii_s sall]. fold (is_ascii_s nm).
    rewrite (isalnum_ascii nm A). unfold mem. cbn [existsb String.eqb Ascii.eqb Bool.eqb]. rewrite E. reflexivity.
  Qed.

  Lemma pn_invoke : forall f M nm vals mac pi msp,
    isalnum nm = true -> macro_lookup (lower_s nm) M = Some mac ->
    List.length vals = List.length (m_args mac) ->
    Forall (fun v => leafb v = true /\ String.eqb v "[" = false /\ String.eqb v "]" = false) vals ->
    get_symbols (join_spaces (instantiate mac vals)) = Ok (instantiate mac vals) ->
    spells fl2 pi (instantiate mac vals) -> wf_prog pi = true ->
    (List.length (instantiate mac vals) + 2 <= f)%nat ->
    pn_at fl2 ct f M (String "!" nm) (invocation nm vals ++ msp) =
    Ok (List.length (invocation nm vals), encode pi).
  Proof.
    intros f M nm vals mac pi msp A Lk Ln Fv G S W Lf.
    destruct f as [|[|f'']]; [lia|lia|].
    destruct (bang_facts nm A) as (C1 & C2 & C3 & C4 & _).
    rewrite (PN_S fl2 ct M). unfold parse_next. rewrite C1, C2, C3, C4.
    cbn [String.eqb Ascii.eqb Bool.eqb]. rewrite A.
    unfold invocation. cbn [app]. unfold invoke_macro. cbn [sdrop]. rewrite Lk.
    change (String.eqb "[" "[") with true. cbv iota.
    assert (F : find_matching_brace (String "!" nm :: "[" :: (vals ++ ["]"]) ++ msp) "[" "]"
                = Some (2 + List.length vals)%nat).
    { unfold find_matching_brace. cbn [fmb_go String.eqb Ascii.eqb Bool.eqb].
      rewrite <- app_assoc. cbn [app]. apply (fmb_balanced "[" "]" vals msp 2).
      apply scan_neutral. revert Fv. apply Forall_impl. intros v (_ & V1 & V2). split; assumption. }
    rewrite F. cbn [of_opt rbind].
    replace (2 + List.length vals - 2)%nat with (List.length vals) by lia.
    change (skipn 2 (String "!" nm :: "[" :: (vals ++ ["]"]) ++ msp)) with ((vals ++ ["]"]) ++ msp).
    rewrite <- app_assoc. rewrite firstn_len_app by reflexivity. rewrite Ln, Nat.eqb_refl.
    unfold COMPILE. rewrite G. cbn [rbind].
    rewrite (asm_fuel_spells fl2 ct pi _ S W) by lia. cbn [code_of rbind].
    f_equal. f_equal. cbn [List.length]. rewrite app_length. cbn [List.length]. lia.
  Qed.

  (* the macro source, turn by turn *)
  Lemma mseq_steps : forall B M p msrc esrc, mseq B M p msrc esrc -> wf_prog p = true ->
    existsb bad_symbol msrc = false /\
    forall f, (List.length msrc <= f)%nat -> (B <= f)%nat ->
    steps bytes (fun n _ => asm_loop (pn_at fl2 ct f M) n) (@app byte) always msrc [] (encode p) (List.length msrc).
  Proof.
    induction 1 as [|is ss p msp esp S T IH|nm vals mac pi p msp esp A Lk Ln Fv G S LB T IH]; intros W.
    - split; [reflexivity|]. intros f _ _. apply steps_nil.
    - rewrite wf_prog_app in W. apply andb_prop in W as [W1 W2].
      destruct (IH W2) as [U2 R2]. split.
      + destruct (good_stmt fl2 _ _ _ _ S W1) as (_ & _ & U1 & _). rewrite existsb_app, U1, U2. reflexivity.
      + intros f Lf LBf. rewrite app_length in *. rewrite encode_app. apply steps_cons; [|apply R2; lia].
        apply (stmt_turn fl2 ct M f _ _ _ Top _ _ _ _ (asm_hands_over _) ltac:(discriminate) S W1); [lia|].
        destruct msp; reflexivity.
    - rewrite wf_prog_app in W. apply andb_prop in W as [W1 W2].
      destruct (IH W2) as [U2 R2]. split.
      + unfold invocation. cbn [app existsb]. destruct (bang_facts nm A) as (_ & _ & _ & _ & Cb).
        rewrite Cb. rewrite <- app_assoc, existsb_app. cbn [app existsb]. rewrite U2.
        assert (Uv : existsb bad_symbol vals = false).
        { clear -Fv. induction Fv as [|v vals (Lv & _) _ IHv]; [reflexivity|]. cbn [existsb].
          destruct (leafb_spec v Lv) as (Bv & _). rewrite Bv, IHv. reflexivity. }
        rewrite Uv. reflexivity.
      + intros f Lf LBf. rewrite app_length in *. rewrite encode_app. apply steps_cons; [|apply R2; lia].
        apply (pn_turn (asm_hands_over _)); [reflexivity|]. apply (pn_invoke f M nm vals mac pi msp); try assumption. lia.
  Qed.

  (* the expanded source is a spelling of the same program *)
  Lemma stmt_head : forall c nx is ss, stmt fl2 c nx is ss -> wf_prog is = true ->
    exists h t, ss = h :: t /\ headb h = true.
  Proof.
    intros c nx is ss S W.
    destruct (proj1 (spells_correct fl2 ct []) _ _ _ _ S W (List.length ss)
                (match nx with Some t => [t] | None => [] end) (le_n _) ltac:(destruct nx; reflexivity))
      as (h & t & E & [Hh _] & _).
    eauto.
  Qed.
  Lemma seq_head : forall c nx p sp, seq fl2 c nx p sp -> wf_prog p = true ->
    sp = [] \/ exists h t, sp = h :: t /\ headb h = true.
  Proof.
    intros c nx p sp S W. inversion S as [|c' nx' is ss p' sp' St Sq]; subst; [left; reflexivity|right].
    rewrite wf_prog_app in W. apply andb_prop in W as [W1 _].
    destruct (stmt_head _ _ _ _ St W1) as (h & t & -> & Hh). exists h, (t ++ sp'). split; [reflexivity|exact Hh].
  Qed.
  Lemma headb_not_else : forall h, headb h = true -> Some h <> Some "ELSE" /\ Some h <> Some "EXCEPT".
  Proof.
    intros h H. destruct (headb_spec h H) as (_ & M & _).
    split; intros Q; injection Q as ->; discriminate M.
  Qed.

  Lemma mseq_expanded : forall B M p msrc esrc, mseq B M p msrc esrc -> wf_prog p = true ->
    seq fl2 Top None p esrc /\ nxok (hd_or None esrc) /\
    renx_ok (hd_or None msrc) (hd_or None esrc).
  Proof.
    induction 1 as [|is ss p msp esp S T IH|nm vals mac pi p msp esp A Lk Ln Fv G S LB T IH]; intros W.
    - split; [apply sq_nil|]. split; [split; discriminate|left; reflexivity].
    - rewrite wf_prog_app in W. apply andb_prop in W as [W1 W2].
      destruct (IH W2) as (Sq & Nn & Rn). destruct (stmt_head _ _ _ _ S W1) as (h & t & -> & Hh).
      split; [|split].
      + apply sq_cons; [|exact Sq]. eapply stmt_renx; [exact S|exact Rn].
      + cbn [app hd_or]. apply headb_not_else. exact Hh.
      + left. reflexivity.
    - rewrite wf_prog_app in W. apply andb_prop in W as [W1 W2].
      destruct (IH W2) as (Sq & Nn & Rn).
      assert (Sq1 : seq fl2 Top (hd_or None esp) pi (instantiate mac vals)).
      { apply (seq_renx fl2 Top None _ _ S). right. split; [intros t Q; discriminate Q|exact Nn]. }
      split; [|split].
      + apply (seq_app fl2 Top _ _ _ Sq1 None p esp Sq). reflexivity.
      + destruct (seq_head _ _ _ _ S W1) as [E|(h & t & E & Hh)]; rewrite E; cbn [app hd_or].
        * exact Nn.
        * apply headb_not_else. exact Hh.
      + right. unfold invocation. cbn [app hd_or]. split; [|].
        * intros t Q. injection Q as <-. vm_compute. reflexivity.
        * destruct (seq_head _ _ _ _ S W1) as [E|(h & t & E & Hh)]; rewrite E; cbn [app hd_or].
          -- exact Nn.
          -- apply headb_not_else. exact Hh.
  Qed.

  (* a macro defined once and invoked k times: the source assembles to the same bytes as the
     source with each invocation textually replaced by the instantiated template *)
  Theorem macro_expansion : forall name args tmpl p msrc esrc,
    def_ok name args tmpl ->
    mseq (List.length tmpl + 2) [(lower_s name, mac_of args tmpl)] p msrc esrc -> wf_prog p = true ->
    assemble_r fl2 ct (defsyms name args tmpl ++ msrc) = Ok (encode p) /\
    assemble_r fl2 ct esrc = Ok (encode p).
  Proof.
    intros name args tmpl p msrc esrc D Mq W.
    destruct (mseq_steps _ _ _ _ _ Mq W) as [U R]. destruct (mseq_expanded _ _ _ _ _ Mq W) as (Sq & _).
    split; [|apply assemble_r_spells; assumption].
    rewrite assemble_r_comptime by (rewrite existsb_app, (def_unmodelled _ _ _ D), (bad_unmodelled msrc U); reflexivity).
    set (L := List.length (defsyms name args tmpl ++ msrc)).
    assert (EL : L = (Datatypes.S (List.length args + List.length tmpl + 5 + List.length msrc))%nat).
    { unfold L, defsyms. cbn [app List.length]. rewrite !app_length. cbn [List.length].
      rewrite !app_length. cbn [List.length]. lia. }
    assert (E : forall a, comptime ct a L [] (defsyms name args tmpl ++ msrc) =
                          Ok ([(lower_s name, mac_of args tmpl)], msrc)).
    { intros a. rewrite EL. rewrite (comptime_def _ a _ _ name args tmpl msrc D).
      rewrite comptime_id by (try exact U; lia). reflexivity. }
    rewrite E. cbn [rbind]. apply (asm_steps_end (R (2 * L + 1)%nat ltac:(lia) ltac:(lia))). apply le_n.
  Qed.
End MacroExpansion.

(* the relation is inhabited:  != m [ a ] { push a } !m [ d1 ] !m [ x0102 ] true
   (symbols as get_symbols gives them) against  push d1 push x0102 true *)
Example macro_expansion_example :
  assemble_r fl2_exact ct0 (defsyms "m" ["A"] ["PUSH"; "A"] ++ invocation "m" ["d1"] ++ invocation "m" ["x0102"] ++ ["TRUE"])
    = Ok (encode [IOp1 O_PUSH0 x01; IVar1 O_PUSH1 [x01; x02]; IOp0 O_TRUE]) /\
  assemble_r fl2_exact ct0 ["PUSH"; "d1"; "PUSH"; "x0102"; "TRUE"]
    = Ok (encode [IOp1 O_PUSH0 x01; IVar1 O_PUSH1 [x01; x02]; IOp0 O_TRUE]).
Proof.
  apply (macro_expansion fl2_exact ct0 "m" ["A"] ["PUSH"; "A"]
           ([IOp1 O_PUSH0 x01] ++ [IVar1 O_PUSH1 [x01; x02]] ++ [IOp0 O_TRUE] ++ [])
           (invocation "m" ["d1"] ++ invocation "m" ["x0102"] ++ ["TRUE"] ++ [])
           (["PUSH"; "d1"] ++ ["PUSH"; "x0102"] ++ ["TRUE"] ++ [])).
  - repeat split; try reflexivity. repeat constructor.
  - apply (mq_inv fl2_exact _ _ "m" ["d1"] (mac_of ["A"] ["PUSH"; "A"]));
      [reflexivity|reflexivity|reflexivity|repeat constructor|reflexivity| |cbn; lia|].
    + apply (sq_cons fl2_exact Top None [IOp1 O_PUSH0 x01] ["PUSH"; "d1"] [] []); [|apply sq_nil].
      apply (st_pushp fl2_exact _ _ "PUSH" [x01] "d1"); [left; reflexivity| |reflexivity].
      apply (sp_d fl2_exact _ "d" "1" 1); [left; reflexivity| |reflexivity]. apply (num_dec 1). discriminate.
    + apply (mq_inv fl2_exact _ _ "m" ["x0102"] (mac_of ["A"] ["PUSH"; "A"]));
        [reflexivity|reflexivity|reflexivity|repeat constructor|reflexivity| |cbn; lia|].
      * apply (sq_cons fl2_exact Top None [IVar1 O_PUSH1 [x01; x02]] ["PUSH"; "x0102"] [] []); [|apply sq_nil].
        apply (st_pushp fl2_exact _ _ "PUSH" [x01; x02] "x0102"); [left; reflexivity| |reflexivity].
        apply sp_x; [left; reflexivity|reflexivity].
      * apply (mq_stmt fl2_exact _ _ [IOp0 O_TRUE] ["TRUE"] [] [] []); [|apply mq_nil].
        apply st_op0; [apply alias_name; reflexivity|reflexivity].
  - reflexivity.
Qed.

(* oddities of macros and comptime blocks (each checked on the real compiler) *)
Theorem macro_oddities :
  (* M1: a template is compiled by compile_script with a FRESH macro table: a macro cannot invoke a
     macro defined outside its own template ... *)
  asm ["!="; "m"; "["; "A"; "]"; "{"; "PUSH"; "A"; "}"; "!="; "n"; "["; "B"; "]"; "{"; "!m"; "["; "B"; "]"; "}";
       "!n"; "["; "d1"; "]"] = Err /\
  (* ... but one defined inside it *)
  asm ["!="; "m"; "["; "A"; "]"; "{"; "!="; "n"; "["; "B"; "]"; "{"; "PUSH"; "B"; "}"; "!n"; "["; "A"; "]"; "}";
       "!m"; "["; "d1"; "]"] = enc [IOp1 O_PUSH0 x01] /\
  (* M2: parse_comptime scans the flat symbol list: a definition inside an IF body is taken out of
     it and is visible everywhere; use before the definition works in the main code but not inside
     a comptime block that precedes the definition; "!=" inside a comment is a definition *)
  asm ["IF"; "{"; "!="; "m"; "["; "]"; "{"; "TRUE"; "}"; "}"; "!m"; "["; "]"] = enc [IIf []; IOp0 O_TRUE] /\
  asm ["!m"; "["; "]"; "!="; "m"; "["; "]"; "{"; "TRUE"; "}"] = enc [IOp0 O_TRUE] /\
  asm ["PUSH"; "~"; "{"; "!m"; "["; "]"; "}"; "!="; "m"; "["; "]"; "{"; "TRUE"; "}"] = Err /\
  asm ["#"; "!="; "#"; "TRUE"] = Err /\
  (* M3: a repeated parameter name: the last argument wins; M4: a redefinition replaces silently;
     names are case-insensitive *)
  asm ["!="; "m"; "["; "A"; "A"; "]"; "{"; "PUSH"; "A"; "}"; "!m"; "["; "d1"; "d2"; "]"] = enc [IOp1 O_PUSH0 x02] /\
  asm ["!="; "m"; "["; "]"; "{"; "TRUE"; "}"; "!="; "m"; "["; "]"; "{"; "FALSE"; "}"; "!M"; "["; "]"] = enc [IOp0 O_FALSE] /\
  (* M5: a comptime block is only meaningful in an operand position *)
  asm ["~"; "{"; "TRUE"; "}"] = Err.
Proof. repeat split; vm_compute; reflexivity. Qed.

(* run-time blocks on a small oracle (the four runs below were done on the real VM):
   the empty script leaves an empty stack; 03 00 (push1 d0 x) leaves the empty item;
   02 02 02 03 0e 02 (push d2 push d3 add_ints d2) leaves 05; 06 (pop0 on an empty stack) raises *)
Definition ct_example (code : bytes) : res (option bytes) :=
  if bytes_eqb code [] then Ok None
  else if bytes_eqb code [x03; x00] then Ok (Some [])
  else if bytes_eqb code [x02; x02; x02; x03; x0e; x02] then Ok (Some [x05])
  else if bytes_eqb code [x06] then Err
  else Unm.
Example run_block_examples :
  (* C1: an empty stack contributes no symbol: the operand of PUSH is the next symbol *)
  assemble_r fl2_exact ct_example ["PUSH"; "~!"; "{"; "}"; "d5"] = enc [IOp1 O_PUSH0 x05] /\
  (* an empty top item is the symbol x: 00 for a 1-byte operand (O6), an error for PUSH *)
  assemble_r fl2_exact ct_example ["ADD_INTS"; "~!"; "{"; "PUSH1"; "d0"; "x"; "}"] = enc [IOp1 O_ADD_INTS x00] /\
  assemble_r fl2_exact ct_example ["PUSH"; "~!"; "{"; "PUSH1"; "d0"; "x"; "}"] = Err /\
  assemble_r fl2_exact ct_example ["PUSH"; "~!"; "{"; "PUSH"; "d2"; "PUSH"; "d3"; "ADD_INTS"; "d2"; "}"]
    = enc [IOp1 O_PUSH0 x05] /\
  assemble_r fl2_exact ct_example ["PUSH"; "~!"; "{"; "POP0"; "}"] = Err /\
  (* "~" never asks the oracle *)
  assemble_r fl2_exact (fun _ => Err) ["PUSH"; "~"; "{"; "TRUE"; "FALSE"; "}"] = enc [IVar1 O_PUSH1 [x01; x00]].
Proof. repeat split; vm_compute; reflexivity. Qed.

Print Assumptions assemble_spells.
Print Assumptions assemble_r_spells.
Print Assumptions assemble_listing.
Print Assumptions assemble_parse_listing.
Print Assumptions assemble_decompile.
Print Assumptions reject_after.
Print Assumptions reject_operand_missing.
Print Assumptions reject_operand_missing_nop.
Print Assumptions reject_operand_missing_push.
Print Assumptions reject_second_operand_missing.
Print Assumptions val_byte_out_of_range.
Print Assumptions reject_bad_byte_operand.
Print Assumptions reject_bad_swap_operand.
Print Assumptions reject_unknown_name.
Print Assumptions reject_extra_close.
Print Assumptions reject_unclosed_block.
Print Assumptions reject_unclosed_def.
Print Assumptions names_case_insensitive.
Print Assumptions every_alias_spells.
Print Assumptions assemble_listing_needs_ldef_ok.
Print Assumptions reject_push1_size.
Print Assumptions reject_push2_size.
Print Assumptions fixed_push1_size_checked.
Print Assumptions definitions_emit_no_code.
Print Assumptions unused_definition.
Print Assumptions comptime_block.
Print Assumptions push_comptime.
Print Assumptions macro_expansion.
Print Assumptions macro_expansion_example.
Print Assumptions macro_oddities.
Print Assumptions fixed_def_alias.
Print Assumptions comptime_run_block.
Print Assumptions push_comptime_run.
Print Assumptions comptime_run_empty.
Print Assumptions comptime_run_error.
Print Assumptions run_block_examples.
Print Assumptions comptime_run_rewrite.
