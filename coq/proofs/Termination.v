(* C07 (termination): for every oracle, configuration, state, tape and pointer some fuel suffices.

   The measure is lexicographic.  An activation is given (c, L): c a lower bound of its tape's call
   counter when it starts (Budget.run_tape_floor: the counter of its own tape never drops below c
   while it runs) and L the length of its tape.
     - a CALL / EVAL sub-activation starts with counter >= c + 1, and only if c < callstack_limit:
       Z.to_nat (callstack_limit - c) decreases;
     - an IF / IF_ELSE / TRY / EXCEPT / LOOP body starts with counter >= c on a tape that was read
       from the current one: L decreases;
     - within an activation the pointer strictly increases with every instruction, and one
       instruction performs finitely many actions ([prog] is an inductive type).
   Fuel monotonicity (Budget.run_tape_fuel_le) lets the fuels found for the parts be added up. *)
From Coq Require Import ZArith List Bool Lia Wf_nat.
From Coq.Strings Require Import Byte String.
From TS Require Import State Prog Ops Interp StateLemmas Closure Pointer Discipline Budget.
Import ListNotations.
Local Open Scope nat_scope.

Section Term.
Variable orc : oracle.
Variable cfg : config.

Definition terminates (tid ptr : nat) (st : state) : Prop :=
  exists f, run_tape orc cfg f tid ptr st <> OutOfFuel.

Notation rtf := (rt orc cfg).

Lemma at_end_terminates t ptr s : List.length (data_of s t) <= ptr -> terminates t ptr s.
Proof. intro H. exists 1. rewrite run_tape_eq. apply Nat.leb_le in H. unfold data_of in H. rewrite H. discriminate. Qed.

(* a tape id outside the heap denotes the empty tape *)
Lemma outside_terminates t ptr s : List.length (st_tapes s) <= t -> terminates t ptr s.
Proof.
  intro H. apply at_end_terminates. unfold data_of. rewrite nth_tape_outside by exact H. simpl. lia.
Qed.

Lemma rt_heap_ok f : Closure.run_ok R_heap (rtf f).
Proof. intros t s. apply run_tape_heap. Qed.
Lemma rt_floor_ok c f : floor_ok c (rtf f).
Proof. intros t s H. apply run_tape_floor. exact H. Qed.

Section Activation.
Variable c : Z.
Variable L : nat.
Variable tid : nat.

Hypothesis Hsub : forall t s,
  t < List.length (st_tapes s) ->
  ((c < c_limit cfg)%Z /\ (c + 1 <= count_of s t)%Z) \/
  ((c <= count_of s t)%Z /\ List.length (data_of s t) < L) ->
  terminates t 0 s.

Lemma sub_term t s :
  (t < List.length (st_tapes s) ->
   ((c < c_limit cfg)%Z /\ (c + 1 <= count_of s t)%Z) \/
   ((c <= count_of s t)%Z /\ List.length (data_of s t) < L)) ->
  terminates t 0 s.
Proof.
  intro H. destruct (Nat.lt_ge_cases t (List.length (st_tapes s))) as [Hlt|Hge].
  - apply Hsub; auto.
  - apply outside_terminates. exact Hge.
Qed.

Lemma after_run_term fr t s :
  terminates t 0 s -> exists f, after_run fr (rtf f t s) <> SFuel.
Proof.
  intros [f Hf]. exists f. unfold rt. destruct (run_tape orc cfg f t 0 s); simpl; try discriminate.
  exfalso. apply Hf. reflexivity.
Qed.

Lemma try_run_term fr t s :
  terminates t 0 s ->
  exists f, match rtf f t s with
            | Done _ _ st' => SOk None fr st'
            | Raised e _ st' => SOk (Some e) fr st'
            | OutOfFuel => SFuel
            | Unmodelled w => SUnmod w
            end <> SFuel.
Proof.
  intros [f Hf]. exists f. unfold rt. destruct (run_tape orc cfg f t 0 s); simpl; try discriminate.
  exfalso. apply Hf. reflexivity.
Qed.

Lemma step_term X (a : action X) m (Q : X -> bmode -> Prop) fr st :
  b_ok cfg c L a m Q -> bsem c L tid m fr st -> exists f, step orc cfg (rtf f) a fr st <> SFuel.
Proof.
  intros H Hs. pose proof Hs as (Ht & Hl & Hu). pose proof Ht as (T1 & T2 & T3 & T4 & T5 & T6).
  destruct a; cbn [b_ok] in H; simpl;
    try (exists 0; discriminate).
  - exists 0. destruct (st_stack st); discriminate.
  - exists 0. destruct (_ <? _); [discriminate|]. destruct (_ <=? _); discriminate.
  - exists 0. destruct (st_stack st); discriminate.
  - exists 0. destruct (_ && _); discriminate.
  - exists 0. destruct (_ <? _); discriminate.
  - (* ACallDef *)
    destruct H as (Hup & Hlim & HQ). specialize (Hu Hup).
    unfold cur. rewrite T1. fold (count_of st tid). apply after_run_term. apply sub_term. intro Hin.
    left. split; [exact Hlim|]. rewrite set_count_length in Hin. unfold count_of at 1.
    rewrite count_set_count_same by exact Hin. exact Hu.
  - (* ARunSub *)
    destruct H as (Hk & HQ). unfold cur. rewrite T1. fold (count_of st tid).
    apply after_run_term. apply sub_term. intros _.
    simpl List.length. erewrite !(count_of_new st), (data_of_new st) by reflexivity. simpl.
    destruct k; [right; split; [lia|exact Hk]|left; split; [exact Hk|lia]].
  - (* ATrySub *)
    destruct H as (Hk & HQ). unfold cur. rewrite T1. fold (count_of st tid).
    apply try_run_term. apply sub_term. intros _.
    simpl List.length. erewrite !(count_of_new st), (data_of_new st) by reflexivity. simpl. right; split; [lia|exact Hk].
  - (* ARunLoop *)
    destruct H as (Hlp & HQ). destruct (Hl _ Hlp) as (L1 & L2 & L3).
    apply after_run_term. apply sub_term. intro Hin. right. split; assumption.
Qed.

Lemma interp_term A (p : prog A) : forall m (post : A -> bmode -> Prop) fr st,
  bud cfg c L p m post -> bsem c L tid m fr st ->
  exists f, interp orc cfg (rtf f) p fr st <> OutOfFuel.
Proof.
  induction p as [a|e|w|X a k IH]; intros m post fr st Hd Hs; cbn [bud] in Hd;
    try (exists 0; discriminate).
  destruct (step_term X a m _ fr st Hd Hs) as [f1 Hf1].
  pose proof (step_sound orc cfg c L tid (rtf f1) (rt_floor_ok c f1) X a m _ fr st Hd Hs) as Hss.
  destruct (step orc cfg (rtf f1) a fr st) as [x fr' st'|e fr' st'| |w] eqn:Es.
  - destruct Hss as (_ & m' & Hd' & Hs').
    destruct (IH x m' post fr' st' Hd' Hs') as [f2 Hf2].
    exists (f1 + f2). cbn [interp].
    rewrite (step_fuel_le orc cfg f1 (f1 + f2) X a fr st) by (try lia; rewrite Es; discriminate).
    rewrite Es.
    rewrite (interp_fuel_le orc cfg f2 (f1 + f2) A (k x) fr' st') by (try lia; exact Hf2).
    exact Hf2.
  - exists f1. cbn [interp]. rewrite Es. discriminate.
  - exfalso. apply Hf1. reflexivity.
  - exists f1. cbn [interp]. rewrite Es. discriminate.
Qed.

Lemma activation_term : forall k ptr st,
  tid < List.length (st_tapes st) -> List.length (data_of st tid) = L -> (c <= count_of st tid)%Z ->
  L - ptr <= k -> terminates tid ptr st.
Proof.
  induction k as [|k IH]; intros ptr st Hin HL Hc Hk;
    (destruct (Nat.le_gt_cases L ptr) as [Hle|Hlt]; [apply at_end_terminates; lia|]); [lia|].
  assert (Hlt' : ptr < List.length (to_data (nth_tape st tid))) by (fold (data_of st tid); lia).
  pose proof (bsem_start c tid ptr st Hin Hlt' Hc) as Hs0. rewrite HL in Hs0.
  pose proof (dispatch_bud cfg c L (code_at st tid ptr) mode0) as Hb.
  destruct (interp_term unit _ mode0 _ _ st Hb Hs0) as [f1 Hf1].
  pose proof (bud_sound orc cfg c L tid (rtf f1) (rt_floor_ok c f1) unit _ mode0 _ _ st Hb Hs0) as Hsnd.
  pose proof (interp_ptr orc cfg (rtf f1) (rt_heap_ok f1) unit (dispatch (code_at st tid ptr))
                {| fr_tid := tid; fr_ptr := S ptr |} st) as Hp.
  destruct (interp orc cfg (rtf f1) (dispatch (code_at st tid ptr))
                   {| fr_tid := tid; fr_ptr := S ptr |} st) as [u fr' st'|e fr' st'| |w] eqn:Ei;
    [|exists (S f1); rewrite run_tape_next, Ei by exact Hlt'; discriminate
     |exfalso; apply Hf1; reflexivity
     |exists (S f1); rewrite run_tape_next, Ei by exact Hlt'; discriminate].
  destruct Hsnd as (_ & m' & _ & ((B1 & B2 & B3 & B4 & B5 & B6) & _)).
  destruct Hp as (_ & _ & Hp). simpl in Hp.
  assert (Hge : S ptr <= fr_ptr fr') by (apply Hp; [exact Hin|unfold data_of in *; lia]).
  destruct (IH (fr_ptr fr') st' B2 B3 B6 ltac:(lia)) as [f2 Hf2].
  exists (S (f1 + f2)). rewrite run_tape_next by exact Hlt'.
  rewrite (interp_fuel_le orc cfg f1 (f1 + f2)) by (try lia; rewrite Ei; discriminate).
  rewrite Ei.
  rewrite (run_tape_fuel_le orc cfg f2 (f1 + f2)) by (try lia; exact Hf2).
  exact Hf2.
Qed.

End Activation.

Lemma terminates_measure : forall d L c tid ptr st,
  Z.to_nat (c_limit cfg - c) <= d ->
  tid < List.length (st_tapes st) -> (c <= count_of st tid)%Z -> List.length (data_of st tid) = L ->
  terminates tid ptr st.
Proof.
  induction d as [|d IHd]; intro L; induction L as [L IHL] using lt_wf_ind;
    intros c tid ptr st Hd Hin Hc HL.
  - apply (activation_term c L tid) with (k := L - ptr); auto.
    intros t s Ht [[H1 H2]|[H1 H2]]; [lia|].
    eapply (IHL _ H2 c); eauto.
  - apply (activation_term c L tid) with (k := L - ptr); auto.
    intros t s Ht [[H1 H2]|[H1 H2]].
    + apply (IHd (List.length (data_of s t)) (c + 1)%Z); auto. lia.
    + eapply (IHL _ H2 c); eauto.
Qed.

(* termination of run_tape, from EVERY state, tape and pointer *)
Theorem run_tape_terminates : forall tid ptr st,
  exists fuel, run_tape orc cfg fuel tid ptr st <> OutOfFuel.
Proof.
  intros tid ptr st.
  destruct (Nat.lt_ge_cases tid (List.length (st_tapes st))) as [Hlt|Hge].
  - apply (terminates_measure (Z.to_nat (c_limit cfg - count_of st tid)) (List.length (data_of st tid))
             (count_of st tid)); auto; lia.
  - apply outside_terminates. exact Hge.
Qed.

(* ... and from that fuel on the result is the same for every larger fuel *)
Corollary run_tape_total tid ptr st :
  exists fuel r, r <> OutOfFuel /\ forall fuel', fuel <= fuel' -> run_tape orc cfg fuel' tid ptr st = r.
Proof.
  destruct (run_tape_terminates tid ptr st) as [f Hf].
  exists f, (run_tape orc cfg f tid ptr st). split; [exact Hf|].
  intros f' Hle. apply run_tape_fuel_le; assumption.
Qed.

Theorem run_script_terminates : forall script vals,
  exists fuel, run_script orc cfg fuel script vals <> OutOfFuel.
Proof. intros script vals. apply run_tape_terminates. Qed.

Corollary run_script_total script vals :
  exists fuel r, r <> OutOfFuel /\ forall fuel', fuel <= fuel' -> run_script orc cfg fuel' script vals = r.
Proof. apply run_tape_total. Qed.

Lemma auth_rest_terminates : forall scripts prev st,
  exists fuel, forall fuel', fuel <= fuel' -> auth_rest orc cfg fuel' scripts prev st <> AuthFuel.
Proof.
  induction scripts as [|s rest IH]; intros prev st.
  - exists 0. intros f' _. simpl. destruct (st_stack st) as [|x [|y l]]; discriminate.
  - destruct (run_tape_total (List.length (st_tapes st)) 0 (next_script_state st prev s)) as (f1 & r & Hf1 & E).
    destruct r as [u fr' st'|e fr' st'| |w];
      [|exists f1; intros f' Hle; rewrite auth_rest_cons, E by exact Hle; discriminate
       |exfalso; apply Hf1; reflexivity
       |exists f1; intros f' Hle; rewrite auth_rest_cons, E by exact Hle; discriminate].
    destruct (IH (List.length (st_tapes st)) st') as [f2 Hf2].
    exists (f1 + f2). intros f' Hle. rewrite auth_rest_cons, E by lia. apply Hf2. lia.
Qed.

Theorem run_auth_scripts_terminates : forall scripts vals,
  exists fuel, forall fuel', fuel <= fuel' -> run_auth_scripts orc cfg fuel' scripts vals <> AuthFuel.
Proof.
  intros [|s rest] vals.
  - exists 0. intros f' _. discriminate.
  - unfold run_auth_scripts, run_script.
    destruct (run_tape_total 0 0 (init_state cfg s vals)) as (f1 & r & Hf1 & E).
    destruct r as [u fr' st'|e fr' st'| |w];
      [|exists f1; intros f' Hle; rewrite E by exact Hle; discriminate
       |exfalso; apply Hf1; reflexivity
       |exists f1; intros f' Hle; rewrite E by exact Hle; discriminate].
    destruct (auth_rest_terminates rest 0 st') as [f2 Hf2].
    exists (f1 + f2). intros f' Hle. rewrite E by lia. apply Hf2. lia.
Qed.

Corollary run_auth_scripts_total scripts vals :
  exists fuel r, r <> AuthFuel /\
    forall fuel', fuel <= fuel' -> run_auth_scripts orc cfg fuel' scripts vals = r.
Proof.
  destruct (run_auth_scripts_terminates scripts vals) as [f Hf].
  exists f, (run_auth_scripts orc cfg f scripts vals). split; [apply Hf; lia|].
  intros f' Hle. apply run_auth_scripts_fuel_le; [exact Hle|apply Hf; lia].
Qed.

End Term.

Print Assumptions run_tape_terminates.
Print Assumptions run_tape_total.
Print Assumptions run_script_terminates.
Print Assumptions run_script_total.
Print Assumptions run_auth_scripts_terminates.
Print Assumptions run_auth_scripts_total.
