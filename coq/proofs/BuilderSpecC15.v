(* C15: make_ptlc_lock / make_htlc_sha256_lock / make_htlc_shake256_lock with their witnesses — the
   authorisation verdict, exactly, at the level of the bytes the builders emit (Builders.v).
   OP_IF_ELSE is run by the real fetch/dispatch loop (sub-tape object, definitions copy, propagate_return):
   [if_else_done] / [if_else_raised] continue the run of a tape from the run of the selected arm. *)
From Coq Require Import ZArith List Bool Lia.
From Coq.Strings Require Import Byte String.
From TS Require Import Bytes State Prog Ops Interp StateLemmas InterpLemmas NopSpec StackLemmas
  BytesLemmas TapeLemmas SigSpec AuthSpec TimeSpec Asm Builders BuilderSpec.
Import ListNotations.
Local Open Scope nat_scope.

Definition ifelse_ops (b1 b2 : bytes) : bytes := len2 b1 ++ b1 ++ len2 b2 ++ b2.
Definition claim_arm (rcv : bytes) : bytes := push1_bytes rcv.
Definition refund_arm_bytes (c refund : bytes) : bytes := push1_bytes c ++ x26 :: push1_bytes refund.

Definition ptlc_claim_witness (sig : bytes) : bytes := encode [P1 sig; IOp0 O_TRUE].
Definition ptlc_refund_witness (sig : bytes) : bytes := encode [P1 sig; IOp0 O_FALSE].
Definition htlc_witness (sig preimage : bytes) : bytes := encode [P1 sig; P1 preimage].

Lemma arms_encoding rcv c refund :
  encode [IIfElse [P1 rcv] (refund_arm c refund)] =
    x2c :: ifelse_ops (claim_arm rcv) (refund_arm_bytes c refund).
Proof.
  unfold encode, refund_arm, P1, ifelse_ops, claim_arm, refund_arm_bytes, push1_bytes, len1.
  cbn [flat_map encode1]. rewrite !app_nil_r.
  change (opcode_byte O_IF_ELSE) with x2c. change (opcode_byte O_PUSH1) with x03.
  change (opcode_byte O_CHECK_TIMESTAMP_VERIFY) with x26.
  reflexivity.
Qed.

Lemma ptlc_lock_bytes rcv c refund fl :
  ptlc_lock rcv c refund fl =
    [x2c] ++ ifelse_ops (claim_arm rcv) (refund_arm_bytes c refund) ++ [x23; fl].
Proof.
  unfold ptlc_lock.
  replace (encode [IIfElse [P1 rcv] (refund_arm c refund); IOp1 O_CHECK_SIG fl])
    with (encode [IIfElse [P1 rcv] (refund_arm c refund)] ++ [x23; fl])
    by (unfold encode; cbn [flat_map]; rewrite !app_nil_r; reflexivity).
  rewrite arms_encoding. reflexivity.
Qed.

Lemma htlc_sha256_lock_bytes digest rcv c refund fl :
  htlc_sha256_lock digest rcv c refund fl =
    (x1e :: push1_bytes digest ++ [x21; x2c]) ++
    ifelse_ops (claim_arm rcv) (refund_arm_bytes c refund) ++ [x23; fl].
Proof.
  unfold htlc_sha256_lock.
  replace (encode [IOp0 O_SHA256; P1 digest; IOp0 O_EQUAL; IIfElse [P1 rcv] (refund_arm c refund); IOp1 O_CHECK_SIG fl])
    with ((x1e :: push1_bytes digest ++ [x21]) ++ encode [IIfElse [P1 rcv] (refund_arm c refund)] ++ [x23; fl])
    by (unfold encode; cbn [flat_map]; rewrite !app_nil_r;
        set (E := encode1 (IIfElse _ _)); unfold P1, push1_bytes; cbn [encode1 app];
        rewrite <- ?app_assoc; cbn [app]; reflexivity).
  rewrite arms_encoding. cbn [app]. rewrite <- ?app_assoc. cbn [app]. reflexivity.
Qed.

Lemma htlc_shake256_lock_bytes n digest rcv c refund fl :
  htlc_shake256_lock n digest rcv c refund fl =
    (x1f :: n :: push1_bytes digest ++ [x21; x2c]) ++
    ifelse_ops (claim_arm rcv) (refund_arm_bytes c refund) ++ [x23; fl].
Proof.
  unfold htlc_shake256_lock.
  replace (encode [IOp1 O_SHAKE256 n; P1 digest; IOp0 O_EQUAL; IIfElse [P1 rcv] (refund_arm c refund); IOp1 O_CHECK_SIG fl])
    with ((x1f :: n :: push1_bytes digest ++ [x21]) ++ encode [IIfElse [P1 rcv] (refund_arm c refund)] ++ [x23; fl])
    by (unfold encode; cbn [flat_map]; rewrite !app_nil_r;
        set (E := encode1 (IIfElse _ _)); unfold P1, push1_bytes; cbn [encode1 app];
        rewrite <- ?app_assoc; cbn [app]; reflexivity).
  rewrite arms_encoding. cbn [app]. rewrite <- ?app_assoc. cbn [app]. reflexivity.
Qed.

Lemma ptlc_claim_witness_bytes sig : ptlc_claim_witness sig = pushes_bytes [sig] ++ [x01].
Proof. unfold ptlc_claim_witness, encode, pushes_bytes. cbn [flat_map]. rewrite !app_nil_r. reflexivity. Qed.
Lemma ptlc_refund_witness_bytes sig : ptlc_refund_witness sig = pushes_bytes [sig] ++ [x00].
Proof. unfold ptlc_refund_witness, encode, pushes_bytes. cbn [flat_map]. rewrite !app_nil_r. reflexivity. Qed.
Lemma htlc_witness_bytes sig pre : htlc_witness sig pre = pushes_bytes [sig; pre].
Proof. reflexivity. Qed.

Definition sub_start (st : state) (tid : nat) (body : bytes) : state :=
  with_tapes (with_defs st (st_defs st ++ [nth_defs st (to_defs (nth_tape st tid))]))
    (st_tapes st ++ [{| to_data := body; to_count := to_count (nth_tape st tid);
                        to_defs := List.length (st_defs st) |}]).

(* the new tape object and its definition table; the old ones; stack, cache and log are those of [st] *)
Lemma nth_tape_sub_new st tid body :
  nth_tape (sub_start st tid body) (List.length (st_tapes st)) =
    {| to_data := body; to_count := to_count (nth_tape st tid); to_defs := List.length (st_defs st) |}.
Proof. exact (nth_tape_new st (sub_start st tid body) _ eq_refl). Qed.

Lemma nth_tape_sub_old st tid body t :
  t < List.length (st_tapes st) -> nth_tape (sub_start st tid body) t = nth_tape st t.
Proof. exact (nth_tape_old st (sub_start st tid body) _ t eq_refl). Qed.

Lemma nth_defs_sub_new st tid body :
  nth_defs (sub_start st tid body) (List.length (st_defs st)) = nth_defs st (to_defs (nth_tape st tid)).
Proof. exact (nth_defs_new st (sub_start st tid body) _ eq_refl). Qed.

Lemma tapes_sub st tid body : List.length (st_tapes (sub_start st tid body)) = S (List.length (st_tapes st)).
Proof. exact (tapes_len_new st (sub_start st tid body) _ eq_refl). Qed.

Lemma tdata_sub_new st tid body : tdata (sub_start st tid body) (List.length (st_tapes st)) = body.
Proof. exact (tdata_new st (sub_start st tid body) _ eq_refl). Qed.

Lemma tdata_sub_old st tid body t :
  t < List.length (st_tapes st) -> tdata (sub_start st tid body) t = tdata st t.
Proof. exact (tdata_old st (sub_start st tid body) _ t eq_refl). Qed.

Section Gen.
Variable orc : oracle.
Variable cfg : config.
Variable run : nat -> state -> outcome unit.

(* a body run as a new tape object: its outcome, with the frame of the caller *)
Lemma runsub_exec A (k : unit -> prog A) fr st data :
  interp orc cfg run (Act (ARunSub SubCopy data) k) fr st =
    match run (List.length (st_tapes st)) (sub_start st (fr_tid fr) data) with
    | Done _ _ st' => interp orc cfg run (k tt) fr st'
    | Raised e _ st' => Raised e fr st'
    | OutOfFuel => OutOfFuel
    | Unmodelled w => Unmodelled w
    end.
Proof. exact (after_run_step orc cfg run A k fr _). Qed.

Lemma propagate_none fr st :
  cache_get (st_cache st) returned_key = None ->
  interp orc cfg run propagate_return fr st = Done tt fr st.
Proof. intro H. unfold propagate_return, act. cbn [bind interp step]. rewrite H. reflexivity. Qed.

(* the two bodies of OP_IF_ELSE / OP_TRY_EXCEPT *)
Lemma read_block2 A (k : bytes -> bytes -> prog A) fr st (b1 b2 rest : bytes) :
  data_at fr st = ifelse_ops b1 b2 ++ rest -> (blen b1 < 65536)%Z -> (blen b2 < 65536)%Z ->
  interp orc cfg run (n1 <- read_u16 ;; d1 <- read n1 ;; n2 <- read_u16 ;; d2 <- read n2 ;; k d1 d2) fr st =
    interp orc cfg run (k b1 b2) (adv fr (List.length (ifelse_ops b1 b2))) st.
Proof.
  intros Hd H1 H2. unfold ifelse_ops in Hd. rewrite <- !app_assoc in Hd.
  rewrite (read_block orc cfg run _ (fun d1 => n2 <- read_u16 ;; d2 <- read n2 ;; k d1 d2) fr st b1 _ Hd H1).
  rewrite (read_block orc cfg run _ (k b1) _ st b2 rest (data_at_block _ _ _ _ Hd) H2).
  rewrite adv_adv. unfold ifelse_ops. rewrite <- !app_length, <- app_assoc. reflexivity.
Qed.

(* OP_IF_ELSE, the pointer standing just behind the opcode: both bodies are read, the condition is popped,
   a NEW tape object holding the selected body (same call count, a NEW copy of the definition table) is
   run from offset 0, then the control flag is propagated *)
Lemma if_else_at fr st (b1 b2 rest : bytes) cond s :
  data_at fr st = ifelse_ops b1 b2 ++ rest ->
  (blen b1 < 65536)%Z -> (blen b2 < 65536)%Z ->
  st_stack st = cond :: s ->
  interp orc cfg run OP_IF_ELSE fr st =
    let fr' := adv fr (List.length (ifelse_ops b1 b2)) in
    match run (List.length (st_tapes st))
              (sub_start (with_stack st s) (fr_tid fr) (if bytes_to_bool cond then b1 else b2)) with
    | Done _ _ st' => interp orc cfg run propagate_return fr' st'
    | Raised e _ st' => Raised e fr' st'
    | OutOfFuel => OutOfFuel
    | Unmodelled w => Unmodelled w
    end.
Proof.
  intros Hd H1 H2 Hs. unfold OP_IF_ELSE. rewrite (read_block2 _ _ fr st b1 b2 rest Hd H1 H2).
  unfold get, act. cbn [bind].
  rewrite (get_step orc cfg run _ _ _ st cond s Hs).
  rewrite runsub_exec. reflexivity.
Qed.

Lemma if_else_exec tid st ptr (pre b1 b2 tail : bytes) cond s :
  tdata st tid = pre ++ ifelse_ops b1 b2 ++ tail -> ptr = List.length pre ->
  (blen b1 < 65536)%Z -> (blen b2 < 65536)%Z ->
  st_stack st = cond :: s ->
  interp orc cfg run OP_IF_ELSE {| fr_tid := tid; fr_ptr := ptr |} st =
    let fr' := {| fr_tid := tid; fr_ptr := ptr + List.length (ifelse_ops b1 b2) |} in
    match run (List.length (st_tapes st))
              (sub_start (with_stack st s) tid (if bytes_to_bool cond then b1 else b2)) with
    | Done _ _ st' => interp orc cfg run propagate_return fr' st'
    | Raised e _ st' => Raised e fr' st'
    | OutOfFuel => OutOfFuel
    | Unmodelled w => Unmodelled w
    end.
Proof.
  intros Hd -> H1 H2 Hs.
  exact (if_else_at _ st b1 b2 tail cond s (data_at_pfx tid _ st pre _ Hd eq_refl) H1 H2 Hs).
Qed.

End Gen.

Section Run.
Variable orc : oracle.
Variable cfg : config.

Lemma if_else_done f tid p st data (b1 b2 rest : bytes) cond s fr' st' :
  tdata st tid = data -> skipn p data = x2c :: ifelse_ops b1 b2 ++ rest ->
  (blen b1 < 65536)%Z -> (blen b2 < 65536)%Z -> st_stack st = cond :: s ->
  run_tape orc cfg f (List.length (st_tapes st)) 0
           (sub_start (with_stack st s) tid (if bytes_to_bool cond then b1 else b2)) = Done tt fr' st' ->
  cache_get (st_cache st') returned_key = None ->
  run_tape orc cfg (S f) tid p st = run_tape orc cfg f tid (p + List.length (x2c :: ifelse_ops b1 b2)) st'.
Proof.
  intros Hd Hp H1 H2 Hs Harm Hret.
  rewrite (run_tape_fetch_at orc cfg f tid p st data x2c _ Hd Hp).
  change (dispatch (N.to_nat (Byte.to_N x2c))) with OP_IF_ELSE.
  rewrite (if_else_at orc cfg _ _ st b1 b2 rest cond s (data_at_next tid p st data x2c _ Hd Hp) H1 H2 Hs).
  cbv zeta. cbn [fr_tid]. rewrite Harm, (propagate_none orc cfg _ _ st' Hret).
  unfold adv. cbn [fr_ptr List.length]. rewrite Nat.add_succ_r. reflexivity.
Qed.

Lemma if_else_raised f tid p st data (b1 b2 rest : bytes) cond s e fr' st' :
  tdata st tid = data -> skipn p data = x2c :: ifelse_ops b1 b2 ++ rest ->
  (blen b1 < 65536)%Z -> (blen b2 < 65536)%Z -> st_stack st = cond :: s ->
  run_tape orc cfg f (List.length (st_tapes st)) 0
           (sub_start (with_stack st s) tid (if bytes_to_bool cond then b1 else b2)) = Raised e fr' st' ->
  run_tape orc cfg (S f) tid p st =
    Raised e {| fr_tid := tid; fr_ptr := p + List.length (x2c :: ifelse_ops b1 b2) |} st'.
Proof.
  intros Hd Hp H1 H2 Hs Harm.
  rewrite (run_tape_fetch_at orc cfg f tid p st data x2c _ Hd Hp).
  change (dispatch (N.to_nat (Byte.to_N x2c))) with OP_IF_ELSE.
  rewrite (if_else_at orc cfg _ _ st b1 b2 rest cond s (data_at_next tid p st data x2c _ Hd Hp) H1 H2 Hs).
  cbv zeta. cbn [fr_tid]. rewrite Harm.
  unfold adv. cbn [fr_ptr fr_tid List.length]. rewrite Nat.add_succ_r. reflexivity.
Qed.

End Run.

(* the lock tail: IF_ELSE { PUSH1 rcv } { PUSH1 c ; CHECK_TIMESTAMP_VERIFY ; PUSH1 refund } ; CHECK_SIG fl *)
Section B.
Variable orc : oracle.
Variable cfg : config.
Hypothesis Hsize : 65 <= c_max_item_size cfg.
Hypothesis Hitems : 4 <= c_max_items cfg.

(* the PVerify oracle answered with a list that is not exactly one item: outside the model *)
Definition bad_arity (pk sig : bytes) (c0 : cache) : Prop :=
  exists m l, msg_of (sig_flag sig) c0 = Some m /\
              orc PVerify [pk; m; firstn 64 sig] = OOk l /\ List.length l <> 1.

Definition verdict_spec (r : auth_result) (P U : Prop) : Prop :=
  match r with AuthVerdict b _ => b = true <-> P | AuthFuel => False | AuthUnmod _ => U end.

(* from the verdict of the last script's run; by cases on [r], so that no script is run to compare the two
   spellings of the predicate *)
Lemma verdict_of_outcome (P P' U U' : Prop) o :
  (P <-> P') -> (U -> U') -> outcome_spec P U o -> verdict_spec (BuilderSpec.finish o) P' U'.
Proof.
  intros H1 H2 H. apply finish_spec in H. destruct (BuilderSpec.finish o); cbn [BuilderSpec.verdict_spec] in H;
    cbn [verdict_spec]; tauto.
Qed.

Lemma arms_small rcv c refund :
  List.length rcv = 32 -> List.length refund = 32 -> List.length c <= 255 ->
  (blen (claim_arm rcv) < 65536)%Z /\ (blen (refund_arm_bytes c refund) < 65536)%Z.
Proof using Hsize Hitems.
  intros H1 H2 H3. unfold blen, claim_arm, refund_arm_bytes, push1_bytes.
  rewrite app_length. cbn [List.length]. rewrite H1, H2. lia.
Qed.

Local Notation V c ts thr := (ts_verdict cfg (be_to_Z c) ts thr).

(* the claim arm, a tape of its own *)
Lemma claim_arm_run F tid st rcv s :
  tdata st tid = claim_arm rcv -> 1 < F -> List.length rcv = 32 -> st_stack st = s -> space cfg s ->
  run_tape orc cfg F tid 0 st =
    Done tt {| fr_tid := tid; fr_ptr := 0 + List.length (claim_arm rcv) |} (with_stack st (rcv :: s)).
Proof.
  intros Hd HF L Hs Hsp.
  apply (runs_end (n := 1) (p := 0) (push1_runs orc cfg tid st rcv s ltac:(lia) Hs ltac:(unfold fits; lia) Hsp)
           Hd eq_refl HF).
Qed.

(* the refund arm, a tape of its own: PUSH1 c ; CHECK_TIMESTAMP_VERIFY ; PUSH1 refund *)
Lemma refund_arm_run f tid st c refund s ts thr :
  tdata st tid = refund_arm_bytes c refund ->
  0 < List.length c < 256 -> List.length refund < 256 -> st_stack st = s ->
  fits cfg c -> fits cfg refund -> S (List.length s) < c_max_items cfg ->
  cache_get (st_cache st) ts_key = Some (VOne (AInt ts)) ->
  flag_get (c_flags cfg) thr_key = Some (FVInt thr) ->
  run_tape orc cfg (S (S (S (S f)))) tid 0 st =
    if V c ts thr
    then Done tt {| fr_tid := tid; fr_ptr := List.length (refund_arm_bytes c refund) |}
              (with_stack st (refund :: s))
    else Raised ScriptExecutionError {| fr_tid := tid; fr_ptr := 3 + List.length c |} (with_stack st s).
Proof.
  intros Hd Hc Hr Hs Fc Fr Hsp Hts Hthr.
  assert (Hp : skipn 0 (refund_arm_bytes c refund) = push1_bytes c ++ x26 :: push1_bytes refund) by reflexivity.
  rewrite (push1_check_timestamp_verify_step orc cfg _ tid 0 st _ _ c s ts thr Hd Hp Hc Hs Fc ltac:(unfold space; lia)
             Hts Hthr).
  destruct (V c ts thr); [|reflexivity].
  rewrite (runs_end (n := 1) (code := push1_bytes refund)
             (push1_runs orc cfg tid (with_stack st s) refund s Hr eq_refl Fr ltac:(unfold space; lia)) Hd
             (skipn_app_r _ _ [x26] _ (skipn_app_r 0 _ _ _ Hp))) by lia.
  rewrite with_stack_twice. f_equal. f_equal.
  unfold refund_arm_bytes. rewrite app_length. cbn [List.length]. lia.
Qed.

(* IF_ELSE ... ; CHECK_SIG fl   run on a stack [cond; sig] *)
Lemma lock_tail f tid p st data cond sig rcv c refund fl ts thr c0 :
  tdata st tid = data ->
  skipn p data = x2c :: ifelse_ops (claim_arm rcv) (refund_arm_bytes c refund) ++ [x23; fl] ->
  tid < List.length (st_tapes st) ->
  st_stack st = [cond; sig] ->
  cache_get (st_cache st) returned_key = None ->
  (forall g, msg_of g (st_cache st) = msg_of g c0) ->
  List.length rcv = 32 -> List.length refund = 32 -> List.length c <= 255 ->
  (List.length sig = 64 \/ List.length sig = 65) ->
  (bytes_to_bool cond = false ->
     0 < List.length c /\ List.length c <= c_max_item_size cfg /\
     cache_get (st_cache st) ts_key = Some (VOne (AInt ts)) /\
     flag_get (c_flags cfg) thr_key = Some (FVInt thr)) ->
  outcome_spec
    (if bytes_to_bool cond then sig_accepts orc cfg rcv sig (b2z fl) c0
     else V c ts thr = true /\ sig_accepts orc cfg refund sig (b2z fl) c0)
    (if bytes_to_bool cond then bad_arity rcv sig c0
     else V c ts thr = true /\ bad_arity refund sig c0)
    (run_tape orc cfg (S (S (S (S (S f))))) tid p st).
Proof using Hsize Hitems.
  intros Hd Hp Hlt Hs Hret Hmsg L1 L2 L3 Lsig Hts.
  destruct (arms_small rcv c refund L1 L2 L3) as [S1 S2].
  set (ops := ifelse_ops (claim_arm rcv) (refund_arm_bytes c refund)) in *.
  assert (Hd' : forall body stk, tdata (with_stack (sub_start (with_stack st [sig]) tid body) stk) tid = data).
  { intros body stk. exact (eq_trans (tdata_sub_old (with_stack st [sig]) tid body tid Hlt) Hd). }
  pose proof (skipn_app_r p data (x2c :: ops) [x23; fl] Hp) as Hp1.
  assert (Hlast : forall body pk, List.length pk = 32 ->
            outcome_spec (sig_accepts orc cfg pk sig (b2z fl) c0) (bad_arity pk sig c0)
              (run_tape orc cfg (S (S (S (S f)))) tid (p + List.length (x2c :: ops))
                        (with_stack (sub_start (with_stack st [sig]) tid body) [pk; sig]))).
  { intros body pk Lpk.
    apply (check_sig_last orc cfg _ tid _ _ data fl pk sig c0 (Hd' body _) Hp1 eq_refl Lpk Lsig).
    - unfold room. simpl. lia.
    - apply Hmsg. }
  destruct (bytes_to_bool cond) eqn:Eb.
  - rewrite (if_else_done orc cfg (S (S (S (S f)))) tid p st data _ _ [x23; fl] cond [sig] _ _ Hd Hp S1 S2 Hs
               ltac:(rewrite Eb; apply (claim_arm_run (S (S (S (S f)))) _ _ rcv [sig] (tdata_sub_new (with_stack st [sig]) tid _) ltac:(lia) L1 eq_refl);
                     unfold space; simpl; lia) Hret).
    apply Hlast. exact L1.
  - destruct (Hts eq_refl) as (C1 & C2 & C3 & C4).
    pose proof (refund_arm_run f (List.length (st_tapes st)) (sub_start (with_stack st [sig]) tid (refund_arm_bytes c refund))
                  c refund [sig] ts thr (tdata_sub_new _ tid _) ltac:(lia) ltac:(lia) eq_refl C2
                  ltac:(unfold fits; lia) ltac:(simpl; lia) C3 C4) as Harm.
    destruct (V c ts thr).
    + rewrite (if_else_done orc cfg _ tid p st data _ _ [x23; fl] cond [sig] _ _ Hd Hp S1 S2 Hs
                 ltac:(rewrite Eb; exact Harm) Hret).
      eapply outcome_spec_iff; [| |apply (Hlast _ refund L2)]; tauto.
    + rewrite (if_else_raised orc cfg _ tid p st data _ _ [x23; fl] cond [sig] _ _ _ Hd Hp S1 S2 Hs
                 ltac:(rewrite Eb; exact Harm)).
      cbn [outcome_spec]. intros [H _]. discriminate.
Qed.

(* whether the digests agree, as the condition that EQUAL leaves for IF_ELSE *)
Lemma by_digest (h digest : bytes) (A B : Prop) :
  (if bytes_to_bool (boolb (bytes_eqb digest h)) then A else B) <-> (h = digest /\ A) \/ (h <> digest /\ B).
Proof.
  rewrite bytes_to_bool_boolb. destruct (bytes_eqb digest h) eqn:E.
  - apply bytes_eqb_eq in E. subst h. tauto.
  - assert (h <> digest) by (intros ->; rewrite bytes_eqb_refl in E; discriminate). tauto.
Qed.

(* PUSH1 digest ; EQUAL ; IF_ELSE ... ; CHECK_SIG fl   run on a stack [h; sig] *)
Lemma htlc_tail f tid p st data h digest sig rcv c refund fl ts thr c0 :
  tdata st tid = data ->
  skipn p data = push1_bytes digest ++ [x21] ++
                 x2c :: ifelse_ops (claim_arm rcv) (refund_arm_bytes c refund) ++ [x23; fl] ->
  tid < List.length (st_tapes st) ->
  st_stack st = [h; sig] ->
  cache_get (st_cache st) returned_key = None ->
  (forall g, msg_of g (st_cache st) = msg_of g c0) ->
  List.length rcv = 32 -> List.length refund = 32 ->
  0 < List.length c <= 255 -> List.length c <= c_max_item_size cfg ->
  (List.length sig = 64 \/ List.length sig = 65) ->
  List.length digest < 256 -> List.length digest <= c_max_item_size cfg ->
  cache_get (st_cache st) ts_key = Some (VOne (AInt ts)) ->
  flag_get (c_flags cfg) thr_key = Some (FVInt thr) ->
  outcome_spec
    ((h = digest /\ sig_accepts orc cfg rcv sig (b2z fl) c0) \/
     (h <> digest /\ V c ts thr = true /\ sig_accepts orc cfg refund sig (b2z fl) c0))
    ((h = digest /\ bad_arity rcv sig c0) \/
     (h <> digest /\ V c ts thr = true /\ bad_arity refund sig c0))
    (run_tape orc cfg (S (S (S (S (S (S (S f))))))) tid p st).
Proof using Hsize Hitems.
  intros Hd Hp Hlt Hs Hret Hmsg L1 L2 L3 Fc Lsig Ld Fd Hts Hthr.
  rewrite (runs1_at (code := push1_bytes digest)
             (push1_runs orc cfg tid st digest [h; sig] Ld Hs Fd ltac:(unfold space; simpl; lia)) Hd Hp).
  pose proof (skipn_app_r p data _ _ Hp) as Hp1.
  rewrite (runs1_at (equal_runs orc cfg tid (with_stack st [digest; h; sig]) digest h [sig] eq_refl ltac:(unfold room; simpl; lia)) Hd Hp1).
  eapply outcome_spec_iff; [apply by_digest|apply by_digest|].
  apply (lock_tail f tid _ (with_stack (with_stack st [digest; h; sig]) [boolb (bytes_eqb digest h); sig]) data
           (boolb (bytes_eqb digest h)) sig rcv c refund fl ts thr c0 Hd
           (skipn_app_r _ data [x21] _ Hp1) Hlt eq_refl Hret Hmsg L1 L2 ltac:(lia) Lsig).
  intros _. repeat split; try assumption; lia.
Qed.

(* the lock starts as the second script, after a witness that left [stk] *)
Lemma lock_tail_auth F w lock vals fr st1 (P P' U U' : Prop) :
  run_script orc cfg F w vals = Done tt fr st1 ->
  (P <-> P') -> (U -> U') ->
  outcome_spec P U (run_tape orc cfg F (fst (next_start st1 0 lock)) 0 (snd (next_start st1 0 lock))) ->
  verdict_spec (run_auth_scripts orc cfg F [w; lock] vals) P' U'.
Proof. intros Hw H1 H2 H. rewrite (auth_two orc cfg F w lock vals fr st1 Hw). exact (verdict_of_outcome _ _ _ _ _ H1 H2 H). Qed.

(* PTLC, claim path: witness PUSH1 sig ; TRUE  —  at any time *)
Theorem ptlc_claim_exact f rcv c refund sig fl vals :
  List.length rcv = 32 -> List.length refund = 32 -> List.length c <= 255 ->
  (List.length sig = 64 \/ List.length sig = 65) ->
  verdict_spec
    (run_auth_scripts orc cfg (S (S (S (S (S f))))) [ptlc_claim_witness sig; ptlc_lock rcv c refund fl] vals)
    (sig_accepts orc cfg rcv sig (b2z fl) (init_cache cfg vals))
    (bad_arity rcv sig (init_cache cfg vals)).
Proof using Hsize Hitems.
  intros L1 L2 L3 Lsig. rewrite ptlc_claim_witness_bytes, ptlc_lock_bytes.
  assert (Hv : forall v, In v [sig] -> List.length v < 256 /\ fits cfg v)
    by (intros v [<-|[]]; unfold fits; lia).
  pose proof (flagged_witness_runs orc cfg (S (S (S (S (S f))))) [sig] true vals ltac:(simpl; lia) ltac:(simpl; lia)
                ltac:(lia) Hv) as Hw.
  cbv zeta in Hw. cbn [rev app] in Hw.
  eapply (lock_tail_auth _ _ _ _ _ _ _ _ _ _ Hw); [reflexivity|exact (fun H => H)|].
  set (st1 := with_stack (init_state cfg _ vals) _).
  pose proof (lock_tail f (fst (next_start st1 0 _)) 0 (snd (next_start st1 0 _)) _ (boolb true) sig rcv c refund fl 0%Z 0%Z
                (init_cache cfg vals) (next_start_tdata st1 0 _) eq_refl (next_start_lt st1 0 _) eq_refl
                (next_start_returned st1 0 _) (next_start_msg st1 0 _) L1 L2 L3 Lsig
                ltac:(intro E; discriminate E)) as H.
  exact H.
Qed.

(* PTLC, refund path: witness PUSH1 sig ; FALSE *)
Theorem ptlc_refund_exact f rcv c refund sig fl vals ts thr :
  List.length rcv = 32 -> List.length refund = 32 ->
  2 <= List.length c <= 255 -> List.length c <= c_max_item_size cfg ->
  (List.length sig = 64 \/ List.length sig = 65) ->
  cache_get (init_cache cfg vals) ts_key = Some (VOne (AInt ts)) ->
  flag_get (c_flags cfg) thr_key = Some (FVInt thr) ->
  verdict_spec
    (run_auth_scripts orc cfg (S (S (S (S (S f))))) [ptlc_refund_witness sig; ptlc_lock rcv c refund fl] vals)
    (ts_verdict cfg (be_to_Z c) ts thr = true /\ sig_accepts orc cfg refund sig (b2z fl) (init_cache cfg vals))
    (ts_verdict cfg (be_to_Z c) ts thr = true /\ bad_arity refund sig (init_cache cfg vals)).
Proof using Hsize Hitems.
  intros L1 L2 L3 Fc Lsig Hts Hthr. rewrite ptlc_refund_witness_bytes, ptlc_lock_bytes.
  assert (Hv : forall v, In v [sig] -> List.length v < 256 /\ fits cfg v)
    by (intros v [<-|[]]; unfold fits; lia).
  pose proof (flagged_witness_runs orc cfg (S (S (S (S (S f))))) [sig] false vals ltac:(simpl; lia) ltac:(simpl; lia)
                ltac:(lia) Hv) as Hw.
  cbv zeta in Hw. cbn [rev app] in Hw.
  eapply (lock_tail_auth _ _ _ _ _ _ _ _ _ _ Hw); [reflexivity|exact (fun H => H)|].
  set (st1 := with_stack (init_state cfg _ vals) _).
  apply (lock_tail f (fst (next_start st1 0 _)) 0 (snd (next_start st1 0 _)) _ (boolb false) sig rcv c refund fl ts thr
           (init_cache cfg vals) (next_start_tdata st1 0 _) eq_refl (next_start_lt st1 0 _) eq_refl
           (next_start_returned st1 0 _) (next_start_msg st1 0 _) L1 L2); [lia|exact Lsig|].
  intros _. split; [lia|]. split; [exact Fc|]. split; [exact (eq_trans (next_start_ts st1 0 _) Hts)|exact Hthr].
Qed.

(* HTLC: witness PUSH1 sig ; PUSH1 preimage; the lock begins with the hash instruction [first], which
   turns the preimage into h *)
Lemma htlc_exact f first digest rcv c refund sig preimage h fl vals ts thr :
  (forall tid st, st_stack st = [preimage; sig] -> runs orc cfg 1 tid first st (with_stack st [h; sig])) ->
  List.length rcv = 32 -> List.length refund = 32 ->
  2 <= List.length c <= 255 -> List.length c <= c_max_item_size cfg ->
  (List.length sig = 64 \/ List.length sig = 65) ->
  List.length digest < 256 -> List.length digest <= c_max_item_size cfg ->
  List.length preimage < 256 -> List.length preimage <= c_max_item_size cfg ->
  cache_get (init_cache cfg vals) ts_key = Some (VOne (AInt ts)) ->
  flag_get (c_flags cfg) thr_key = Some (FVInt thr) ->
  let c0 := init_cache cfg vals in
  verdict_spec
    (run_auth_scripts orc cfg (S (S (S (S (S (S (S (S f))))))))
       [htlc_witness sig preimage;
        first ++ push1_bytes digest ++ [x21] ++
        x2c :: ifelse_ops (claim_arm rcv) (refund_arm_bytes c refund) ++ [x23; fl]] vals)
    ((h = digest /\ sig_accepts orc cfg rcv sig (b2z fl) c0) \/
     (h <> digest /\ ts_verdict cfg (be_to_Z c) ts thr = true /\ sig_accepts orc cfg refund sig (b2z fl) c0))
    ((h = digest /\ bad_arity rcv sig c0) \/
     (h <> digest /\ ts_verdict cfg (be_to_Z c) ts thr = true /\ bad_arity refund sig c0)).
Proof using Hsize Hitems.
  intros Hfirst L1 L2 L3 Fc Lsig Ld Fd Lp Fp Hts Hthr c0. rewrite htlc_witness_bytes.
  assert (Hv : forall v, In v [sig; preimage] -> List.length v < 256 /\ fits cfg v)
    by (intros v [<-|[<-|[]]]; unfold fits; lia).
  pose proof (pushes_witness_runs orc cfg (S (S (S (S (S (S (S (S f)))))))) [sig; preimage] vals ltac:(simpl; lia)
                ltac:(simpl; lia) Hv) as Hw.
  cbn [rev app] in Hw.
  eapply (lock_tail_auth _ _ _ _ _ _ _ _ _ _ Hw); [reflexivity|exact (fun H => H)|].
  set (st1 := with_stack (init_state cfg _ vals) _).
  set (lock := first ++ _).
  pose proof (next_start_tdata st1 0 lock) as Hd.
  rewrite (runs1_at (Hfirst (fst (next_start st1 0 lock)) (snd (next_start st1 0 lock)) eq_refl) Hd
             (eq_refl : skipn 0 lock = first ++ _)).
  exact (htlc_tail f _ _ (with_stack (snd (next_start st1 0 lock)) [h; sig]) lock h digest sig rcv c refund fl ts thr c0 Hd (skipn_app_r 0 lock first _ eq_refl)
           (next_start_lt st1 0 lock) eq_refl (next_start_returned st1 0 lock) (next_start_msg st1 0 lock)
           L1 L2 ltac:(lia) Fc Lsig Ld Fd (eq_trans (next_start_ts st1 0 lock) Hts) Hthr).
Qed.

Theorem htlc_sha256_exact f digest rcv c refund sig preimage h fl vals ts thr :
  List.length rcv = 32 -> List.length refund = 32 ->
  2 <= List.length c <= 255 -> List.length c <= c_max_item_size cfg ->
  (List.length sig = 64 \/ List.length sig = 65) ->
  List.length digest = 32 -> List.length h = 32 ->
  List.length preimage < 256 -> List.length preimage <= c_max_item_size cfg ->
  orc PSha256 [preimage] = OOk [h] ->
  cache_get (init_cache cfg vals) ts_key = Some (VOne (AInt ts)) ->
  flag_get (c_flags cfg) thr_key = Some (FVInt thr) ->
  let c0 := init_cache cfg vals in
  verdict_spec
    (run_auth_scripts orc cfg (S (S (S (S (S (S (S (S f))))))))
       [htlc_witness sig preimage; htlc_sha256_lock digest rcv c refund fl] vals)
    ((h = digest /\ sig_accepts orc cfg rcv sig (b2z fl) c0) \/
     (h <> digest /\ ts_verdict cfg (be_to_Z c) ts thr = true /\ sig_accepts orc cfg refund sig (b2z fl) c0))
    ((h = digest /\ bad_arity rcv sig c0) \/
     (h <> digest /\ ts_verdict cfg (be_to_Z c) ts thr = true /\ bad_arity refund sig c0)).
Proof using Hsize Hitems.
  intros L1 L2 L3 Fc Lsig Ld Lh Lp Fp Ho Hts Hthr.
  replace (htlc_sha256_lock digest rcv c refund fl)
    with ([x1e] ++ push1_bytes digest ++ [x21] ++
          x2c :: ifelse_ops (claim_arm rcv) (refund_arm_bytes c refund) ++ [x23; fl])
    by (rewrite htlc_sha256_lock_bytes; cbn [app]; rewrite <- ?app_assoc; reflexivity).
  apply (htlc_exact f [x1e] digest rcv c refund sig preimage h fl vals ts thr); try assumption; try lia.
  intros tid st Hs. apply (sha256_runs orc cfg tid st preimage h [sig]); [exact Hs|exact Ho|unfold fits; lia|unfold space; simpl; lia].
Qed.

Theorem htlc_shake256_exact f n digest rcv c refund sig preimage h fl vals ts thr :
  List.length rcv = 32 -> List.length refund = 32 ->
  2 <= List.length c <= 255 -> List.length c <= c_max_item_size cfg ->
  (List.length sig = 64 \/ List.length sig = 65) ->
  List.length digest < 256 -> List.length digest <= c_max_item_size cfg ->
  List.length h <= c_max_item_size cfg ->
  List.length preimage < 256 -> List.length preimage <= c_max_item_size cfg ->
  orc PShake256 [preimage; [n]] = OOk [h] ->
  cache_get (init_cache cfg vals) ts_key = Some (VOne (AInt ts)) ->
  flag_get (c_flags cfg) thr_key = Some (FVInt thr) ->
  let c0 := init_cache cfg vals in
  verdict_spec
    (run_auth_scripts orc cfg (S (S (S (S (S (S (S (S f))))))))
       [htlc_witness sig preimage; htlc_shake256_lock n digest rcv c refund fl] vals)
    ((h = digest /\ sig_accepts orc cfg rcv sig (b2z fl) c0) \/
     (h <> digest /\ ts_verdict cfg (be_to_Z c) ts thr = true /\ sig_accepts orc cfg refund sig (b2z fl) c0))
    ((h = digest /\ bad_arity rcv sig c0) \/
     (h <> digest /\ ts_verdict cfg (be_to_Z c) ts thr = true /\ bad_arity refund sig c0)).
Proof using Hsize Hitems.
  intros L1 L2 L3 Fc Lsig Ld Fd Fh Lp Fp Ho Hts Hthr.
  replace (htlc_shake256_lock n digest rcv c refund fl)
    with ([x1f; n] ++ push1_bytes digest ++ [x21] ++
          x2c :: ifelse_ops (claim_arm rcv) (refund_arm_bytes c refund) ++ [x23; fl])
    by (rewrite htlc_shake256_lock_bytes; cbn [app]; rewrite <- ?app_assoc; reflexivity).
  apply (htlc_exact f [x1f; n] digest rcv c refund sig preimage h fl vals ts thr); try assumption.
  intros tid st Hs. apply (shake_runs orc cfg tid st n preimage h [sig]); [exact Hs|exact Ho|exact Fh|unfold space; simpl; lia].
Qed.

End B.
