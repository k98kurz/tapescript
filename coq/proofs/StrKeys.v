(* C08: no instruction, at any nesting, changes a str-keyed cache entry other than the
   interpreter's own control flag 'returned'. *)
From Coq Require Import ZArith List Bool Lia.
From Coq.Strings Require Import Byte String.
From TS Require Import Bytes State Prog Interp StateLemmas Closure.
Import ListNotations.
Local Open Scope nat_scope.

Definition returned_name : bytes := str "returned".

Definition R_str (st st' : state) : Prop :=
  forall k, bytes_eqb k returned_name = false ->
    cache_get (st_cache st') (KStr k) = cache_get (st_cache st) (KStr k).

Lemma R_str_refl s : R_str s s.
Proof. intros k _. reflexivity. Qed.

Lemma R_str_trans a b c : R_str a b -> R_str b c -> R_str a c.
Proof. intros H1 H2 k Hk. rewrite (H2 k Hk). apply H1. exact Hk. Qed.

Lemma R_str_cache_eq st st' : st_cache st' = st_cache st -> R_str st st'.
Proof. intros H k _. rewrite H. reflexivity. Qed.

Lemma R_str_set_bytes st k v : R_str st (with_cache st (cache_set (st_cache st) (KBytes k) v)).
Proof. intros k' _. simpl. apply cache_get_set_other. reflexivity. Qed.

Lemma returned_key_other k : bytes_eqb k returned_name = false -> ckey_eqb returned_key (KStr k) = false.
Proof. intro H. unfold returned_key, returned_name in *. cbn [ckey_eqb]. rewrite bytes_eqb_sym. exact H. Qed.

Lemma R_str_set_returned st v : R_str st (with_cache st (cache_set (st_cache st) returned_key v)).
Proof. intros k Hk. simpl. apply cache_get_set_other. apply returned_key_other. exact Hk. Qed.

Lemma R_str_del_returned st : R_str st (with_cache st (cache_del (st_cache st) returned_key)).
Proof. intros k Hk. simpl. apply cache_get_del_other. apply returned_key_other. exact Hk. Qed.

Lemma R_str_del_returned' st st1 :
  st_cache st1 = st_cache st -> R_str st (with_cache st1 (cache_del (st_cache st1) returned_key)).
Proof. intros E k Hk. simpl. rewrite E. apply cache_get_del_other. apply returned_key_other. exact Hk. Qed.

Section Str.
Variable orc : oracle.
Variable cfg : config.

Lemma step_closed_str : step_closed orc cfg R_str.
Proof.
  intros run Hrun X a fr st.
  destruct a; simpl;
    try (apply R_str_refl);
    try (apply R_str_cache_eq; reflexivity).
  - (* AGet *) destruct (st_stack st); simpl; [apply R_str_refl|apply R_str_cache_eq; reflexivity].
  - (* APut *)
    destruct (_ <? _); simpl; [apply R_str_refl|].
    destruct (_ <=? _); simpl; [apply R_str_refl|apply R_str_cache_eq; reflexivity].
  - (* APeek *) destruct (st_stack st); simpl; apply R_str_refl.
  - (* ASwapIdx *) destruct (_ && _); simpl; [apply R_str_cache_eq; reflexivity|exact I].
  - (* ARead *) destruct (_ <? _); simpl; apply R_str_refl.
  - (* ACacheSet *) apply R_str_set_bytes.
  - (* AReturnedSet *) apply R_str_set_returned.
  - (* AReturnedClear *) apply R_str_del_returned.
  - (* ACallDef *)
    eapply after_run_closed; [exact R_str_trans| |apply Hrun]; apply R_str_cache_eq; reflexivity.
  - (* ARunSub *)
    eapply after_run_closed; [exact R_str_trans| |apply Hrun]; apply R_str_cache_eq; reflexivity.
  - (* ATrySub *)
    eapply try_run_closed; [exact R_str_trans| |apply Hrun]; apply R_str_cache_eq; reflexivity.
  - (* ARunLoop *) eapply after_run_closed; [exact R_str_trans| |apply Hrun]; apply R_str_refl.
Qed.

Theorem run_tape_str : forall fuel tid ptr st,
  R_out R_str st (run_tape orc cfg fuel tid ptr st).
Proof. apply run_tape_closed; [apply R_str_refl|apply R_str_trans|apply step_closed_str]. Qed.

(* run_script: the final cache agrees with the embedder's values on every str key but 'returned' *)
Theorem run_script_str fuel script vals :
  match run_script orc cfg fuel script vals with
  | Done _ _ st' | Raised _ _ st' =>
    forall k, bytes_eqb k returned_name = false ->
      cache_get (st_cache st') (KStr k) = cache_get (init_cache cfg vals) (KStr k)
  | _ => True
  end.
Proof.
  unfold run_script.
  pose proof (run_tape_str fuel 0 0 (init_state cfg script vals)) as H.
  destruct (run_tape orc cfg fuel 0 0 (init_state cfg script vals)); simpl in *; try exact I; exact H.
Qed.

Theorem run_auth_scripts_str fuel scripts vals :
  match run_auth_scripts orc cfg fuel scripts vals with
  | AuthVerdict _ st' =>
    forall k, bytes_eqb k returned_name = false ->
      cache_get (st_cache st') (KStr k) = cache_get (init_cache cfg vals) (KStr k)
  | _ => True
  end.
Proof.
  apply (run_auth_scripts_inv orc cfg
           (fun st => forall k, bytes_eqb k returned_name = false ->
              cache_get (st_cache st) (KStr k) = cache_get (init_cache cfg vals) (KStr k))).
  - intros fuel' tid ptr st H. pose proof (run_tape_str fuel' tid ptr st) as Hr.
    destruct (run_tape orc cfg fuel' tid ptr st); simpl in *; try exact I;
      intros k Hk; rewrite (Hr k Hk); apply H, Hk.
  - intros st prev s H. exact H.
  - intros st H k Hk. simpl. rewrite cache_get_del_other by (apply returned_key_other, Hk). apply H, Hk.
  - intros st H. exact H.
  - intros s k Hk. reflexivity.
Qed.

End Str.
